(* One session of Model/TcpclConc.v against the ideal peer.
   A session is seen as two pipelines of messages (towards TransferManager.handle / away from the
   session, oldest first) and the control states that matter ([tcn_view]); every step of the model is
   one of a few effects on the view ([tcn_veff], [tcn_sstep_veff]), and the invariants are preserved by
   effects.  To its peer a session is a relay, segments in and acknowledgements out
   ([tcn_veff_relay]); to its own Sends it is the stream of their segments going out
   ([tcn_segstream]) and of their acknowledgements coming back ([tcn_ackstream]), whatever lies
   beyond the transport.  Last: what a state looks like in which no live process can step. *)
From Coq Require Import Lia.
From DTN Require Import Base ListFacts TcpclConc.
Open Scope nat_scope.

Definition tcn_oh {A} (o : option A) : list A := match o with Some x => [x] | None => [] end.
Definition tcn_st_in (g : tcn_stage) : list tcn_msg :=
  match g with GUp m => [m] | GUpOut m _ => [m] | _ => [] end.
Definition tcn_st_out (g : tcn_stage) : list tcn_msg :=
  match g with GOut o => [o] | GUpOut _ o => [o] | _ => [] end.
(* content of a transport direction, oldest first *)
Definition tcn_lk (l : tcn_link) : list tcn_msg := tcn_oh (lk_h l) ++ lk_q l.

Record tcn_view := mkV {
  v_xs : list tcn_msg;     (* ExchangeMsgIn ++ stage (message to hand up): what the stage let pass *)
  v_in : list tcn_msg;     (* inChan *)
  v_ops : list tcn_msg;    (* writer's hand ++ outChan ++ stage (messageOut) ++ ExchangeMsgOut *)
  v_li : list tcn_msg;     (* transport towards the session *)
  v_lo : list tcn_msg;     (* transport away from the session *)
  v_h : tcn_hst;
  v_rx : list (nat * nat);
  v_snd : list tcn_send;
  v_cl : option nat;
  v_rep : list nat;
  v_up : list nat
}.

Definition tcn_view_of (s : tcn_sess) (li lo : tcn_link) : tcn_view :=
  mkV (tcn_xin s ++ tcn_st_in (tcn_st s)) (tcn_in s)
      (tcn_oh (tcn_wh s) ++ tcn_out s ++ tcn_st_out (tcn_st s) ++ tcn_xout s)
      (tcn_lk li) (tcn_lk lo) (tcn_h s) (tcn_rx s) (tcn_snd s) (tcn_cl s) (tcn_rep s) (tcn_up s).

(* steps of a Send call that touch nothing but its own record *)
Inductive tcn_sdloc (i : nat) : tcn_proc -> tcn_send -> tcn_send -> Prop :=
| sl_emstop d (Em : sd_em d = EmLoop) (St : sd_stop d = true) :
    tcn_sdloc i (PEmit i) d (sd_set_em d (sd_next d) EmDone (sd_len d))
| sl_emnext d (Em : sd_em d = EmLoop) (St : sd_stop d = false) (Lt : sd_next d < sd_n d) :
    tcn_sdloc i (PEmit i) d (sd_set_em d (S (sd_next d)) (EmPut (CSeg i (S (sd_next d) =? sd_n d))) (sd_len d))
| sl_emeof d (Em : sd_em d = EmLoop) (St : sd_stop d = false) (Le : sd_n d <= sd_next d) :
    tcn_sdloc i (PEmit i) d (sd_set_em d (sd_next d) EmDone (Some (sd_next d)))
| sl_len d d' (Mn : tcn_main_len d = Some d') : tcn_sdloc i (PSendLen i) d d'
| sl_ack d d' (Mn : tcn_main_ack d = Some d') : tcn_sdloc i (PSendAck i) d d'
| sl_timeout d d' (Mn : tcn_main_timeout d = Some d') : tcn_sdloc i (PSendTimeout i) d d'.

Inductive tcn_veff : tcn_proc -> tcn_view -> tcn_view -> Prop :=
| ve_id p v : tcn_veff p v v
| ve_rpush m xs inq ops li lo h rx sn cl rep up :
    tcn_veff PRPush (mkV xs inq ops (m :: li) lo h rx sn cl rep up) (mkV xs (inq ++ [m]) ops li lo h rx sn cl rep up)
| ve_wwrite m xs inq ops li lo h rx sn cl rep up :
    tcn_veff PWWrite (mkV xs inq (m :: ops) li lo h rx sn cl rep up) (mkV xs inq ops li (lo ++ [m]) h rx sn cl rep up)
| ve_dropka xs inq ops li lo h rx sn cl rep up :
    tcn_veff PStIn (mkV xs (CKa :: inq) ops li lo h rx sn cl rep up) (mkV xs inq ops li lo h rx sn cl rep up)
| ve_stin m xs inq ops li lo h rx sn cl rep up (Nka : m <> CKa) :
    tcn_veff PStIn (mkV xs (m :: inq) ops li lo h rx sn cl rep up) (mkV (xs ++ [m]) inq ops li lo h rx sn cl rep up)
| ve_tick a b xs inq li lo h rx sn cl rep up :
    tcn_veff PStTick (mkV xs inq (a ++ b) li lo h rx sn cl rep up) (mkV xs inq (a ++ CKa :: b) li lo h rx sn cl rep up)
| ve_hseg t last xs inq ops li lo rx sn cl rep up :
    tcn_veff PH (mkV (CSeg t last :: xs) inq ops li lo HIdle rx sn cl rep up)
             (mkV xs inq ops li lo (HAckOut (CAck t (S (tcn_rx_get rx t))) (if last then Some t else None))
                  (tcn_rx_next rx t last) sn cl rep up)
| ve_hroute m t xs inq ops li lo rx sn cl rep up (Rt : (exists k, m = CAck t k) \/ m = CRef t) :
    tcn_veff PH (mkV (m :: xs) inq ops li lo HIdle rx sn cl rep up)
             (mkV xs inq ops li lo (tcn_h_route sn t m) rx sn cl rep up)
| ve_hka xs inq ops li lo rx sn cl rep up :
    tcn_veff PH (mkV (CKa :: xs) inq ops li lo HIdle rx sn cl rep up) (mkV xs inq ops li lo HDead rx sn cl rep up)
| ve_hack a fin xs inq ops li lo rx sn cl rep up :
    tcn_veff PH (mkV xs inq ops li lo (HAckOut a fin) rx sn cl rep up)
             (mkV xs inq (ops ++ [a]) li lo (match fin with Some t => HDeliver t | None => HIdle end) rx sn cl rep up)
| ve_hdeliver t xs inq ops li lo rx sn rep up :
    tcn_veff PH (mkV xs inq ops li lo (HDeliver t) rx sn None rep up) (mkV xs inq ops li lo HIdle rx sn (Some t) rep up)
| ve_hfwd t m d xs inq ops li lo rx sn cl rep up (Nd : nth_error sn t = Some d) :
    tcn_veff PH (mkV xs inq ops li lo (HFwd t m) rx sn cl rep up)
             (mkV xs inq ops li lo HIdle rx (tcn_upd t (sd_set_ack d (sd_ack d ++ [m])) sn) cl rep up)
| ve_send i p d d' xs inq ops li lo h rx sn cl rep up (Nd : nth_error sn i = Some d) (Ld : tcn_sdloc i p d d') :
    tcn_veff p (mkV xs inq ops li lo h rx sn cl rep up) (mkV xs inq ops li lo h rx (tcn_upd i d' sn) cl rep up)
| ve_emput i d m xs inq ops li lo h rx sn cl rep up (Nd : nth_error sn i = Some d) (Em : sd_em d = EmPut m) :
    tcn_veff (PEmit i) (mkV xs inq ops li lo h rx sn cl rep up)
             (mkV xs inq (ops ++ [m]) li lo h rx (tcn_upd i (sd_set_em d (sd_next d) EmLoop (sd_len d)) sn) cl rep up)
| ve_client t xs inq ops li lo h rx sn rep up :
    tcn_veff PClient (mkV xs inq ops li lo h rx sn (Some t) rep up) (mkV xs inq ops li lo h rx sn None (rep ++ [t]) up)
| ve_upper t xs inq ops li lo h rx sn cl rep up :
    tcn_veff PUpper (mkV xs inq ops li lo h rx sn cl (t :: rep) up) (mkV xs inq ops li lo h rx sn cl rep (up ++ [t])).

Lemma tcn_veff_conv p v1 v2 w1 w2 : tcn_veff p w1 w2 -> v1 = w1 -> v2 = w2 -> tcn_veff p v1 v2.
Proof. intros; subst; assumption. Qed.

Ltac tcn_vs :=
  cbn [v_xs v_in v_ops v_li v_lo v_h v_rx v_snd v_cl v_rep v_up ev_got ev_script ev_pend fst snd] in *.
(* every element of the list on the left is in the one on the right *)
Ltac tcn_incl := intros x; cbn [In]; rewrite !in_app_iff; cbn [In]; tauto.
(* the list on the left is the one on the right with some elements left out, the order kept *)
Ltac tcn_sub := rewrite <- ?app_assoc; cbn [app]; repeat first [apply incl_refl | apply incl_tl | apply incl_app_app; [apply incl_refl|]].

Lemma tcn_put_some {A} cap (q : list A) m q' : tcn_put cap q m = Some q' -> q' = q ++ [m] /\ length q < cap.
Proof. unfold tcn_put. destruct (Nat.ltb_spec (length q) cap); intros E; inversion E; auto. Qed.

Lemma tcn_link_write_lk T l m l' : tcn_link_write T l m = Some l' -> tcn_lk l' = tcn_lk l ++ [m].
Proof.
  unfold tcn_link_write, tcn_lk. destruct l as [q h]. cbn [lk_h lk_q].
  destruct T.
  - destruct h; [discriminate|]. destruct q; [|discriminate]. intros E; inversion E; reflexivity.
  - destruct (Nat.ltb (length q) (S T)); [|discriminate]. intros E; inversion E; cbn [lk_h lk_q].
    now rewrite app_assoc.
Qed.
Lemma tcn_link_read_lk l l' : tcn_link_read l = Some l' -> tcn_lk l' = tcn_lk l.
Proof.
  unfold tcn_link_read, tcn_lk. destruct l as [q h]; cbn. destruct h; [discriminate|].
  destruct q; [discriminate|]. intros E; inversion E; reflexivity.
Qed.

Lemma tcn_send_apply_some s i f s' :
  tcn_send_apply s i f = Some s' ->
  exists d d', nth_error (tcn_snd s) i = Some d /\ f d = Some d'
               /\ s' = tcn_set_snd s (tcn_xout s) (tcn_upd i d' (tcn_snd s)).
Proof.
  unfold tcn_send_apply. destruct (nth_error (tcn_snd s) i) as [d|]; [|discriminate].
  destruct (f d) as [d'|] eqn:E; intros H; inversion H. eauto.
Qed.

Ltac tcn_vnorm := unfold tcn_view_of, tcn_lk; cbn; rewrite <- ?app_assoc, ?app_nil_r; reflexivity.
(* the effect is c, once both views are put into the form of its statement *)
Ltac tcn_by c := eapply tcn_veff_conv; [apply c; first [discriminate|eassumption]|tcn_vnorm|tcn_vnorm].

Lemma tcn_sstep_veff cf s li lo p s' li' lo' :
  tcn_sstep cf s li lo p = Some (s', li', lo') ->
  tcn_veff p (tcn_view_of s li lo) (tcn_view_of s' li' lo').
Proof.
  destruct s as [inq out wh st xin xout h rx sn cl rep up ticks], li as [qi hi], lo as [qo ho].
  intros H. destruct p; cbn in H;
    try (destruct (tcn_send_apply _ i _) eqn:E; inversion H; subst;
         apply tcn_send_apply_some in E as (d & d' & N & E & ->); eapply ve_send; [exact N|constructor; exact E]).
  - destruct hi; [discriminate|]. destruct qi; inversion H; subst. apply ve_id.
  - destruct hi as [m|]; [|discriminate].
    destruct (tcn_put (cf_in cf) inq m) eqn:E; inversion H; subst. apply tcn_put_some in E as [-> _].
    apply (ve_rpush m).
  - destruct wh; [discriminate|]. destruct out; inversion H; subst. apply ve_id.
  - destruct wh as [m|]; [|discriminate].
    destruct (tcn_link_write (cf_T cf) _ m) eqn:E; inversion H; subst.
    eapply tcn_veff_conv; [apply (ve_wwrite m)|reflexivity|].
    unfold tcn_view_of; cbn. now rewrite (tcn_link_write_lk _ _ _ _ E).
  - destruct st; try discriminate. destruct ticks; inversion H; subst.
    tcn_by (ve_tick (tcn_oh wh ++ out) xout).
  - destruct st; try discriminate.
    + destruct inq as [|m r]; inversion H; subst.
      destruct m; [tcn_by (ve_stin (CSeg t last))|tcn_by (ve_stin (CAck t k))|tcn_by (ve_stin (CRef t))|apply ve_dropka].
    + destruct (tcn_put (cf_xin cf) xin m) eqn:E; inversion H; subst. apply tcn_put_some in E as [-> _].
      tcn_by ve_id.
  - destruct st; try discriminate; (destruct xout; [discriminate|]).
    + inversion H; subst. apply ve_id.
    + destruct (cf_fix cf); inversion H; subst. apply ve_id.
  - destruct st; try discriminate;
      (destruct (tcn_put (cf_out cf) out o) eqn:E; inversion H; subst; apply tcn_put_some in E as [-> _]; tcn_by ve_id).
  - destruct (tcn_h_step cf _) eqn:E; inversion H; subst. clear H.
    unfold tcn_h_step in E; cbn in E. destruct h.
    + destruct xin as [|m r]; [discriminate|].
      destruct m; inversion E; subst.
      * apply ve_hseg.
      * apply (ve_hroute (CAck t k) t). left; eexists; reflexivity.
      * apply (ve_hroute (CRef t) t). right; reflexivity.
      * apply ve_hka.
    + destruct (tcn_put (cf_xout cf) xout a) eqn:P; inversion E; subst. apply tcn_put_some in P as [-> _].
      tcn_by (ve_hack a fin).
    + destruct cl; inversion E; subst. apply ve_hdeliver.
    + destruct (nth_error sn t) as [d|] eqn:N; [|discriminate].
      destruct (tcn_put (cf_ack cf) (sd_ack d) m) eqn:P; inversion E; subst. apply tcn_put_some in P as [-> _].
      apply ve_hfwd; exact N.
    + discriminate.
  - destruct (nth_error sn i) as [d|] eqn:N; [|discriminate].
    destruct (tcn_emit cf i d xout) as [[d' xo]|] eqn:E; inversion H; subst. clear H.
    unfold tcn_emit in E. destruct (sd_em d) eqn:Em.
    + destruct (sd_stop d) eqn:St; [|destruct (Nat.ltb_spec (sd_next d) (sd_n d))]; inversion E; subst;
        (eapply ve_send; [exact N|constructor; assumption]).
    + destruct (tcn_put (cf_xout cf) xout m) eqn:P; inversion E; subst. apply tcn_put_some in P as [-> _].
      tcn_by (ve_emput i d m).
    + discriminate.
  - destruct cl as [t|]; [|discriminate].
    destruct (tcn_put (cf_rep cf) rep t) eqn:P; inversion H; subst. apply tcn_put_some in P as [-> _].
    apply ve_client.
  - destruct rep as [|t r]; inversion H; subst. apply ve_upper.
Qed.

(* the transfer a feedback message (XFER_ACK / XFER_REFUSE) belongs to *)
Definition tcn_mtid (m : tcn_msg) : option nat :=
  match m with CAck t _ => Some t | CRef t => Some t | _ => None end.
Definition tcn_ackpos (m : tcn_msg) : Prop := match m with CAck _ k => 1 <= k | _ => True end.

Definition tcn_sd_ok (i : nat) (d : tcn_send) : Prop :=
  1 <= sd_n d /\ sd_next d <= sd_n d
  /\ Forall (fun m => tcn_mtid m = Some i /\ tcn_ackpos m) (sd_ack d)
  (* the emitting goroutine: lenChan is written once, at the end, and read once, into outLen *)
  /\ match sd_em d with
     | EmLoop => sd_len d = None /\ sd_outlen d = 0
     | EmPut m => m = CSeg i (sd_next d =? sd_n d) /\ 1 <= sd_next d /\ sd_len d = None /\ sd_outlen d = 0
     | EmDone =>
       (sd_stop d = false -> sd_next d = sd_n d /\ (sd_len d = Some (sd_n d) \/ sd_outlen d = sd_n d))
       /\ match sd_len d with Some l => l = sd_n d /\ sd_next d = sd_n d /\ sd_outlen d = 0 | None => True end
       /\ (sd_outlen d <> 0 -> sd_outlen d = sd_n d /\ sd_next d = sd_n d)
     end
  (* the main loop: it returns success when both lengths are in and agree, and stops on anything else *)
  /\ match sd_res d with
     | None => sd_stop d = false /\ ~ (sd_outlen d = sd_n d /\ sd_inlen d = sd_n d)
     | Some ROk => sd_stop d = false /\ sd_inlen d = sd_n d /\ sd_outlen d = sd_n d
     | Some _ => sd_stop d = true
     end.

Definition tcn_h_ok (h : tcn_hst) : Prop :=
  match h with
  | HAckOut a _ => exists t k, a = CAck t k /\ 1 <= k
  | HFwd t m => tcn_mtid m = Some t /\ tcn_ackpos m
  | _ => True
  end.

Definition tcn_lview (v : tcn_view) : Prop :=
  (forall i d, nth_error (v_snd v) i = Some d -> tcn_sd_ok i d)
  /\ tcn_h_ok (v_h v)
  /\ Forall tcn_ackpos (v_xs v ++ v_in v ++ v_li v)
  /\ Forall tcn_ackpos (v_ops v ++ v_lo v).

Lemma tcn_upd_length {A} i (x : A) l : length (tcn_upd i x l) = length l.
Proof. exact (list_upd_length i x l). Qed.

Ltac tcn_triv := repeat split; intros; auto; try discriminate; try congruence; try lia.

Lemma tcn_sdloc_ok i p d d' : tcn_sdloc i p d d' -> tcn_sd_ok i d -> tcn_sd_ok i d'.
Proof.
  intros L (H1 & H2 & H3 & He & Hm). unfold tcn_sd_ok.
  destruct L as [d Em St|d Em St Lt|d Em St Le|d d' E|d d' E|d d' E]; cbn.
  - rewrite Em in He. destruct He as [Hl Ho]. rewrite St, Hl, Ho in *. tcn_triv.
  - rewrite Em in He. tcn_triv; tauto.
  - rewrite Em in He. destruct He as [Hl Ho]. rewrite Ho in *. assert (sd_next d = sd_n d) by lia. tcn_triv.
  - (* outLen = <-lenChan: the emitter has returned *)
    unfold tcn_main_len in E. destruct (sd_res d); [discriminate|].
    destruct (sd_len d) as [l|]; inversion E; subst; clear E; cbn.
    destruct (sd_em d); try (now destruct He as (? & ? & ? & ?)); try (now destruct He).
    destruct He as (_ & (-> & Hn & Ho) & _), Hm as [Hs _]. tcn_triv.
    destruct (Nat.eqb_spec (sd_n d) (sd_inlen d)); intuition.
  - unfold tcn_main_ack in E. destruct (sd_res d); [discriminate|].
    destruct (sd_ack d) as [|m r]; [discriminate|].
    apply Forall_cons_iff in H3 as [[Hmm Hp] H3]. destruct Hm as [Hs Hw].
    destruct m; try discriminate; inversion E; subst; clear E; cbn; tcn_triv.
    + (* an acknowledged length k >= 1 that equals outLen: lenChan has been read *)
      destruct (Nat.eqb_spec (sd_outlen d) k) as [<-|]; [|intuition].
      cbn in Hp. destruct (sd_em d); try (destruct He as (? & ? & ? & ?) || destruct He; lia).
      destruct He as (_ & _ & Ho). intuition lia.
    + destruct (sd_em d); intuition congruence.
  - unfold tcn_main_timeout in E. destruct (sd_res d); inversion E; subst; clear E; cbn. tcn_triv.
    destruct (sd_em d); intuition congruence.
Qed.

Lemma tcn_sd_ok_set_ack i d a :
  tcn_sd_ok i d -> Forall (fun m => tcn_mtid m = Some i /\ tcn_ackpos m) a -> tcn_sd_ok i (sd_set_ack d a).
Proof. unfold tcn_sd_ok; cbn. tauto. Qed.

Lemma tcn_sd_ok_emput i d m :
  tcn_sd_ok i d -> sd_em d = EmPut m -> tcn_sd_ok i (sd_set_em d (sd_next d) EmLoop (sd_len d)).
Proof. unfold tcn_sd_ok; cbn. intros (H1 & H2 & H3 & He & Hm) E. rewrite E in He. tauto. Qed.

Lemma tcn_emput_seg sn i d m :
  (forall i d, nth_error sn i = Some d -> tcn_sd_ok i d) ->
  nth_error sn i = Some d -> sd_em d = EmPut m -> m = CSeg i (sd_next d =? sd_n d).
Proof. intros Hs N E. destruct (Hs _ _ N) as (_ & _ & _ & He & _). rewrite E in He. exact (proj1 He). Qed.

Lemma tcn_h_route_ok sn t m : tcn_mtid m = Some t -> tcn_ackpos m -> tcn_h_ok (tcn_h_route sn t m).
Proof.
  intros. unfold tcn_h_route. destruct (nth_error sn t) as [d|]; cbn; auto.
  destruct (sd_res d); cbn; auto.
Qed.

Lemma tcn_veff_lview p v v' : tcn_veff p v v' -> tcn_lview v -> tcn_lview v'.
Proof.
  intros E (Hs & Hh & Hi & Ho). unfold tcn_lview.
  (* nothing joins the incoming side; most steps leave the Sends, handle and the outgoing side alone *)
  destruct E; tcn_vs;
    (split; [try exact Hs|split; [try exact Hh; try exact I|split; [revert Hi; apply incl_Forall; tcn_sub|try exact Ho]]]).
  - revert Ho. apply incl_Forall. tcn_incl.
  - apply (incl_Forall (l1 := CKa :: (a ++ b) ++ lo)); [tcn_incl|constructor; [exact I|exact Ho]].
  - cbn. do 2 eexists; split; [reflexivity|lia].
  - apply Forall_inv in Hi. apply tcn_h_route_ok; [|exact Hi]. destruct Rt as [[k ->]| ->]; reflexivity.
  - destruct fin; exact I.
  - apply (incl_Forall (l1 := a :: ops ++ lo)); [tcn_incl|constructor; [|exact Ho]].
    destruct Hh as (t & k & -> & Hk). exact Hk.
  - apply (list_upd_all tcn_sd_ok); [exact Hs|].
    apply tcn_sd_ok_set_ack; [exact (Hs _ _ Nd)|].
    destruct (Hs _ _ Nd) as (_ & _ & Ha & _).
    apply Forall_app; split; [exact Ha|]. constructor; [exact Hh|constructor].
  - apply (list_upd_all tcn_sd_ok); [exact Hs|]. exact (tcn_sdloc_ok _ _ _ _ Ld (Hs _ _ Nd)).
  - apply (list_upd_all tcn_sd_ok); [exact Hs|]. exact (tcn_sd_ok_emput _ _ _ (Hs _ _ Nd) Em).
  - apply (incl_Forall (l1 := m :: ops ++ lo)); [tcn_incl|constructor; [|exact Ho]].
    rewrite (tcn_emput_seg _ _ _ _ Hs Nd Em). exact I.
Qed.

Definition tcn_hak (h : tcn_hst) : list tcn_msg := match h with HAckOut a _ => [a] | _ => [] end.
Definition tcn_hfw (h : tcn_hst) : list tcn_msg := match h with HFwd _ m => [m] | _ => [] end.
Definition tcn_hdl (h : tcn_hst) : list nat :=
  match h with HAckOut _ (Some t) => [t] | HDeliver t => [t] | _ => [] end.

(* oldest first: what is under way to handle; what handle and the emitters have sent off, the
   acknowledgement in handle's hand included; the bundles handed up or about to be *)
Definition tcn_inr (v : tcn_view) : list tcn_msg := v_xs v ++ v_in v ++ v_li v.
Definition tcn_outq (v : tcn_view) : list tcn_msg := v_lo v ++ v_ops v ++ tcn_hak (v_h v).
Definition tcn_dlv (v : tcn_view) : list nat := v_up v ++ v_rep v ++ tcn_oh (v_cl v) ++ tcn_hdl (v_h v).

Lemma tcn_h_route_nil sn t m : tcn_hak (tcn_h_route sn t m) = [] /\ tcn_hdl (tcn_h_route sn t m) = [].
Proof. unfold tcn_h_route. destruct (nth_error sn t) as [d|]; [destruct (sd_res d)|]; split; reflexivity. Qed.

Ltac tcn_assoc := cbn; rewrite <- ?app_assoc, ?app_nil_r; reflexivity.
(* two lists with the same segments, or the same acknowledgements, in the same order *)
Ltac tcn_same := rewrite ?filter_app; cbn [filter tcn_is_ack tcn_is_seg]; rewrite ?filter_app; reflexivity.

(* Seen from the peer, a step of a session either is handle taking the next segment, which it
   acknowledges, or changes neither the segments under way to handle nor the acknowledgements it
   has issued: the transport, the reader, the writer and the stage only pass messages on, and what
   else the session adds or drops is of other kinds. *)
Lemma tcn_veff_relay q v v' :
  tcn_veff q v v' -> tcn_lview v ->
  (exists t last,
      tcn_inr v = CSeg t last :: tcn_inr v'
      /\ tcn_outq v' = tcn_outq v ++ [CAck t (S (tcn_rx_get (v_rx v) t))]
      /\ v_rx v' = tcn_rx_next (v_rx v) t last
      /\ tcn_dlv v' = tcn_dlv v ++ (if last then [t] else []))
  \/ (filter tcn_is_seg (tcn_inr v') = filter tcn_is_seg (tcn_inr v)
      /\ filter tcn_is_ack (tcn_outq v') = filter tcn_is_ack (tcn_outq v)
      /\ v_rx v' = v_rx v /\ tcn_dlv v' = tcn_dlv v).
Proof.
  intros E (Hs & _). unfold tcn_inr, tcn_outq, tcn_dlv.
  destruct E; tcn_vs; try (right; split; [tcn_assoc|split; [tcn_assoc|split; [reflexivity|tcn_assoc]]]; fail).
  - right. split; [|auto]. symmetry. now apply (filter_insert _ xs CKa).
  - right. split; [reflexivity|split; [|auto]].
    rewrite <- !app_assoc, !(app_assoc lo a). now apply (filter_insert _ _ CKa).
  - left. exists t, last. repeat split; try tcn_assoc. destruct last; tcn_assoc.
  - right. destruct (tcn_h_route_nil sn t m) as [-> ->]. split; [|auto].
    destruct Rt as [[k ->]| ->]; reflexivity.
  - right. destruct fin; (split; [tcn_assoc|split; [tcn_assoc|split; [reflexivity|tcn_assoc]]]).
  - right. rewrite (tcn_emput_seg _ _ _ _ Hs Nd Em). split; [reflexivity|split; [|auto]].
    rewrite !app_assoc, <- (app_assoc _ [_]). now apply (filter_insert _ _ (CSeg _ _)).
Qed.

Definition tcn_sview (y : tcn_sys) : tcn_view * tcn_env :=
  (tcn_view_of (sy_s y) (sy_lin y) (sy_lout y), sy_e y).

Inductive tcn_seff : tcn_eproc -> tcn_view * tcn_env -> tcn_view * tcn_env -> Prop :=
| se_sess q v v' e : tcn_veff q v v' -> tcn_seff (ESess q) (v, e) (v', e)
| se_wscript m r pend got xs inq ops li lo h rx sn cl rep up :
    tcn_seff EWScript (mkV xs inq ops li lo h rx sn cl rep up, mkTcnEnv (m :: r) pend got)
                      (mkV xs inq ops (li ++ [m]) lo h rx sn cl rep up, mkTcnEnv r pend got)
| se_wack m r scr got xs inq ops li lo h rx sn cl rep up :
    tcn_seff EWAck (mkV xs inq ops li lo h rx sn cl rep up, mkTcnEnv scr (m :: r) got)
                   (mkV xs inq ops (li ++ [m]) lo h rx sn cl rep up, mkTcnEnv scr r got)
| se_read m e xs inq ops li lo h rx sn cl rep up :
    tcn_seff ERead (mkV xs inq ops li (m :: lo) h rx sn cl rep up, e)
                   (mkV xs inq ops li lo h rx sn cl rep up, tcn_env_take e m).

Lemma tcn_seff_conv p x1 x2 w1 w2 : tcn_seff p w1 w2 -> x1 = w1 -> x2 = w2 -> tcn_seff p x1 x2.
Proof. intros; subst; assumption. Qed.

Lemma tcn_estep_seff cf y p y' : tcn_estep cf y p = Some y' -> tcn_seff p (tcn_sview y) (tcn_sview y').
Proof.
  intros H. destruct y as [s li lo e]. destruct p; cbn in H.
  - destruct (tcn_sstep cf s li lo p) as [[[s' li'] lo']|] eqn:E; inversion H; subst.
    apply se_sess. eapply tcn_sstep_veff; eauto.
  - destruct e as [scr pend got]; cbn in H. destruct scr as [|m r]; [discriminate|].
    destruct (tcn_link_write (cf_T cf) li m) eqn:E; inversion H; subst.
    eapply tcn_seff_conv; [apply (se_wscript m r)|reflexivity|].
    unfold tcn_sview, tcn_view_of; cbn. now rewrite (tcn_link_write_lk _ _ _ _ E).
  - destruct e as [scr pend got]; cbn in H. destruct pend as [|m r]; [discriminate|].
    destruct (tcn_link_write (cf_T cf) li m) eqn:E; inversion H; subst.
    eapply tcn_seff_conv; [apply (se_wack m r)|reflexivity|].
    unfold tcn_sview, tcn_view_of; cbn. now rewrite (tcn_link_write_lk _ _ _ _ E).
  - destruct lo as [q h]; cbn in H. destruct h as [m|].
    + inversion H; subst. eapply tcn_seff_conv; [apply (se_read m)| |]; reflexivity.
    + destruct q as [|m q]; inversion H; subst.
      eapply tcn_seff_conv; [apply (se_read m)| |]; reflexivity.
Qed.

Definition tcn_envok (e : tcn_env) : Prop :=
  Forall (fun m => tcn_is_ack m = true /\ tcn_ackpos m) (ev_pend e)
  /\ Forall (fun m => tcn_is_ack m = false) (ev_script e).

Definition tcn_base (x : tcn_view * tcn_env) : Prop := tcn_lview (fst x) /\ tcn_envok (snd x).

Lemma tcn_seff_base p x x' : tcn_seff p x x' -> tcn_base x -> tcn_base x'.
Proof.
  intros E [L [Ep Es]]. destruct E; unfold tcn_base, tcn_envok in *; cbn [fst snd ev_pend ev_script] in *.
  - split; [eapply tcn_veff_lview; eauto|auto].
  - apply Forall_cons_iff in Es as [Hm Es]. split; [|auto].
    destruct L as (Hs & Hh & Hi & Ho). split; [exact Hs|split; [exact Hh|split; [|exact Ho]]]. tcn_vs.
    apply (incl_Forall (l1 := m :: xs ++ inq ++ li)); [tcn_incl|constructor; [|exact Hi]].
    destruct m; try exact I; discriminate.
  - apply Forall_cons_iff in Ep as [[_ Hm] Ep]. split; [|auto].
    destruct L as (Hs & Hh & Hi & Ho). split; [exact Hs|split; [exact Hh|split; [|exact Ho]]]. tcn_vs.
    apply (incl_Forall (l1 := m :: xs ++ inq ++ li)); [tcn_incl|constructor; assumption].
  - destruct L as (Hs & Hh & Hi & Ho).
    split; [split; [exact Hs|split; [exact Hh|split; [exact Hi|]]]; tcn_vs; revert Ho; apply incl_Forall; tcn_sub|].
    unfold tcn_env_take; cbn [ev_pend ev_script]. split; [|exact Es].
    destruct m; auto. apply Forall_app; split; [exact Ep|]. constructor; [|constructor].
    split; [reflexivity|cbn; lia].
Qed.

(* invariant A (every run): the acknowledgements and deliveries owed for what the peer wrote *)
Definition tcn_invA (script0 : list tcn_msg) (x : tcn_view * tcn_env) : Prop :=
  filter tcn_is_ack (ev_got (snd x) ++ tcn_outq (fst x))
    ++ tcn_acks (v_rx (fst x)) (tcn_inr (fst x) ++ ev_script (snd x))
  = tcn_acks [] script0
  /\ tcn_dlv (fst x) ++ tcn_ups (tcn_inr (fst x) ++ ev_script (snd x)) = tcn_ups script0.

Lemma tcn_acks_segs l l' : filter tcn_is_seg l = filter tcn_is_seg l' -> forall rx, tcn_acks rx l = tcn_acks rx l'.
Proof.
  assert (forall l rx, tcn_acks rx (filter tcn_is_seg l) = tcn_acks rx l) as G.
  { induction l0 as [|m l0 IH]; intros rx; [reflexivity|]. destruct m; cbn; now rewrite ?IH. }
  intros E rx. now rewrite <- (G l), E, G.
Qed.
Lemma tcn_ups_segs l l' : filter tcn_is_seg l = filter tcn_is_seg l' -> tcn_ups l = tcn_ups l'.
Proof.
  assert (forall l, tcn_ups (filter tcn_is_seg l) = tcn_ups l) as G.
  { induction l0 as [|m l0 IH]; [reflexivity|]. destruct m as [t [|]| | |]; cbn; now rewrite ?IH. }
  intros E. now rewrite <- (G l), E, G.
Qed.

Lemma tcn_seff_invA script0 p x x' :
  tcn_seff p x x' -> tcn_base x -> tcn_invA script0 x -> tcn_invA script0 x'.
Proof.
  intros E [L [Ep _]] [A1 A2]. unfold tcn_invA in *.
  destruct E as [q v v' e V|m r pend got xs inq ops li lo h rx sn cl rep up
                |m r scr got xs inq ops li lo h rx sn cl rep up|m e xs inq ops li lo h rx sn cl rep up];
    cbn [fst snd] in *.
  - destruct (tcn_veff_relay _ _ _ V L) as [(t & last & Ei & Eo & Er & Ed)|(Ei & Eo & Er & Ed)].
    + rewrite Ei in A1, A2. rewrite Eo, Er, Ed, <- A1, <- A2, app_assoc, filter_app, <- !app_assoc.
      destruct last; split; reflexivity.
    + rewrite Er, Ed, filter_app, Eo, <- filter_app.
      assert (filter tcn_is_seg (tcn_inr v' ++ ev_script e) = filter tcn_is_seg (tcn_inr v ++ ev_script e)) as Es
        by (rewrite !filter_app; now rewrite Ei).
      now rewrite (tcn_acks_segs _ _ Es), (tcn_ups_segs _ _ Es).
  - rewrite <- A1, <- A2. unfold tcn_inr; tcn_vs. now rewrite <- !app_assoc.
  - apply Forall_cons_iff in Ep as [[Hm _] _].
    assert (filter tcn_is_seg (tcn_inr (mkV xs inq ops (li ++ [m]) lo h rx sn cl rep up) ++ scr)
            = filter tcn_is_seg (tcn_inr (mkV xs inq ops li lo h rx sn cl rep up) ++ scr)) as Es.
    { unfold tcn_inr; tcn_vs. rewrite !app_assoc, <- (app_assoc _ [m]). apply filter_insert.
      destruct m; try discriminate; reflexivity. }
    tcn_vs. now rewrite (tcn_acks_segs _ _ Es), (tcn_ups_segs _ _ Es).
  - rewrite <- A1. unfold tcn_env_take, tcn_outq; tcn_vs. now rewrite <- !app_assoc.
Qed.

(* the j-th segment (counted from 0) of transfer t of n segments *)
Definition tcn_sg (t n j : nat) : tcn_msg := CSeg t (S j =? n).

Definition tcn_sdget {A} (f : tcn_send -> A) (z : A) (sn : list tcn_send) (t : nat) : A :=
  match nth_error sn t with Some d => f d | None => z end.
Definition tcn_emof (d : tcn_send) : list tcn_msg := match sd_em d with EmPut m => [m] | _ => [] end.
Definition tcn_emh := tcn_sdget tcn_emof [].
Definition tcn_nextof := tcn_sdget sd_next 0.
Definition tcn_nof := tcn_sdget sd_n 0.
Definition tcn_inlenof := tcn_sdget sd_inlen 0.
Definition tcn_ackq := tcn_sdget sd_ack [].

Lemma tcn_sdget_upd {A} (f : tcn_send -> A) z sn i d d' t :
  nth_error sn i = Some d ->
  tcn_sdget f z (tcn_upd i d' sn) t = if t =? i then f d' else tcn_sdget f z sn t.
Proof.
  intros N. unfold tcn_sdget. change (tcn_upd i d' sn) with (list_upd i d' sn).
  rewrite nth_error_list_upd, N, Nat.eqb_sym. destruct (t =? i); reflexivity.
Qed.
Lemma tcn_sdget_same {A} (f : tcn_send -> A) z sn i d d' t :
  nth_error sn i = Some d -> f d' = f d -> tcn_sdget f z (tcn_upd i d' sn) t = tcn_sdget f z sn t.
Proof.
  intros N E. rewrite (tcn_sdget_upd _ _ _ _ _ _ _ N). destruct (Nat.eqb_spec t i) as [->|]; [|reflexivity].
  unfold tcn_sdget. now rewrite N.
Qed.

(* The segments of Send t from the p-th on are, in this order, those in l (everything beyond the
   emitting goroutine, oldest first) and the one in the emitter's hand. *)
Definition tcn_segstream (sn : list tcn_send) (l : list tcn_msg) (t p : nat) : Prop :=
  p <= tcn_nextof sn t
  /\ filter (tcn_is_seg_of t) l ++ tcn_emh sn t = map (tcn_sg t (tcn_nof sn t)) (seq p (tcn_nextof sn t - p)).

Lemma tcn_segstream_ext sn l l' t p :
  filter tcn_is_seg l' = filter tcn_is_seg l -> tcn_segstream sn l t p -> tcn_segstream sn l' t p.
Proof.
  intros E. unfold tcn_segstream.
  rewrite <- (filter_filter_sub (tcn_is_seg_of t) tcn_is_seg l), <- (filter_filter_sub (tcn_is_seg_of t) tcn_is_seg l'), E;
    [auto| |]; intros []; cbn; auto; discriminate.
Qed.

Lemma tcn_main_same_em d d' :
  tcn_main_len d = Some d' \/ tcn_main_ack d = Some d' \/ tcn_main_timeout d = Some d' ->
  sd_n d' = sd_n d /\ sd_next d' = sd_next d /\ sd_em d' = sd_em d.
Proof.
  unfold tcn_main_len, tcn_main_ack, tcn_main_timeout.
  intros [E|[E|E]]; destruct (sd_res d); try discriminate.
  - destruct (sd_len d); inversion E; subst; cbn; auto.
  - destruct (sd_ack d) as [|m r]; [discriminate|]. destruct m; inversion E; subst; cbn; auto.
  - inversion E; subst; cbn; auto.
Qed.

(* a step inside a Send either leaves its segments alone or is NextSegment *)
Lemma tcn_sdloc_seg i p d d' :
  tcn_sdloc i p d d' ->
  sd_n d' = sd_n d
  /\ ((sd_next d' = sd_next d /\ tcn_emof d' = tcn_emof d)
      \/ (tcn_emof d = [] /\ sd_next d' = S (sd_next d) /\ tcn_emof d' = [tcn_sg i (sd_n d) (sd_next d)])).
Proof.
  intros L. unfold tcn_emof.
  destruct L as [d Em St|d Em St Lt|d Em St Le|d d' E|d d' E|d d' E]; cbn; rewrite ?Em; auto;
    destruct (tcn_main_same_em d d') as (-> & -> & ->); auto.
Qed.

Lemma tcn_seg_of_other i t b : t <> i -> tcn_is_seg_of t (CSeg i b) = false.
Proof. intros; cbn. apply Nat.eqb_neq. congruence. Qed.

Lemma tcn_veff_segstream q v v' far t p :
  tcn_veff q v v' -> tcn_lview v ->
  tcn_segstream (v_snd v) (far ++ v_lo v ++ v_ops v) t p -> tcn_segstream (v_snd v') (far ++ v_lo v' ++ v_ops v') t p.
Proof.
  intros E (Hs & Hh & _) Sg.
  destruct E; tcn_vs; try exact Sg.
  - now rewrite <- app_assoc.
  - rewrite !app_assoc in *. revert Sg. apply tcn_segstream_ext. now apply filter_insert.
  - destruct Hh as (t1 & k & -> & _). rewrite !app_assoc in *. revert Sg. apply tcn_segstream_ext.
    rewrite filter_app. apply app_nil_r.
  - unfold tcn_segstream, tcn_emh, tcn_nextof, tcn_nof in *.
    now rewrite !(tcn_sdget_same _ _ _ _ _ _ _ Nd) by reflexivity.
  - destruct Sg as [Hp Sg]. unfold tcn_segstream, tcn_emh, tcn_nextof, tcn_nof in *.
    destruct (tcn_sdloc_seg _ _ _ _ Ld) as (En & [[Ex Ee]|(Ee & Ex & Ee')]).
    + rewrite !(tcn_sdget_same _ _ _ _ _ _ _ Nd) by assumption. auto.
    + rewrite (tcn_sdget_same _ _ _ _ _ _ _ Nd En), !(tcn_sdget_upd _ _ _ _ _ _ _ Nd).
      destruct (Nat.eqb_spec t i) as [->|]; [|auto].
      unfold tcn_sdget in *. rewrite Nd in *. rewrite Ee, app_nil_r in Sg. rewrite Ex, Ee'.
      split; [lia|]. replace (S (sd_next d) - p) with (S (sd_next d - p)) by lia.
      rewrite seq_S, map_app, <- Sg. cbn [map]. now replace (p + (sd_next d - p)) with (sd_next d) by lia.
  - destruct Sg as [Hp Sg]. unfold tcn_segstream, tcn_emh, tcn_nextof, tcn_nof in *.
    pose proof (tcn_emput_seg _ _ _ _ Hs Nd Em) as ->.
    rewrite (tcn_sdget_same sd_n _ _ _ _ _ _ Nd), (tcn_sdget_same sd_next _ _ _ _ _ _ Nd) by reflexivity.
    rewrite (tcn_sdget_upd _ _ _ _ _ _ _ Nd).
    split; [assumption|]. rewrite <- Sg, !app_assoc, filter_app, <- !app_assoc. f_equal.
    destruct (Nat.eqb_spec t i) as [->|Hne].
    + unfold tcn_sdget, tcn_emof. rewrite Nd, Em. cbn. now rewrite Nat.eqb_refl.
    + cbn [filter]. now rewrite (tcn_seg_of_other i t _ Hne).
Qed.

(* invariant S (every run): the segments of each Send, from the first one the peer has read *)
Definition tcn_invS (x : tcn_view * tcn_env) : Prop :=
  forall t, tcn_segstream (v_snd (fst x)) (ev_got (snd x) ++ v_lo (fst x) ++ v_ops (fst x)) t 0.

Lemma tcn_seff_invS p x x' :
  tcn_seff p x x' -> tcn_base x -> tcn_invS x -> tcn_invS x'.
Proof.
  intros E [L _] S t. specialize (S t).
  destruct E as [q v v' e V| | |m e xs inq ops li lo h rx sn cl rep up]; try exact S.
  - eapply tcn_veff_segstream; eauto.
  - unfold tcn_env_take; tcn_vs. now rewrite <- app_assoc.
Qed.

(* what is under way to Send t inside the session: its ackChan, handle's hand, the way to handle *)
Definition tcn_back (v : tcn_view) (t : nat) : list tcn_msg :=
  tcn_ackq (v_snd v) t ++ tcn_hfw (v_h v) ++ tcn_inr v.

(* a step inside a Send either leaves its ackChan and acknowledged length alone or is the main loop
   taking the next message from the ackChan *)
Lemma tcn_sdloc_ack i p d d' :
  tcn_sdloc i p d d' ->
  (sd_ack d' = sd_ack d /\ sd_inlen d' = sd_inlen d)
  \/ exists m, sd_ack d = m :: sd_ack d'
               /\ sd_inlen d' = match m with CAck _ k => k | _ => sd_inlen d end.
Proof.
  intros L. destruct L as [| | |d d' E|d d' E|d d' E]; auto.
  - unfold tcn_main_len in E. destruct (sd_res d), (sd_len d); inversion E; auto.
  - unfold tcn_main_ack in E. destruct (sd_res d); [discriminate|].
    destruct (sd_ack d) as [|m r]; [discriminate|]. right; exists m. destruct m; inversion E; auto.
  - unfold tcn_main_timeout in E. destruct (sd_res d); inversion E; auto.
Qed.

Lemma tcn_hfw_route sn t m : tcn_hfw (tcn_h_route sn t m) = [m] \/ tcn_hfw (tcn_h_route sn t m) = [].
Proof.
  unfold tcn_h_route. destruct (nth_error sn t) as [d|]; [destruct (sd_res d)|]; cbn; auto.
Qed.

Lemma tcn_veff_back q v v' t : tcn_veff q v v' -> incl (tcn_back v' t) (tcn_back v t).
Proof.
  intros E. unfold tcn_back, tcn_inr, tcn_ackq. destruct E; tcn_vs; cbn [tcn_hfw]; try (tcn_sub; fail).
  - destruct (tcn_hfw_route sn t0 m) as [-> | ->]; tcn_sub.
  - destruct fin; tcn_sub.
  - rewrite (tcn_sdget_upd _ _ _ _ _ _ _ Nd). destruct (Nat.eqb_spec t t0) as [->|]; [|tcn_sub].
    unfold tcn_sdget. rewrite Nd. cbn [sd_ack sd_set_ack]. tcn_sub.
  - destruct (tcn_sdloc_ack _ _ _ _ Ld) as [[E1 _]|(m & Aq & _)].
    + rewrite (tcn_sdget_same _ _ _ _ _ _ _ Nd E1). apply incl_refl.
    + rewrite (tcn_sdget_upd _ _ _ _ _ _ _ Nd). destruct (Nat.eqb_spec t i) as [->|]; [|apply incl_refl].
      unfold tcn_sdget. rewrite Nd, Aq. tcn_sub.
  - rewrite (tcn_sdget_same _ _ _ _ _ _ _ Nd) by reflexivity. apply incl_refl.
Qed.

(* invariant K (every run): acknowledged lengths never exceed what the peer has read *)
Definition tcn_ackle (t c : nat) (m : tcn_msg) : Prop :=
  match m with CAck t' k => t' = t -> k <= c | _ => True end.

Definition tcn_invK (x : tcn_view * tcn_env) : Prop :=
  forall t,
    Forall (tcn_ackle t (tcn_count t (ev_got (snd x)))) (tcn_back (fst x) t ++ ev_pend (snd x))
    /\ tcn_inlenof (v_snd (fst x)) t <= tcn_count t (ev_got (snd x)).

Lemma tcn_ackle_mono t c c' m : c <= c' -> tcn_ackle t c m -> tcn_ackle t c' m.
Proof. destruct m; cbn; auto. intros L H E. specialize (H E). lia. Qed.

Lemma tcn_count_snoc t l m : tcn_count t (l ++ [m]) = tcn_count t l + (if tcn_is_seg_of t m then 1 else 0).
Proof. unfold tcn_count. rewrite filter_app, app_length. cbn. destruct (tcn_is_seg_of t m); reflexivity. Qed.

Lemma tcn_seff_invK p x x' :
  tcn_seff p x x' -> tcn_base x -> tcn_invK x -> tcn_invK x'.
Proof.
  intros E [L [Ep Es]] K t0. destruct (K t0) as [K1 K2]. clear K.
  destruct E as [q v v' e V|m r pend got xs inq ops li lo h rx sn cl rep up
                |m r scr got xs inq ops li lo h rx sn cl rep up|m e xs inq ops li lo h rx sn cl rep up];
    tcn_vs.
  - apply Forall_app in K1 as [Kb Kp]. split.
    { apply Forall_app. split; [exact (incl_Forall (tcn_veff_back _ _ _ t0 V) Kb)|exact Kp]. }
    destruct L as (Hs & _). unfold tcn_back, tcn_ackq, tcn_inlenof in *.
    destruct V; tcn_vs; try exact K2.
    + now rewrite (tcn_sdget_same _ _ _ _ _ _ _ Nd) by reflexivity.
    + destruct (tcn_sdloc_ack _ _ _ _ Ld) as [[_ E2]|(m & Aq & Il)].
      * now rewrite (tcn_sdget_same _ _ _ _ _ _ _ Nd E2).
      * rewrite (tcn_sdget_upd _ _ _ _ _ _ _ Nd). destruct (Nat.eqb_spec t0 i) as [->|]; [|exact K2].
        unfold tcn_sdget in *. rewrite Nd in *. rewrite Aq in Kb. rewrite Il.
        apply Forall_app in Kb as [Kb _]. apply Forall_inv in Kb.
        destruct (Hs _ _ Nd) as (_ & _ & Ha & _). rewrite Aq in Ha.
        apply Forall_inv in Ha as [Hm _].
        destruct m; cbn in Hm; inversion Hm; subst; auto.
    + now rewrite (tcn_sdget_same _ _ _ _ _ _ _ Nd) by reflexivity.
  - split; [|exact K2]. apply Forall_cons_iff in Es as [Hm _].
    apply (incl_Forall (l1 := m :: tcn_back (mkV xs inq ops li lo h rx sn cl rep up) t0 ++ pend)).
    { unfold tcn_back, tcn_inr; tcn_vs. tcn_incl. }
    constructor; [|exact K1]. destruct m; cbn; auto. discriminate.
  - split; [|exact K2]. revert K1. apply incl_Forall. unfold tcn_back, tcn_inr; tcn_vs. tcn_incl.
  - (* the peer reads a message: a segment of transfer t0 raises the bound, and is acknowledged with it *)
    unfold tcn_env_take; tcn_vs. rewrite tcn_count_snoc. split; [|lia].
    assert (Forall (tcn_ackle t0 (tcn_count t0 (ev_got e) + (if tcn_is_seg_of t0 m then 1 else 0)))
                   (tcn_back (mkV xs inq ops li lo h rx sn cl rep up) t0 ++ ev_pend e)) as K1'.
    { revert K1. apply Forall_impl. intros a. apply tcn_ackle_mono. lia. }
    destruct m; auto.
    rewrite app_assoc. apply Forall_app; split; [exact K1'|].
    constructor; [|constructor]. cbn. intros ->. rewrite Nat.eqb_refl. lia.
Qed.

Lemma tcn_map_upd {A B} (f : A -> B) i d d' l :
  nth_error l i = Some d -> f d' = f d -> map f (tcn_upd i d' l) = map f l.
Proof. intros N E. apply (map_list_upd f d). now rewrite (nth_error_nth _ _ d N). Qed.
Lemma tcn_veff_n p v v' : tcn_veff p v v' -> map sd_n (v_snd v') = map sd_n (v_snd v).
Proof.
  intros E; destruct E; cbn [v_snd]; auto.
  - eapply tcn_map_upd; eauto.
  - eapply tcn_map_upd; eauto. exact (proj1 (tcn_sdloc_seg _ _ _ _ Ld)).
  - eapply tcn_map_upd; eauto.
Qed.
Lemma tcn_veff_nof p v v' t : tcn_veff p v v' -> tcn_nof (v_snd v') t = tcn_nof (v_snd v) t.
Proof.
  intros E. apply tcn_veff_n in E.
  assert (forall sn, tcn_nof sn t = match nth_error (map sd_n sn) t with Some n => n | None => 0 end) as G
    by (intros sn; unfold tcn_nof, tcn_sdget; rewrite nth_error_map; destruct (nth_error sn t); reflexivity).
  now rewrite !G, E.
Qed.
Lemma tcn_seff_n p x x' : tcn_seff p x x' -> map sd_n (v_snd (fst x')) = map sd_n (v_snd (fst x)).
Proof. intros E; destruct E; cbn [fst v_snd]; auto. eapply tcn_veff_n; eauto. Qed.

Definition tcn_inv1 (ns : list nat) (script0 : list tcn_msg) (x : tcn_view * tcn_env) : Prop :=
  tcn_base x /\ tcn_invA script0 x /\ tcn_invS x /\ tcn_invK x /\ map sd_n (v_snd (fst x)) = ns.

Lemma tcn_send0_nth ns t d : nth_error (map tcn_send0 ns) t = Some d -> exists n, nth_error ns t = Some n /\ d = tcn_send0 n.
Proof.
  rewrite nth_error_map. destruct (nth_error ns t); cbn; intros E; inversion E; eauto.
Qed.

Lemma tcn_init_lview ns ticks :
  Forall (fun n => 1 <= n) ns -> tcn_lview (tcn_view_of (tcn_sess0 ns ticks) tcn_link0 tcn_link0).
Proof.
  intros Hn. unfold tcn_lview; cbn. split; [|split; [|split]]; auto.
  intros i d N. apply tcn_send0_nth in N as (n & N & ->).
  assert (1 <= n) by (eapply Forall_forall in Hn; [exact Hn|eapply nth_error_In; eauto]).
  unfold tcn_sd_ok; cbn. tcn_triv.
Qed.

Lemma tcn_sdget_send0 {A} (f : tcn_send -> A) z ns t :
  (forall n, f (tcn_send0 n) = z) -> tcn_sdget f z (map tcn_send0 ns) t = z.
Proof. intros H. unfold tcn_sdget. rewrite nth_error_map. destruct (nth_error ns t); cbn; auto. Qed.

Lemma tcn_inv1_init ns ticks script :
  Forall (fun n => 1 <= n) ns -> Forall (fun m => tcn_is_ack m = false) script ->
  tcn_inv1 ns script (tcn_sview (tcn_sys0 ns ticks script)).
Proof.
  intros Hn Hs. split; [|split; [|split; [|split]]].
  - split; [apply tcn_init_lview; exact Hn|split; [constructor|exact Hs]].
  - split; reflexivity.
  - intros t. unfold tcn_segstream, tcn_emh, tcn_nextof. cbn -[tcn_sdget]. now rewrite !tcn_sdget_send0.
  - intros t. unfold tcn_back, tcn_ackq, tcn_inlenof. cbn -[tcn_sdget]. rewrite !tcn_sdget_send0 by reflexivity.
    split; [constructor|reflexivity].
  - cbn. rewrite map_map. apply map_id.
Qed.

Lemma tcn_seff_inv1 ns script0 p x x' : tcn_seff p x x' -> tcn_inv1 ns script0 x -> tcn_inv1 ns script0 x'.
Proof.
  intros E (B & A & S & K & N). split; [|split; [|split; [|split]]].
  - eapply tcn_seff_base; eauto.
  - eapply tcn_seff_invA; eauto.
  - eapply tcn_seff_invS; eauto.
  - eapply tcn_seff_invK; eauto.
  - rewrite (tcn_seff_n _ _ _ E). exact N.
Qed.

Lemma tcn_erun_inv1 cf ns script0 ps : forall y y',
  tcn_erun cf y ps = Some y' -> tcn_inv1 ns script0 (tcn_sview y) -> tcn_inv1 ns script0 (tcn_sview y').
Proof.
  induction ps as [|p ps IH]; intros y y' R I; cbn in R.
  - inversion R; subst; exact I.
  - destruct (tcn_estep cf y p) as [y1|] eqn:E; [|discriminate].
    eapply IH; [exact R|]. eapply tcn_seff_inv1; [eapply tcn_estep_seff; exact E|exact I].
Qed.

Lemma tcn_success_view ns script0 x i d :
  tcn_inv1 ns script0 x ->
  nth_error (v_snd (fst x)) i = Some d -> sd_res d = Some ROk ->
  filter (tcn_is_seg_of i) (ev_got (snd x)) = tcn_xsegs i (sd_n d) /\ nth_error ns i = Some (sd_n d).
Proof.
  intros ((L & _) & _ & S & K & N) Hd Hr.
  destruct L as (Hs & _). destruct (Hs _ _ Hd) as (_ & Hnx & _ & _ & Hm). rewrite Hr in Hm. destruct Hm as (_ & Hi & _).
  destruct (S i) as [_ Sg]. destruct (K i) as [_ K2].
  unfold tcn_inlenof, tcn_emh, tcn_nextof, tcn_nof, tcn_sdget, tcn_count in *. rewrite Hd in *.
  split; [|rewrite <- N, nth_error_map, Hd; reflexivity].
  (* the peer has read n segments or more, and what it has read begins the next <= n produced *)
  rewrite Nat.sub_0_r, filter_app, <- app_assoc in Sg.
  pose proof (f_equal (@length _) Sg) as Ll. rewrite app_length, map_length, seq_length in Ll.
  assert (sd_next d = sd_n d) as Hnn by lia. rewrite Hnn in Sg.
  destruct (filter (tcn_is_seg_of i) (v_lo (fst x) ++ v_ops (fst x)) ++ tcn_emof d); [|cbn in Ll; lia].
  rewrite app_nil_r in Sg. exact Sg.
Qed.

Definition tcn_noref (m : tcn_msg) : Prop := match m with CRef _ => False | _ => True end.
Definition tcn_noka (m : tcn_msg) : Prop := match m with CKa => False | _ => True end.

Definition tcn_is_ack_of (t : nat) (m : tcn_msg) : bool :=
  match m with CAck t' _ => t' =? t | _ => false end.
Definition tcn_ackk (m : tcn_msg) : nat := match m with CAck _ k => k | _ => 0 end.

(* The acknowledgements for Send t in l (everything under way to its main loop, the next one to
   arrive first) acknowledge, in this order, the lengths from the one after the last it has seen up to p. *)
Definition tcn_ackstream (sn : list tcn_send) (l : list tcn_msg) (t p : nat) : Prop :=
  tcn_inlenof sn t <= p
  /\ map tcn_ackk (filter (tcn_is_ack_of t) l) = seq (S (tcn_inlenof sn t)) (p - tcn_inlenof sn t).

Lemma tcn_ackstream_ext sn l l' t p :
  filter tcn_is_ack l' = filter tcn_is_ack l -> tcn_ackstream sn l t p -> tcn_ackstream sn l' t p.
Proof.
  intros E. unfold tcn_ackstream.
  rewrite <- (filter_filter_sub (tcn_is_ack_of t) tcn_is_ack l), <- (filter_filter_sub (tcn_is_ack_of t) tcn_is_ack l'), E;
    [auto| |]; intros []; cbn; auto; discriminate.
Qed.

Definition tcn_alive (v : tcn_view) : Prop :=
  forall t k r, v_h v = HIdle -> v_xs v = CAck t k :: r ->
                exists d, nth_error (v_snd v) t = Some d /\ sd_res d = None.

Lemma tcn_ackof_other t0 m t : tcn_mtid m = Some t -> t0 <> t -> tcn_is_ack_of t0 m = false.
Proof. destruct m; cbn; intros E Hn; inversion E; subst; auto. apply Nat.eqb_neq. congruence. Qed.

(* the steps of the session itself keep it, timeouts and refusals included, whatever lies beyond the transport *)
Lemma tcn_veff_ackstream q v v' far t p :
  tcn_veff q v v' -> tcn_lview v -> tcn_alive v ->
  tcn_ackstream (v_snd v) (tcn_back v t ++ far) t p -> tcn_ackstream (v_snd v') (tcn_back v' t ++ far) t p.
Proof.
  intros E (Hs & Hh & _) Al A. unfold tcn_back, tcn_inr, tcn_ackq in *.
  destruct E; tcn_vs; rewrite <- ?app_assoc in A; rewrite <- ?app_assoc; cbn [app tcn_hfw] in A |- *; try exact A.
  - revert A. apply tcn_ackstream_ext. tcn_same.
  - revert A. apply tcn_ackstream_ext. tcn_same.
  - (* handle routes: an acknowledgement goes to its Send, which is there *)
    destruct Rt as [[k ->]| ->].
    + destruct (Al t0 k xs eq_refl eq_refl) as (d & Nd & Rd). cbn in Nd.
      unfold tcn_h_route. rewrite Nd, Rd. exact A.
    + destruct (tcn_hfw_route sn t0 (CRef t0)) as [-> | ->]; [exact A|].
      revert A. apply tcn_ackstream_ext. tcn_same.
  - revert A. apply tcn_ackstream_ext. tcn_same.
  - destruct fin; exact A.
  - cbn in Hh. destruct Hh as [Hm _]. rewrite (tcn_sdget_upd _ _ _ _ _ _ _ Nd).
    unfold tcn_ackstream, tcn_inlenof in *. rewrite (tcn_sdget_same sd_inlen _ _ _ _ _ _ Nd) by reflexivity.
    destruct (Nat.eqb_spec t t0) as [->|Hne].
    + unfold tcn_sdget in *. rewrite Nd in *. cbn [sd_ack sd_set_ack]. now rewrite <- app_assoc.
    + rewrite filter_app in A. cbn [filter] in A. now rewrite (tcn_ackof_other t m t0 Hm Hne), <- filter_app in A.
  - unfold tcn_ackstream, tcn_inlenof in *. destruct A as [Hp A].
    destruct (tcn_sdloc_ack _ _ _ _ Ld) as [[E1 E2]|(m & Aq & Il)].
    + rewrite !(tcn_sdget_same _ _ _ _ _ _ _ Nd) by assumption. auto.
    + rewrite !(tcn_sdget_upd _ _ _ _ _ _ _ Nd). destruct (Nat.eqb_spec t i) as [->|]; [|auto].
      unfold tcn_sdget in *. rewrite Nd in *. rewrite Aq in A. rewrite Il.
      destruct (Hs _ _ Nd) as (_ & _ & Ha & _). rewrite Aq in Ha.
      apply Forall_inv in Ha as [Hm _].
      destruct m; cbn in Hm; inversion Hm; subst; cbn [app filter tcn_is_ack_of] in A; [|auto].
      rewrite Nat.eqb_refl in A. cbn [map tcn_ackk] in A.
      destruct (p - sd_inlen d) as [|c] eqn:Hc; [discriminate|]. cbn [seq] in A. inversion A as [[Hk A']].
      split; [lia|]. replace (p - sd_inlen d') with c by lia. exact A'.
  - unfold tcn_ackstream, tcn_inlenof in *. now rewrite !(tcn_sdget_same _ _ _ _ _ _ _ Nd) by reflexivity.
Qed.

(* an acknowledgement for transfer t under way to Send t: that Send is still waiting *)
Lemma tcn_ackstream_alive sn l t k p :
  (forall i d, nth_error sn i = Some d -> tcn_sd_ok i d /\ sd_stop d = false) ->
  tcn_ackstream sn l t p -> p <= tcn_nextof sn t -> In (CAck t k) l ->
  exists d, nth_error sn t = Some d /\ sd_res d = None.
Proof.
  intros Hs [Hle A] Hpn Hin.
  assert (tcn_inlenof sn t < p) as Hlt.
  { destruct (Nat.eq_dec (tcn_inlenof sn t) p) as [Hc|]; [|lia].
    rewrite Hc, Nat.sub_diag in A. apply map_eq_nil in A.
    assert (In (CAck t k) []) as []. rewrite <- A. apply filter_In. split; [assumption|]. cbn. apply Nat.eqb_refl. }
  unfold tcn_inlenof, tcn_nextof, tcn_sdget in *.
  destruct (nth_error sn t) as [d|] eqn:N; [|lia].
  exists d; split; [reflexivity|].
  destruct (Hs _ _ N) as [(_ & Hnx & _ & _ & Hm) Hst]. rewrite Hst in Hm.
  destruct (sd_res d) as [[]|]; [destruct Hm as (_ & Hi & _); lia|discriminate..|reflexivity].
Qed.

(* when nothing is under way any more and all n segments of a Send are accounted for, it has returned success *)
Lemma tcn_quiet_send_ok sn i d :
  tcn_sd_ok i d -> nth_error sn i = Some d -> sd_stop d = false ->
  sd_em d = EmDone -> (sd_res d = None -> sd_len d = None /\ sd_ack d = []) ->
  tcn_ackstream sn (sd_ack d) i (sd_n d) -> sd_res d = Some ROk.
Proof.
  intros (_ & _ & _ & He & Hm) Nd Hstop Hem Hq [Hle A]. rewrite Hem in He. rewrite Hstop in Hm.
  destruct (proj1 He Hstop) as [_ Hlo].
  destruct (sd_res d) as [[]|]; [reflexivity|discriminate..|].
  exfalso. destruct (Hq eq_refl) as [Hl Ha].
  unfold tcn_inlenof, tcn_sdget in *. rewrite Nd in *. rewrite Ha in A. cbn in A.
  destruct Hlo as [Hl'|Ho]; [congruence|].
  apply (proj2 Hm). split; [assumption|].
  destruct (sd_n d - sd_inlen d) eqn:Hc; [lia|discriminate].
Qed.

(* nobody has given up: only messages of kind C (no refusals among them) are under way to a Send,
   no Send has stopped, handle is not dead, no keepalive has passed the stage *)
Section Good.
Variable C : tcn_msg -> Prop.
Hypothesis C_noref : forall m, C m -> tcn_noref m.

Definition tcn_vgood (v : tcn_view) : Prop :=
  (forall t, Forall C (tcn_back v t))
  /\ (forall i d, nth_error (v_snd v) i = Some d -> sd_stop d = false)
  /\ v_h v <> HDead
  /\ Forall tcn_noka (v_xs v).

Lemma tcn_veff_vgood q v v' :
  tcn_veff q v v' -> (forall i, q <> PSendTimeout i) -> tcn_lview v -> tcn_alive v -> tcn_vgood v -> tcn_vgood v'.
Proof.
  intros E Lq (Hs & _) Al (G1 & G2 & G3 & G4).
  split; [intros t; exact (incl_Forall (tcn_veff_back _ _ _ t E) (G1 t))|].
  unfold tcn_back, tcn_ackq, tcn_inr in G1.
  destruct E; tcn_vs; (split; [try exact G2|split; [try exact G3; try discriminate|try exact G4]]).
  - apply Forall_app; split; [exact G4|]. constructor; [|constructor]. destruct m; cbn; auto.
  - now apply Forall_inv_tail in G4.
  - (* handle takes an acknowledgement: the Send is still there *)
    specialize (G1 0). cbn [tcn_hfw app] in G1. apply Forall_app in G1 as [_ G1]. apply Forall_inv in G1.
    destruct Rt as [[k ->]| ->]; [|destruct (C_noref _ G1)].
    destruct (Al t k xs eq_refl eq_refl) as (d & Nd & Rd). cbn in Nd.
    unfold tcn_h_route. rewrite Nd, Rd. discriminate.
  - now apply Forall_inv_tail in G4.
  - (* a keepalive never gets as far as handle *)
    now apply Forall_inv in G4.
  - now apply Forall_inv_tail in G4.
  - destruct fin; discriminate.
  - apply (list_upd_all (fun _ d => sd_stop d = false)); [exact G2|exact (G2 _ _ Nd)].
  - apply (list_upd_all (fun _ d => sd_stop d = false)); [exact G2|].
    pose proof (G2 _ _ Nd) as Hst. destruct Ld; cbn; auto.
    + unfold tcn_main_len in Mn. destruct (sd_res d), (sd_len d); inversion Mn; subst; cbn; auto.
    + unfold tcn_main_ack in Mn. destruct (sd_res d); [discriminate|].
      destruct (sd_ack d) as [|m r] eqn:Aq; [discriminate|].
      specialize (G1 i). unfold tcn_sdget in G1. rewrite Nd, Aq in G1. apply Forall_inv, C_noref in G1.
      destruct (Hs _ _ Nd) as (_ & _ & Ha & _). rewrite Aq in Ha.
      apply Forall_inv in Ha as [Hm' _].
      destruct m; try (destruct G1); try discriminate; inversion Mn; subst; cbn; auto.
    + exfalso. eapply Lq; reflexivity.
  - apply (list_upd_all (fun _ d => sd_stop d = false)); [exact G2|exact (G2 _ _ Nd)].
Qed.
End Good.

(* invariant R: the acknowledgements of each Send, in order.  It holds in runs without Send timeouts
   against a peer that sends no refusals (live runs). *)
Definition tcn_invR (x : tcn_view * tcn_env) : Prop :=
  (forall t, tcn_ackstream (v_snd (fst x)) (tcn_back (fst x) t ++ ev_pend (snd x)) t (tcn_count t (ev_got (snd x))))
  /\ tcn_vgood tcn_noref (fst x)
  /\ Forall tcn_noref (ev_script (snd x)).

Definition tcn_elive_run (ps : list tcn_eproc) : Prop := Forall (fun p => tcn_elive p = true \/ p = ESess PStTick) ps.

Lemma tcn_route_alive x t k :
  tcn_base x -> tcn_invS x -> tcn_invR x ->
  In (CAck t k) (tcn_back (fst x) t ++ ev_pend (snd x)) ->
  exists d, nth_error (v_snd (fst x)) t = Some d /\ sd_res d = None.
Proof.
  intros [(Hs & _) _] S (R1 & (_ & G2 & _) & _).
  apply (tcn_ackstream_alive _ _ _ _ _ (fun i d N => conj (Hs i d N) (G2 i d N)) (R1 t)).
  (* the peer has read no more segments than were produced *)
  destruct (S t) as [_ Sg]. apply (f_equal (@length _)) in Sg.
  rewrite Nat.sub_0_r, map_length, seq_length, filter_app, !app_length in Sg. unfold tcn_count. lia.
Qed.

Lemma tcn_invR_alive x : tcn_base x -> tcn_invS x -> tcn_invR x -> tcn_alive (fst x).
Proof.
  intros B S R t k r Hh Hx. apply (tcn_route_alive x t k B S R).
  unfold tcn_back, tcn_inr. rewrite Hx. apply in_or_app; left. apply in_or_app; right. apply in_or_app; right.
  left; reflexivity.
Qed.

Lemma tcn_seff_invR p x x' :
  tcn_seff p x x' -> (tcn_elive p = true \/ p = ESess PStTick) ->
  tcn_base x -> tcn_invS x -> tcn_invR x -> tcn_invR x'.
Proof.
  intros E Lp B Sv R. pose proof (tcn_invR_alive x B Sv R) as Al.
  destruct R as (R1 & G & Rs). destruct B as [L [Ep Es]].
  destruct E as [q v v' e V|m r pend got xs inq ops li lo h rx sn cl rep up
                |m r scr got xs inq ops li lo h rx sn cl rep up|m e xs inq ops li lo h rx sn cl rep up];
    unfold tcn_invR in *; tcn_vs.
  - split; [|split; [|exact Rs]].
    + intros t. eapply tcn_veff_ackstream; eauto.
    + eapply tcn_veff_vgood; eauto. intros i ->. destruct Lp; discriminate.
  - apply Forall_cons_iff in Es as [Hm _]. apply Forall_cons_iff in Rs as [Hr Rs].
    split; [|split; [|exact Rs]].
    + intros t. generalize (R1 t). apply tcn_ackstream_ext. unfold tcn_back, tcn_inr; tcn_vs.
      rewrite !app_assoc, <- (app_assoc _ [m]). now apply filter_insert.
    + destruct G as (G1 & G234). split; [|exact G234]. intros t.
      apply (incl_Forall (l1 := m :: tcn_back (mkV xs inq ops li lo h rx sn cl rep up) t)); [|constructor; auto].
      unfold tcn_back, tcn_inr; tcn_vs. tcn_incl.
  - clear Lp. split; [|split; [|exact Rs]].
    + intros t. generalize (R1 t). unfold tcn_back, tcn_inr; tcn_vs. now rewrite <- !app_assoc.
    + destruct G as (G1 & G234). split; [|exact G234]. intros t.
      apply (incl_Forall (l1 := m :: tcn_back (mkV xs inq ops li lo h rx sn cl rep up) t)); [|constructor; auto].
      * unfold tcn_back, tcn_inr; tcn_vs. tcn_incl.
      * apply Forall_inv in Ep as [Hm _]. destruct m; try discriminate; exact I.
  - split; [|split; [exact G|exact Rs]].
    intros t. destruct (R1 t) as [Hle A]. unfold tcn_ackstream, tcn_env_take, tcn_back, tcn_inr in *; tcn_vs.
    rewrite tcn_count_snoc.
    destruct m as [t1 last| | |]; cbn [tcn_is_seg_of]; rewrite ?Nat.add_0_r; auto.
    destruct (Nat.eqb_spec t1 t) as [->|Hne].
    + split; [lia|]. rewrite app_assoc, filter_app, map_app, A.
      cbn. rewrite Nat.eqb_refl. cbn.
      replace (tcn_count t (ev_got e) + 1 - tcn_inlenof sn t) with (S (tcn_count t (ev_got e) - tcn_inlenof sn t)) by lia.
      rewrite seq_S. f_equal. f_equal. lia.
    + rewrite Nat.add_0_r. split; [assumption|].
      rewrite app_assoc, filter_app. cbn.
      destruct (Nat.eqb_spec t1 t); [congruence|]. rewrite app_nil_r. assumption.
Qed.

Definition tcn_inv2 (ns : list nat) (script0 : list tcn_msg) (x : tcn_view * tcn_env) : Prop :=
  tcn_inv1 ns script0 x /\ tcn_invR x.

Definition tcn_script_live (script : list tcn_msg) : Prop :=
  Forall (fun m => match m with CSeg _ _ => True | CKa => True | _ => False end) script.

Lemma tcn_script_live_noack script : tcn_script_live script -> Forall (fun m => tcn_is_ack m = false) script.
Proof. apply Forall_impl. intros [] H; try reflexivity; destruct H. Qed.
Lemma tcn_script_live_noref script : tcn_script_live script -> Forall tcn_noref script.
Proof. apply Forall_impl. intros [] H; try exact I; destruct H. Qed.

Lemma tcn_vgood_init C ns ticks : tcn_vgood C (tcn_view_of (tcn_sess0 ns ticks) tcn_link0 tcn_link0).
Proof.
  split; [|split; [|split; [discriminate|constructor]]].
  - intros t. unfold tcn_back, tcn_ackq. cbn -[tcn_sdget]. rewrite tcn_sdget_send0 by reflexivity. constructor.
  - intros i d N. apply tcn_send0_nth in N as (n & _ & ->). reflexivity.
Qed.

Lemma tcn_inv2_init ns ticks script :
  Forall (fun n => 1 <= n) ns -> tcn_script_live script ->
  tcn_inv2 ns script (tcn_sview (tcn_sys0 ns ticks script)).
Proof.
  intros Hn Hs. split; [apply tcn_inv1_init; auto using tcn_script_live_noack|].
  split; [|split; [apply tcn_vgood_init|apply tcn_script_live_noref; assumption]].
  intros t. unfold tcn_ackstream, tcn_back, tcn_ackq, tcn_inlenof. cbn -[tcn_sdget]. now rewrite !tcn_sdget_send0.
Qed.

Lemma tcn_erun_inv2 cf ns script0 ps : forall y y',
  tcn_erun cf y ps = Some y' -> tcn_elive_run ps ->
  tcn_inv2 ns script0 (tcn_sview y) -> tcn_inv2 ns script0 (tcn_sview y').
Proof.
  induction ps as [|p ps IH]; intros y y' R Lv I; cbn in R.
  - inversion R; subst; exact I.
  - destruct (tcn_estep cf y p) as [y1|] eqn:E; [|discriminate].
    apply Forall_cons_iff in Lv as [Lp Lv].
    eapply IH; [exact R|exact Lv|].
    apply tcn_estep_seff in E. destruct I as [I1 IR]. split.
    + eapply tcn_seff_inv1; eauto.
    + destruct I1 as (B & _ & Sv & _). eapply tcn_seff_invR; eauto.
Qed.

Definition tcn_caps_ok (cf : tcn_conf) : Prop :=
  1 <= cf_in cf /\ 1 <= cf_out cf /\ 1 <= cf_xin cf /\ 1 <= cf_xout cf /\ 1 <= cf_ack cf /\ 1 <= cf_rep cf.

Lemma tcn_procs_in q s :
  In q (tcn_procs s)
  \/ exists i, s <= i /\ (q = PEmit i \/ q = PSendLen i \/ q = PSendAck i \/ q = PSendTimeout i).
Proof.
  unfold tcn_procs.
  assert (forall i, i < s -> In (PEmit i) (tcn_procs s) /\ In (PSendLen i) (tcn_procs s)
                              /\ In (PSendAck i) (tcn_procs s) /\ In (PSendTimeout i) (tcn_procs s)) as Hin.
  { intros i Hi. unfold tcn_procs.
    repeat split; apply in_or_app; right; apply in_flat_map; exists i; (split; [apply in_seq; lia|cbn; tauto]). }
  destruct q; try (left; cbn; tauto);
    (destruct (Nat.lt_ge_cases i s) as [Hl|Hg];
     [left; destruct (Hin i Hl) as (? & ? & ? & ?); assumption
     |right; exists i; split; [assumption|tauto]]).
Qed.

Lemma tcn_sstep_out_of_range cf s li lo i q :
  length (tcn_snd s) <= i ->
  q = PEmit i \/ q = PSendLen i \/ q = PSendAck i \/ q = PSendTimeout i ->
  tcn_sstep cf s li lo q = None.
Proof.
  intros L Hq. assert (nth_error (tcn_snd s) i = None) as N by (apply nth_error_None; assumption).
  destruct Hq as [Hq|[Hq|[Hq|Hq]]]; subst q; cbn; unfold tcn_send_apply; rewrite N; reflexivity.
Qed.

Lemma tcn_estuck_spec cf y :
  tcn_estuck cf y = true -> forall p, tcn_elive p = true -> tcn_estep cf y p = None.
Proof.
  unfold tcn_estuck. intros F p Lp. rewrite forallb_forall in F.
  assert (In p (tcn_eprocs (length (tcn_snd (sy_s y)))) -> tcn_estep cf y p = None) as Hin.
  { intros Hi. specialize (F p Hi). rewrite Lp in F. cbn in F.
    destruct (tcn_estep cf y p); [discriminate|reflexivity]. }
  destruct p as [q| | |]; try (apply Hin; cbn; tauto).
  destruct (tcn_procs_in q (length (tcn_snd (sy_s y)))) as [Hq|(i & Hi & Hq)].
  - apply Hin. unfold tcn_eprocs. apply in_or_app; right. apply in_map; assumption.
  - cbn. rewrite (tcn_sstep_out_of_range cf _ _ _ i q Hi Hq). reflexivity.
Qed.

(* everything the peer wrote has been acknowledged to it, every complete incoming transfer has
   been handed up exactly once (in the order of the END segments), every Send has returned success
   after the peer read exactly its segments, and the peer has nothing left to write *)
Definition tcn_efinal (ns : list nat) (script : list tcn_msg) (y : tcn_sys) : Prop :=
  filter tcn_is_ack (ev_got (sy_e y)) = tcn_acks [] script
  /\ tcn_up (sy_s y) = tcn_ups script
  /\ (forall i n, nth_error ns i = Some n ->
        exists d, nth_error (tcn_snd (sy_s y)) i = Some d /\ sd_res d = Some ROk
                  /\ filter (tcn_is_seg_of i) (ev_got (sy_e y)) = tcn_xsegs i n)
  /\ ev_script (sy_e y) = [] /\ ev_pend (sy_e y) = [].

Lemma tcn_put_nil {A} cap (m : A) : 1 <= cap -> tcn_put cap [] m = Some [m].
Proof. intros L. unfold tcn_put. cbn. destruct cap; [lia|reflexivity]. Qed.
Lemma tcn_link_write_empty T m : exists l, tcn_link_write T tcn_link0 m = Some l.
Proof. destruct T; cbn; eauto. Qed.

Definition tcn_sstuck (cf : tcn_conf) (s : tcn_sess) (li lo : tcn_link) : Prop :=
  forall q, tcn_live q = true -> tcn_sstep cf s li lo q = None.

Definition tcn_hfw_alive (s : tcn_sess) : Prop :=
  tcn_h s <> HDead
  /\ forall t m, tcn_h s = HFwd t m -> exists d, nth_error (tcn_snd s) t = Some d /\ sd_res d = None.

Lemma tcn_vgood_hfw_alive (C : tcn_msg -> Prop) s li lo :
  (forall m, C m -> tcn_noref m) ->
  tcn_lview (tcn_view_of s li lo) -> tcn_vgood C (tcn_view_of s li lo) ->
  (forall t k, tcn_h s = HFwd t (CAck t k) -> exists d, nth_error (tcn_snd s) t = Some d /\ sd_res d = None) ->
  tcn_hfw_alive s.
Proof.
  intros HC (_ & Hok & _) (G1 & _ & G3 & _) Al. split; [exact G3|]. intros t m Hh.
  specialize (G1 0). unfold tcn_back in G1. cbn in Hok, G1. rewrite Hh in Hok, G1. destruct Hok as [Hm _].
  apply Forall_app in G1 as [_ G1]. apply Forall_inv, HC in G1.
  destruct m; try discriminate; try (destruct G1). cbn in Hm. inversion Hm; subst t0. eauto.
Qed.

Definition tcn_quiet (s : tcn_sess) : Prop :=
  tcn_wh s = None /\ tcn_out s = [] /\ tcn_st s = GMain /\ tcn_in s = [] /\ tcn_xin s = [] /\ tcn_xout s = []
  /\ tcn_h s = HIdle /\ tcn_rep s = [] /\ tcn_cl s = None
  /\ (forall i d, nth_error (tcn_snd s) i = Some d ->
        sd_em d = EmDone /\ (sd_res d = None -> sd_len d = None /\ sd_ack d = [])).

(* handle cannot be the one that is blocked, unless ExchangeMsgOut is full *)
Lemma tcn_sstuck_handle cf s li lo :
  tcn_caps_ok cf -> tcn_sstuck cf s li lo -> tcn_hfw_alive s ->
  tcn_rep s = [] /\ tcn_cl s = None
  /\ ((tcn_h s = HIdle /\ tcn_xin s = []) \/ (exists a fin, tcn_h s = HAckOut a fin /\ cf_xout cf <= length (tcn_xout s))).
Proof.
  intros (Ci & Co & Cxi & Cxo & Ca & Cr) Sp [Hd Hfw].
  destruct s as [inq out wh st xin xout h rx sn cl rep up ticks]. cbn in *.
  pose proof (Sp PUpper eq_refl) as W. cbn in W. destruct rep; [|discriminate]. clear W.
  pose proof (Sp PClient eq_refl) as W. cbn in W.
  destruct cl as [t|]; [rewrite (tcn_put_nil _ _ Cr) in W; discriminate|]. clear W.
  split; [reflexivity|split; [reflexivity|]].
  pose proof (Sp PH eq_refl) as W. cbn in W. unfold tcn_h_step in W; cbn in W.
  destruct h as [|a fin|t|t m|].
  - left. destruct xin as [|m r]; [auto|]. destruct m; discriminate.
  - right. exists a, fin. split; [reflexivity|].
    unfold tcn_put in W. destruct (Nat.ltb_spec (length xout) (cf_xout cf)); [discriminate|assumption].
  - discriminate.
  - exfalso. destruct (Hfw t m eq_refl) as (d & Nd & Rd). rewrite Nd in W.
    destruct (tcn_put (cf_ack cf) (sd_ack d) m) eqn:P; [discriminate|].
    unfold tcn_put in P. destruct (Nat.ltb_spec (length (sd_ack d)) (cf_ack cf)); [discriminate|].
    pose proof (Sp (PSendAck t) eq_refl) as W2. cbn in W2.
    unfold tcn_send_apply in W2; cbn in W2. rewrite Nd in W2.
    unfold tcn_main_ack in W2. rewrite Rd in W2.
    destruct (sd_ack d) as [|m' r]; [cbn in *; lia|]. destruct m'; discriminate.
  - exfalso. apply Hd; reflexivity.
Qed.

(* either the session is quiet and nothing is under way to it, or its writer is blocked on the transport *)
Lemma tcn_sstuck_cases cf s li lo :
  cf_fix cf = true -> tcn_caps_ok cf -> tcn_sstuck cf s li lo -> tcn_hfw_alive s ->
  (tcn_quiet s /\ li = tcn_link0)
  \/ (exists m, tcn_wh s = Some m /\ tcn_link_write (cf_T cf) lo m = None).
Proof.
  intros Fx Cp Sp Hal.
  destruct (tcn_sstuck_handle cf s li lo Cp Sp Hal) as (Hrep & Hcl & Hh).
  destruct Cp as (Ci & Co & Cxi & Cxo & Ca & Cr).
  destruct s as [inq out wh st xin xout h rx sn cl rep up ticks]. cbn in *. subst rep cl.
  pose proof (Sp PWWrite eq_refl) as W. cbn in W.
  destruct wh as [m|].
  { right. exists m. split; [reflexivity|]. destruct (tcn_link_write (cf_T cf) lo m); [discriminate|reflexivity]. }
  clear W. left.
  pose proof (Sp PWTake eq_refl) as W. cbn in W. destruct out; [|discriminate]. clear W.
  assert (st = GMain \/ exists m, st = GUp m) as Hst.
  { pose proof (Sp PStPut eq_refl) as W. cbn in W.
    destruct st as [|o|m|m o]; eauto; rewrite (tcn_put_nil _ _ Co) in W; discriminate. }
  assert (xout = []) as ->.
  { pose proof (Sp PStOut eq_refl) as W. cbn in W.
    destruct Hst as [->|[m ->]]; cbn in W; destruct xout; auto; try discriminate.
    rewrite Fx in W; discriminate. }
  destruct Hh as [[-> ->]|(a & fin & _ & Hl)]; [|cbn in Hl; lia].
  assert (st = GMain) as ->.
  { destruct Hst as [->|[m ->]]; [reflexivity|].
    pose proof (Sp PStIn eq_refl) as W. cbn in W. rewrite (tcn_put_nil _ _ Cxi) in W. discriminate. }
  pose proof (Sp PStIn eq_refl) as W. cbn in W. destruct inq; [|discriminate]. clear W.
  destruct li as [qi hi].
  pose proof (Sp PRPush eq_refl) as W. cbn in W.
  destruct hi as [m|]; [rewrite (tcn_put_nil _ _ Ci) in W; discriminate|]. clear W.
  pose proof (Sp PRRead eq_refl) as W. cbn in W. destruct qi; [|discriminate]. clear W.
  split; [|reflexivity].
  unfold tcn_quiet; cbn. repeat (split; [reflexivity|]). intros i d Nd. split; [|intros Rd; split].
  - pose proof (Sp (PEmit i) eq_refl) as W. cbn in W. rewrite Nd in W. unfold tcn_emit in W.
    destruct (sd_em d); [|rewrite (tcn_put_nil _ _ Cxo) in W; discriminate|reflexivity].
    destruct (sd_stop d); [discriminate|]. destruct (sd_next d <? sd_n d); discriminate.
  - pose proof (Sp (PSendLen i) eq_refl) as W. cbn in W.
    unfold tcn_send_apply in W; cbn in W. rewrite Nd in W. unfold tcn_main_len in W. rewrite Rd in W.
    destruct (sd_len d); [discriminate|reflexivity].
  - pose proof (Sp (PSendAck i) eq_refl) as W. cbn in W.
    unfold tcn_send_apply in W; cbn in W. rewrite Nd in W. unfold tcn_main_ack in W. rewrite Rd in W.
    destruct (sd_ack d) as [|m r]; [reflexivity|destruct m; discriminate].
Qed.

Lemma tcn_stuck_final cf ns script y :
  cf_fix cf = true -> tcn_caps_ok cf ->
  tcn_inv2 ns script (tcn_sview y) ->
  tcn_estuck cf y = true -> tcn_efinal ns script y.
Proof.
  intros Fx Cp [(B & (A1 & A2) & Sv & K & N) IR] St.
  pose proof (tcn_estuck_spec cf y St) as Sp. clear St.
  destruct y as [s li lo e]. destruct e as [scr pend got].
  assert (tcn_sstuck cf s li lo) as Ss.
  { intros q Lq. specialize (Sp (ESess q) Lq). cbn in Sp.
    destruct (tcn_sstep cf s li lo q) as [[[? ?] ?]|]; [discriminate|reflexivity]. }
  assert (tcn_hfw_alive s) as Al.
  { apply (tcn_vgood_hfw_alive tcn_noref s li lo (fun m H => H)); [apply B|apply IR|].
    intros t k Hh. apply (tcn_route_alive _ t k B Sv IR).
    unfold tcn_back. cbn. rewrite Hh. apply in_or_app; left. apply in_or_app; right. left; reflexivity. }
  (* the peer reads whatever is under way to it, so the writer is not blocked: the session is quiet *)
  pose proof (Sp ERead eq_refl) as W. destruct lo as [qo ho]. cbn in W.
  destruct ho; [discriminate|]. destruct qo; [|discriminate]. clear W.
  destruct (tcn_sstuck_cases cf s li _ Fx Cp Ss Al) as [[Q ->]|(m & _ & Hw)].
  2:{ destruct (tcn_link_write_empty (cf_T cf) m) as [l Hl]. unfold tcn_link0 in Hl. congruence. }
  pose proof (Sp EWScript eq_refl) as W. cbn in W.
  destruct scr as [|m r]; [|destruct (tcn_link_write_empty (cf_T cf) m) as [l Hl]; rewrite Hl in W; discriminate].
  clear W. pose proof (Sp EWAck eq_refl) as W. cbn in W.
  destruct pend as [|m r]; [|destruct (tcn_link_write_empty (cf_T cf) m) as [l Hl]; rewrite Hl in W; discriminate].
  clear W Sp Ss Al.
  destruct Q as (Qw & Qo & Qs & Qi & Qxi & Qxo & Qh & Qr & Qc & Qd).
  destruct IR as (R1 & (_ & R2 & _) & _).
  unfold tcn_invA, tcn_invS, tcn_outq, tcn_inr, tcn_dlv, tcn_sview, tcn_view_of, tcn_lk, tcn_link0 in *;
    cbn [fst snd sy_s sy_lin sy_lout sy_e lk_h lk_q] in *.
  rewrite Qw, Qo, Qs, Qi, Qxi, Qxo, Qh, Qr, Qc in *. cbn in A1, A2. rewrite !app_nil_r in *.
  split; [exact A1|]. split; [exact A2|]. split; [|auto].
  intros i n Hn.
  assert (exists d, nth_error (tcn_snd s) i = Some d /\ sd_n d = n) as (d & Nd & <-).
  { rewrite <- N in Hn. cbn in Hn. rewrite nth_error_map in Hn. destruct (nth_error (tcn_snd s) i) as [d|]; inversion Hn; eauto. }
  exists d. split; [exact Nd|].
  destruct B as [(Hs & _) _]. pose proof (R2 _ _ Nd) as Hstop. destruct (Qd _ _ Nd) as [Hem Hq].
  pose proof (Hs _ _ Nd) as Hd. destruct Hd as (_ & _ & _ & He & _). rewrite Hem in He.
  destruct (proj1 He Hstop) as [Hnext _].
  destruct (Sv i) as [_ Sg]. unfold tcn_emh, tcn_emof, tcn_nextof, tcn_nof, tcn_sdget in Sg. cbn in Sg.
  rewrite Nd in Sg. rewrite Hem, Hnext, !app_nil_r, Nat.sub_0_r in Sg.
  split; [|exact Sg].
  apply (tcn_quiet_send_ok (tcn_snd s) i d (Hs _ _ Nd) Nd Hstop Hem Hq).
  replace (sd_n d) with (tcn_count i got) by (unfold tcn_count; now rewrite Sg, map_length, seq_length).
  generalize (R1 i). unfold tcn_back, tcn_ackq, tcn_sdget, tcn_inr. cbn. rewrite Nd, !app_nil_r. exact (fun A => A).
Qed.

Lemma tcn_estuck_false cf y :
  tcn_estuck cf y = false -> exists p y', tcn_elive p = true /\ tcn_estep cf y p = Some y'.
Proof.
  intros F. apply forallb_false_ex in F as (p & _ & Hp).
  apply orb_false_iff in Hp as [H1 H2]. apply negb_false_iff in H1.
  destruct (tcn_estep cf y p) as [y'|] eqn:E; [|discriminate]. eauto.
Qed.

Lemma tcn_caps_real fx T : tcn_caps_ok (tcn_real fx T).
Proof. unfold tcn_caps_ok, tcn_real; cbn. unfold tcn_cap_in, tcn_cap_out, tcn_cap_xin, tcn_cap_xout, tcn_cap_ack, tcn_cap_rep. lia. Qed.

Definition tcn_elive_runb (ps : list tcn_eproc) : bool :=
  forallb (fun p => match p with ESess (PSendTimeout _) => false | _ => true end) ps.
Lemma tcn_elive_runb_ok ps : tcn_elive_runb ps = true -> tcn_elive_run ps.
Proof.
  unfold tcn_elive_runb, tcn_elive_run. rewrite forallb_forall, Forall_forall.
  intros H p Hp. specialize (H p Hp). destruct p as [q| | |]; auto. destruct q; auto; discriminate.
Qed.

(* the schedule of the witness of defect (1): the peer writes as fast as the transport takes it,
   the stage always prefers its incoming side, handle runs whenever it can, everything that
   drains the outgoing side comes last *)
Definition tcn_prio_burst : list tcn_eproc :=
  [EWScript; ESess PRRead; ESess PRPush; ESess PStIn; ESess PH; ESess PStOut; ESess PStPut;
   ESess PWTake; ESess PWWrite; ERead; EWAck; ESess PClient; ESess PUpper].
Definition tcn_burst_run (fx : bool) (T n : nat) : list tcn_eproc * tcn_sys :=
  tcn_greedy (tcn_estep (tcn_real fx T)) (40 * n) (tcn_sys0 [] 0 (tcn_xsegs 0 n)) tcn_prio_burst.
