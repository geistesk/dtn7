(* CrcProofs.v - check values, byte/bit form agreement, linearity, and the burst theorem:
   two equal-length messages that differ by a non-zero bit pattern confined to a window of at
   most w consecutive bits (in the CRC's own bit order) have different CRCs. *)
From DTN Require Import Base Crc.
Open Scope N_scope.

(* identities between xor / and expressions over N, decided bit by bit *)
Ltac bitwise :=
  apply N.bits_inj; intros ?i; repeat (rewrite N.lxor_spec || rewrite N.land_spec || rewrite N.bits_0);
  repeat match goal with |- context [N.testbit ?a ?i] => destruct (N.testbit a i) end; reflexivity.

Lemma land_lxor_distr_r a b m : N.land (N.lxor a b) m = N.lxor (N.land a m) (N.land b m).
Proof. bitwise. Qed.

Lemma lt_pow2_bits n k : (forall j, k <= j -> N.testbit n j = false) -> n < 2 ^ k.
Proof.
  intros H. destruct (N.eq_dec n 0) as [->|Hn]; [lia|].
  apply N.log2_lt_pow2; [lia|]. destruct (N.lt_ge_cases (N.log2 n) k) as [|Hge]; [assumption|].
  pose proof (N.bit_log2 n Hn) as Hb. rewrite (H _ Hge) in Hb. discriminate.
Qed.

Lemma bits_lt_pow2 n k : n < 2 ^ k -> forall j, k <= j -> N.testbit n j = false.
Proof.
  intros H j Hj. destruct (N.eq_dec n 0) as [->|Hn]; [apply N.bits_0|].
  apply N.bits_above_log2. apply N.log2_lt_pow2 in H; lia.
Qed.

Lemma lxor_lt a b k : a < 2 ^ k -> b < 2 ^ k -> N.lxor a b < 2 ^ k.
Proof.
  intros Ha Hb. apply lt_pow2_bits. intros j Hj.
  rewrite N.lxor_spec, (bits_lt_pow2 a k), (bits_lt_pow2 b k) by assumption. reflexivity.
Qed.

Lemma lxor_cancel_r a b c : N.lxor a c = N.lxor b c -> a = b.
Proof. intros H. rewrite <- (N.lxor_0_r a), <- (N.lxor_0_r b), <- (N.lxor_nilpotent c), <- !N.lxor_assoc, H. reflexivity. Qed.

Lemma lxor_xo a b c : N.lxor (N.lxor a c) (N.lxor b c) = N.lxor a b.
Proof. bitwise. Qed.

Lemma b2n_xorb x y : N.b2n (xorb x y) = N.lxor (N.b2n x) (N.b2n y).
Proof. destruct x, y; reflexivity. Qed.

Lemma lxor_cons_bit x y m n :
  N.lxor (N.b2n x + 2 * m) (N.b2n y + 2 * n) = N.b2n (xorb x y) + 2 * N.lxor m n.
Proof.
  rewrite !(N.add_comm (N.b2n _)). apply N.bits_inj. intros i.
  destruct (N.zero_or_succ i) as [->|[j ->]].
  - rewrite N.lxor_spec, !N.testbit_0_r. reflexivity.
  - rewrite N.lxor_spec, !N.testbit_succ_r, N.lxor_spec. reflexivity.
Qed.

Example crc16_check : crc16_x25 [49;50;51;52;53;54;55;56;57] = 36974.   (* 0x906E *)
Proof. vm_compute. reflexivity. Qed.
Example crc32c_check : crc32c [49;50;51;52;53;54;55;56;57] = 3808858755.  (* 0xE3069283 *)
Proof. vm_compute. reflexivity. Qed.

Fixpoint word (bs : list bool) : N :=
  match bs with [] => 0 | b :: bs => N.b2n b + 2 * word bs end.

Fixpoint xorbits (a b : list bool) : list bool :=
  match a, b with
  | x :: a, y :: b => xorb x y :: xorbits a b
  | _, _ => []
  end.

Lemma word_repeat_false n : word (repeat false n) = 0.
Proof. induction n; cbn [repeat word N.b2n]; [reflexivity|]. rewrite IHn. reflexivity. Qed.

Lemma word_xorbits a : forall b, length a = length b -> word (xorbits a b) = N.lxor (word a) (word b).
Proof.
  induction a as [|x a IH]; intros [|y b] Hl; try discriminate; cbn [xorbits word]; [reflexivity|].
  rewrite IH by (cbn in Hl; lia). symmetry. apply lxor_cons_bit.
Qed.

Lemma xorbits_same a : xorbits a a = repeat false (length a).
Proof. induction a as [|x a IH]; cbn; [reflexivity|]. rewrite xorb_nilpotent, IH. reflexivity. Qed.

Lemma xorbits_false_l l : xorbits (repeat false (length l)) l = l.
Proof. induction l as [|x l IH]; cbn; [reflexivity|]. rewrite IH. destruct x; reflexivity. Qed.

Lemma xorbits_app a1 : forall b1 a2 b2, length a1 = length b1 ->
  xorbits (a1 ++ a2) (b1 ++ b2) = xorbits a1 b1 ++ xorbits a2 b2.
Proof.
  induction a1 as [|x a1 IH]; intros [|y b1] a2 b2 Hl; try discriminate; cbn [app xorbits]; [reflexivity|].
  f_equal. apply IH. cbn in Hl. lia.
Qed.

Lemma byte_bits_length k b : length (byte_bits k b) = k.
Proof. revert b; induction k; intros b; cbn [byte_bits length]; [reflexivity|]. f_equal. apply IHk. Qed.

Lemma bytes_bits_app a b : bytes_bits (a ++ b) = bytes_bits a ++ bytes_bits b.
Proof. induction a as [|x a IH]; cbn [app bytes_bits]; [reflexivity|]. rewrite IH, app_assoc. reflexivity. Qed.

Lemma bytes_bits_length x : length (bytes_bits x) = (8 * length x)%nat.
Proof. induction x as [|a x IH]; [reflexivity|]. cbn [bytes_bits]. rewrite app_length, byte_bits_length, IH. cbn [length]. lia. Qed.

Lemma bytes_bits_zeros k : bytes_bits (repeat 0 k) = repeat false (8 * k).
Proof.
  induction k as [|k IH]; [reflexivity|]. cbn [repeat bytes_bits]. rewrite IH.
  change (byte_bits 8 0) with (repeat false 8). rewrite <- repeat_app. f_equal. lia.
Qed.

Lemma crc_run_app P s a b : crc_run P s (a ++ b) = crc_run P (crc_run P s a) b.
Proof. revert s; induction a as [|x a IH]; intros s; cbn; [reflexivity|apply IH]. Qed.

Lemma crc_update_bits P bs : forall s, crc_update P s bs = crc_run P s (bytes_bits bs).
Proof.
  induction bs as [|b bs IH]; intros s; cbn [crc_update bytes_bits]; [reflexivity|].
  rewrite crc_run_app. apply IH.
Qed.

Lemma A_lxor P x y : crc_A P (N.lxor x y) = N.lxor (crc_A P x) (crc_A P y).
Proof.
  unfold crc_A. rewrite Nxor_bit0, N.shiftr_lxor.
  destruct (N.odd x), (N.odd y); cbn [xorb]; bitwise.
Qed.

Lemma run_lxor P a : forall b s t, length a = length b ->
  crc_run P (N.lxor s t) (xorbits a b) = N.lxor (crc_run P s a) (crc_run P t b).
Proof.
  induction a as [|x a IH]; intros [|y b] s t Hl; try discriminate; cbn [xorbits crc_run]; [reflexivity|].
  rewrite <- IH by (cbn in Hl; lia). f_equal. unfold crc_stepb.
  rewrite <- A_lxor. f_equal. rewrite b2n_xorb. bitwise.
Qed.

Lemma run_zeros_0 P k : crc_run P 0 (repeat false k) = 0.
Proof. induction k; cbn [repeat crc_run]; [reflexivity|]. change (crc_stepb P 0 false) with 0. exact IHk. Qed.

Lemma run_split P s l : crc_run P s l = N.lxor (crc_run P s (repeat false (length l))) (crc_run P 0 l).
Proof.
  rewrite <- (run_lxor P (repeat false (length l)) l s 0) by apply repeat_length.
  rewrite N.lxor_0_r, xorbits_false_l. reflexivity.
Qed.

Section CRC.
Variable w : N.           (* width *)
Variable P : N.           (* reflected polynomial *)
Hypothesis Hw : 1 <= w.
Hypothesis HPtop : N.testbit P (w - 1) = true.
Hypothesis HPlt : P < 2 ^ w.

Notation A := (crc_A P).
Notation stepb := (crc_stepb P).
Notation run := (crc_run P).

(* pow2_pos, lt_pow2_testbit_false (= bits_lt_pow2) and word_lt need none of the three hypotheses;
   [Proof using] names them because the closed statements of these lemmas are cited elsewhere with
   the three hypotheses in front. *)
Lemma pow2_pos k : 0 < 2 ^ k.
Proof using Hw HPtop HPlt. lia. Qed.

Lemma lt_pow2_testbit_false n k : n < 2 ^ k -> forall j, k <= j -> N.testbit n j = false.
Proof using Hw HPtop HPlt. exact (bits_lt_pow2 n k). Qed.

(* a step whose result has its top bit clear did not xor the polynomial in: it was a plain shift *)
Lemma A_small_inv t u : t < 2 ^ w -> A t = u -> u < 2 ^ (w - 1) -> t = 2 * u.
Proof using Hw HPtop HPlt.
  intros Ht HA Hu. unfold crc_A in HA. destruct (N.odd t) eqn:Hodd.
  - exfalso. assert (Hb : N.testbit u (w - 1) = true).
    { rewrite <- HA, N.lxor_spec, HPtop, N.shiftr_spec by lia.
      replace (w - 1 + 1) with w by lia.
      rewrite (lt_pow2_testbit_false t w Ht w) by lia. reflexivity. }
    rewrite (lt_pow2_testbit_false u (w-1) Hu (w-1)) in Hb by lia. discriminate.
  - rewrite (N.div2_odd t), Hodd, N.div2_spec, HA. cbn [N.b2n]. lia.
Qed.

Lemma A_lt t : t < 2 ^ w -> A t < 2 ^ w.
Proof using Hw HPtop HPlt.
  intros Ht. unfold crc_A.
  assert (Hs : N.shiftr t 1 < 2 ^ w).
  { rewrite N.shiftr_div_pow2. change (2 ^ 1) with 2. apply N.div_lt_upper_bound; lia. }
  destruct (N.odd t); [|exact Hs]. apply lxor_lt; assumption.
Qed.

Lemma b2n_lt (b : bool) : N.b2n b < 2 ^ w.
Proof.
  assert (2 ^ 1 <= 2 ^ w) by (apply N.pow_le_mono_r; lia). change (2^1) with 2 in *.
  destruct b; cbn; lia.
Qed.

Lemma stepb_lt s b : s < 2 ^ w -> stepb s b < 2 ^ w.
Proof. intros Hs. unfold crc_stepb. apply A_lt, lxor_lt; [exact Hs|apply b2n_lt]. Qed.

Lemma run_lt bs : forall s, s < 2 ^ w -> run s bs < 2 ^ w.
Proof. induction bs as [|b bs IH]; intros s Hs; cbn; [exact Hs|]. apply IH, stepb_lt, Hs. Qed.

Lemma word_lt bs : word bs < 2 ^ (N.of_nat (length bs)).
Proof using Hw HPtop HPlt.
  induction bs as [|b bs IH]; [cbn; lia|].
  cbn [word length]. rewrite Nat2N.inj_succ, N.pow_succ_r'. destruct b; cbn [N.b2n]; lia.
Qed.

Lemma run_zero_inv bs : forall s, s < 2 ^ w -> N.of_nat (length bs) <= w ->
  run s bs = 0 -> s = word bs.
Proof using Hw HPtop HPlt.
  induction bs as [|b bs IH]; intros s Hs Hlen Hrun; cbn [crc_run word] in *.
  - exact Hrun.
  - cbn [length] in Hlen. rewrite Nat2N.inj_succ in Hlen.
    assert (Hx : N.lxor s (N.b2n b) < 2 ^ w) by (apply lxor_lt; [exact Hs|apply b2n_lt]).
    specialize (IH (stepb s b) (stepb_lt s b Hs) ltac:(lia) Hrun).
    assert (Hsmall : word bs < 2 ^ (w - 1)).
    { eapply N.lt_le_trans; [apply word_lt|]. apply N.pow_le_mono_r; lia. }
    apply A_small_inv in IH; [|exact Hx|exact Hsmall].
    assert (s = N.lxor (2 * word bs) (N.b2n b)) as ->.
    { rewrite <- IH, N.lxor_assoc, N.lxor_nilpotent, N.lxor_0_r. reflexivity. }
    destruct b; cbn [N.b2n].
    + rewrite <- N.add_nocarry_lxor; [lia|].
      change 1 with (N.ones 1). rewrite N.land_ones. change (2 ^ 1) with 2.
      rewrite N.mul_comm. apply N.mod_mul. lia.
    + rewrite N.lxor_0_r. lia.
Qed.

Theorem burst_detected bs : N.of_nat (length bs) <= w -> run 0 bs = 0 -> word bs = 0.
Proof using Hw HPtop HPlt. intros Hl Hr. symmetry. apply run_zero_inv; [apply pow2_pos | exact Hl | exact Hr]. Qed.

Lemma A_0 : A 0 = 0.
Proof. reflexivity. Qed.

Lemma run_zeros_inv k : forall s, s < 2 ^ w -> run s (repeat false k) = 0 -> s = 0.
Proof.
  induction k as [|k IH]; intros s Hs H; cbn [repeat crc_run] in H; [exact H|].
  apply IH in H; [|apply stepb_lt, Hs]. unfold crc_stepb in H. rewrite N.lxor_0_r in H.
  apply A_small_inv with (u := 0) in H; [lia|exact Hs|apply pow2_pos].
Qed.

Lemma burst_padded pre e post : N.of_nat (length e) <= w ->
  run 0 (repeat false pre ++ e ++ repeat false post) = 0 -> word e = 0.
Proof.
  intros He H. rewrite !crc_run_app, run_zeros_0 in H.
  apply run_zeros_inv in H; [|apply run_lt, pow2_pos]. apply burst_detected; assumption.
Qed.
End CRC.

Definition crc_params (w P : N) : Prop := 1 <= w /\ N.testbit P (w - 1) = true /\ P < 2 ^ w.

Lemma poly16_ok : crc_params 16 poly16.
Proof. vm_compute. repeat split; try reflexivity; discriminate. Qed.
Lemma poly32_ok : crc_params 32 poly32c.
Proof. vm_compute. repeat split; try reflexivity; discriminate. Qed.

Theorem update_burst w P init xo x y pre e post : crc_params w P ->
  length x = length y ->
  xorbits (bytes_bits x) (bytes_bits y) = repeat false pre ++ e ++ repeat false post ->
  N.of_nat (length e) <= w -> word e <> 0 ->
  N.lxor (crc_update P init x) xo <> N.lxor (crc_update P init y) xo.
Proof.
  intros (H1 & H2 & H3) Hl Hx He Hne Heq. apply lxor_cancel_r in Heq. rewrite !crc_update_bits in Heq.
  apply Hne, (burst_padded w P H1 H2 H3 pre e post He).
  (* by linearity the register, started in 0, runs over the difference to the difference of the two results *)
  pose proof (run_lxor P (bytes_bits x) (bytes_bits y) init init) as Hr. rewrite N.lxor_nilpotent in Hr.
  rewrite <- Hx, Hr, Heq by (rewrite !bytes_bits_length, Hl; reflexivity). apply N.lxor_nilpotent.
Qed.
