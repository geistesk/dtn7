(* DecodeWf.v - what a successful decode guarantees about the decoded value: every field is in
   the range the round-trip theorem needs (X_rng); with CheckValid (X_valid) that is X_wf, so the
   (normalised) decoded bundle is bundle_wf.
   One of these ranges is a length: a block's data, re-encoded canonically (inner_of), has to fit cboring's
   2^31-1 again (len_ok, in dec_ext_min).  It does because it is no longer than the data that was read:
   heads are minimal, trailing bytes are dropped, map duplicates merged.  That is all the
   "length (enc ..) + length r <= length bs" conjuncts of the *_min lemmas are for; above the data of a
   block (dec_cblock_rng, dec_primary_rng) they are dropped. *)
From DTN Require Import Base Cbor CborProofs Crc Eid EidProofs Bundle BundleWf BundleProofs DecodeInv ValidProofs.
From Coq Require Import ZifyN ZifyNat ZifyBool.
Open Scope N_scope.

Lemma head_bytes_length m n :
  n < 24 /\ length (head_bytes m n) = 1%nat \/ 24 <= n < 256 /\ length (head_bytes m n) = 2%nat
  \/ 256 <= n < 65536 /\ length (head_bytes m n) = 3%nat
  \/ 65536 <= n < 4294967296 /\ length (head_bytes m n) = 5%nat
  \/ 4294967296 <= n /\ length (head_bytes m n) = 9%nat.
Proof.
  unfold head_bytes. destruct (n <? 24) eqn:E1; [cbn; lia|]. destruct (n <? 256) eqn:E2; [cbn; lia|].
  destruct (n <? 65536) eqn:E3; [cbn; lia|]. destruct (n <? 4294967296) eqn:E4; cbn; lia.
Qed.

Lemma head_bytes_pos m n : (1 <= length (head_bytes m n))%nat.
Proof. pose proof (head_bytes_length m n). lia. Qed.

Lemma head_bytes_length_le m n : (length (head_bytes m n) <= 9)%nat.
Proof. pose proof (head_bytes_length m n). lia. Qed.

Lemma head_bytes_len_mono m a b : a <= b -> (length (head_bytes m a) <= length (head_bytes m b))%nat.
Proof. pose proof (head_bytes_length m a). pose proof (head_bytes_length m b). lia. Qed.

Lemma head_bytes_len_bound m n (l : nat) :
  n < 256 ^ N.of_nat l -> (l = 1 \/ l = 2 \/ l = 4 \/ l = 8)%nat -> (length (head_bytes m n) <= 1 + l)%nat.
Proof. pose proof (head_bytes_length m n). intros Hn [-> | [-> | [-> | ->]]]; cbn in Hn; lia. Qed.

Lemma read_head_min bs m n r : bytes_ok bs = true -> read_head bs = Ok (m, n) r ->
  n < 18446744073709551616 /\ bytes_ok r = true /\ (length (head_bytes m n) + length r <= length bs)%nat.
Proof.
  intros Hb H. destruct (read_head_ok bs m n r Hb H) as [Hn Hr]. split; [exact Hn|]. split; [exact Hr|].
  apply read_head_inv in H as (b & x & -> & Hx). cbn [length]. rewrite app_length.
  destruct Hx as [[-> Hn24] | [Hl ->]].
  - pose proof (head_bytes_length m n). cbn [length]. lia.
  - apply (bytes_ok_app_r [b]), bytes_ok_app_l in Hb.
    pose proof (head_bytes_len_bound m _ _ (be_decode_lt x Hb) Hl). lia.
Qed.

Lemma read_expect_min mj bs n r : bytes_ok bs = true -> read_expect mj bs = Ok n r ->
  u64_ok n = true /\ bytes_ok r = true /\ (length (head_bytes mj n) + length r <= length bs)%nat.
Proof.
  intros Hb H. apply read_expect_inv, (read_head_min _ _ _ _ Hb) in H as (H1 & H2 & H3).
  unfold u64_ok. split; [lia|]. tauto.
Qed.

Lemma read_uint_min bs v r : bytes_ok bs = true -> read_uint bs = Ok v r ->
  u64_ok v = true /\ bytes_ok r = true /\ (length (enc_uint v) + length r <= length bs)%nat.
Proof. apply read_expect_min. Qed.
Lemma read_f64_min bs v r : bytes_ok bs = true -> read_f64 bs = Ok v r ->
  u64_ok v = true /\ bytes_ok r = true /\ (length (enc_f64 v) + length r <= length bs)%nat.
Proof. apply read_expect_min. Qed.

Lemma read_raw_wf n bs d r : bytes_ok bs = true -> read_raw n bs = Ok d r ->
  nlen d = n /\ len_ok d = true /\ bs = d ++ r /\ bytes_ok d = true /\ bytes_ok r = true.
Proof.
  intros Hb H. apply read_raw_inv in H as (-> & Hn & Hl). rewrite bytes_ok_app in Hb. apply andb_prop in Hb. tauto.
Qed.

Lemma read_bstr_min bs d r : bytes_ok bs = true -> read_bstr bs = Ok d r ->
  len_ok d = true /\ bytes_ok d = true /\ bytes_ok r = true /\ (length (enc_bstr d) + length r <= length bs)%nat.
Proof.
  unfold read_bstr. intros Hb H. binv H as n r0 E. apply (read_expect_min _ _ _ _ Hb) in E as (_ & Hr0 & Hl).
  apply (read_raw_wf _ _ _ _ Hr0) in H as (<- & H2 & -> & H4 & H5).
  repeat split; try assumption. unfold enc_bstr. rewrite app_length in *. lia.
Qed.

Lemma ssp_bytes_wf node demux :
  bytes_ok (ssp_bytes node demux) = true -> len_ok (ssp_bytes node demux) = true -> eid_wf (Dtn node demux) = true.
Proof.
  unfold ssp_bytes, eid_wf, len_ok, nlen. intros Hb Hl.
  apply (bytes_ok_app_r [47; 47]) in Hb. rewrite bytes_ok_app in Hb. apply andb_prop in Hb as [Hn Hd].
  apply (bytes_ok_app_r [47]) in Hd. rewrite Hn, Hd. cbn [length andb] in *. rewrite app_length in Hl. cbn [length] in Hl. lia.
Qed.

Lemma dec_eid_min bs e r : bytes_ok bs = true -> dec_eid bs = Ok e r ->
  eid_wf e = true /\ bytes_ok r = true /\ (length (enc_eid_body e) + length r <= length bs)%nat.
Proof.
  intros Hb H. unfold dec_eid in H.
  binv H as l r1 E1. apply (read_expect_min _ _ _ _ Hb) in E1 as (_ & Hb1 & Hl1).
  ifinv H as El. apply negb_false_iff, N.eqb_eq in El. subst l. cbn in Hl1.
  binv H as sch r2 E2. apply (read_expect_min _ _ _ _ Hb1) in E2 as (_ & Hb2 & Hl2).
  (* the scheme number is re-encoded in one byte, and was read from at least one *)
  pose proof (head_bytes_pos mUInt sch) as Hh2.
  destruct (sch =? 1).
  - binv H as mn r3 E3. destruct mn as [m n]. apply (read_head_min _ _ _ _ Hb2) in E3 as (_ & Hb3 & Hl3).
    destruct (m =? mUInt).
    + inversion H; subst. split; [reflexivity|]. split; [exact Hb3|].
      (* here and below, clear before lia: the note on ZifyBool in CborProofs.v *)
      pose proof (head_bytes_pos m n) as Hh3. cbn. clear - Hl1 Hl2 Hl3 Hh2 Hh3. lia.
    + destruct (m =? mText) eqn:Emt; [|discriminate]. apply N.eqb_eq in Emt. subst m.
      binv H as ssp r4 E4. apply (read_raw_wf _ _ _ _ Hb3) in E4 as (<- & Hlen & -> & Hbs & Hb4).
      destruct (bytes_eqb ssp str_none); [discriminate|].
      destruct (parse_ssp ssp) as [[node demux]|] eqn:Ep; [|discriminate]. inversion H; subst e r4.
      apply parse_ssp_inv in Ep as [-> _].
      split; [exact (ssp_bytes_wf _ _ Hbs Hlen)|]. split; [exact Hb4|].
      cbn [enc_eid_body]. unfold enc_tstr. rewrite !app_length in *.
      change (length (enc_arr 2)) with 1%nat. change (length (enc_uint 1)) with 1%nat. clear - Hl1 Hl2 Hl3 Hh2. lia.
  - destruct (sch =? 2); [|discriminate].
    binv H as l2 r3 E3. apply (read_expect_min _ _ _ _ Hb2) in E3 as (_ & Hb3 & Hl3).
    ifinv H as El2. apply negb_false_iff, N.eqb_eq in El2. subst l2.
    binv H as n r4 E4. apply (read_uint_min _ _ _ Hb3) in E4 as (Hn & Hb4 & Hl4).
    binv H as sv r5 E5. apply (read_uint_min _ _ _ Hb4) in E5 as (Hs & Hb5 & Hl5).
    inversion H; subst e r5. split; [unfold eid_wf; rewrite Hn, Hs; reflexivity|]. split; [exact Hb5|].
    cbn [enc_eid_body]. rewrite !app_length. cbn in Hl3 |- *. clear - Hl1 Hl2 Hl3 Hl4 Hl5 Hh2. lia.
Qed.

(* X_rng is X_wf of Proofs/BundleWf.v with eid_wf in place of eid_ok = eid_wf && eid_valid (and, for the primary
   block, without "no fragment flag, no offset": norm_primary below): the part of X_wf that decoding alone
   guarantees.  The other part, X_valid, is CheckValid's (the lemmas *_rng_valid_wf). *)
Definition pairs_rng (l : list (eid * N)) : bool := forallb (fun kv => eid_wf (fst kv) && u64_ok (snd kv)) l.

Lemma map_set_rng k v acc : pairs_rng acc = true -> eid_wf k = true -> u64_ok v = true ->
  pairs_rng (map_set k v acc) = true.
Proof.
  induction acc as [|[k' v'] acc IH]; cbn [map_set pairs_rng forallb fst snd]; intros Ha Hk Hv.
  - rewrite Hk, Hv. reflexivity.
  - apply andb_prop in Ha. destruct Ha as [Hh Ht]. apply andb_prop in Hh. destruct Hh as [Hk' Hv'].
    destruct (eid_eqb k k'); cbn [pairs_rng forallb fst snd].
    + rewrite Hk', Hv. exact Ht.
    + rewrite Hk', Hv'. apply IH; assumption.
Qed.

Lemma map_set_keys k v acc k0 :
  existsb (fun kv' => eid_eqb k0 (fst kv')) (map_set k v acc)
  = existsb (fun kv' => eid_eqb k0 (fst kv')) acc || eid_eqb k0 k.
Proof.
  induction acc as [|[k' v'] acc IH]; cbn [map_set existsb fst].
  - rewrite orb_false_r. reflexivity.
  - destruct (eid_eqb k k') eqn:E; cbn [existsb fst].
    + apply eid_eqb_eq in E. subst k'. destruct (eid_eqb k0 k); cbn; [reflexivity|]. rewrite orb_false_r. reflexivity.
    + rewrite IH. rewrite orb_assoc. reflexivity.
Qed.

Lemma map_set_nodup k v acc : keys_nodup acc = true -> keys_nodup (map_set k v acc) = true.
Proof.
  induction acc as [|[k' v'] acc IH]; cbn [map_set keys_nodup existsb fst]; intros H; [reflexivity|].
  apply andb_prop in H. destruct H as [H1 H2].
  destruct (eid_eqb k k') eqn:E; cbn [keys_nodup fst].
  - rewrite H1, H2. reflexivity.
  - rewrite map_set_keys. apply negb_true_iff in H1. rewrite H1. cbn [orb].
    rewrite eid_eqb_sym, E. cbn. apply IH, H2.
Qed.

Lemma map_set_len encv k v acc :
  (length (enc_pairs_body encv (map_set k v acc))
   <= length (enc_pairs_body encv acc) + length (enc_eid_body k) + length (encv v))%nat.
Proof.
  induction acc as [|[k' v'] acc IH]; cbn [map_set enc_pairs_body].
  - rewrite !app_length. cbn [length]. lia.
  - destruct (eid_eqb k k') eqn:E; cbn [enc_pairs_body]; rewrite !app_length.
    + apply eid_eqb_eq in E. subst k'. lia.
    + lia.
Qed.

Lemma map_set_count k v acc : (length (map_set k v acc) <= S (length acc))%nat.
Proof.
  induction acc as [|[k' v'] acc IH]; cbn [map_set length]; [lia|]. destruct (eid_eqb k k'); cbn [length]; lia.
Qed.

Section PairsMin.
Variable readv : list N -> res N.
Variable encv : N -> list N.
Hypothesis Hrd : forall bs v r, bytes_ok bs = true -> readv bs = Ok v r ->
  u64_ok v = true /\ bytes_ok r = true /\ (length (encv v) + length r <= length bs)%nat.

Lemma dec_pairs_min : forall fuel n acc bs l r,
  bytes_ok bs = true -> dec_pairs fuel readv n acc bs = Ok l r ->
  pairs_rng acc = true -> keys_nodup acc = true ->
  pairs_rng l = true /\ keys_nodup l = true /\ bytes_ok r = true
  /\ (length (enc_pairs_body encv l) + length r <= length (enc_pairs_body encv acc) + length bs)%nat
  /\ nlen l <= nlen acc + n.
Proof.
  induction fuel as [|fuel IH]; intros n acc bs l r Hb H Ha Hn; cbn [dec_pairs] in H.
  - destruct (n =? 0); [|discriminate]. inversion H; subst. repeat split; try assumption; lia.
  - destruct (n =? 0) eqn:En0; [inversion H; subst; repeat split; try assumption; lia|].
    binv H as k r1 E1. apply (dec_eid_min _ _ _ Hb) in E1 as (Hk & Hb1 & Hl1).
    binv H as v r2 E2. apply (Hrd _ _ _ Hb1) in E2 as (Hv & Hb2 & Hl2).
    apply (IH _ _ _ _ _ Hb2) in H as (P1 & P2 & P3 & P4 & P5);
      [|exact (map_set_rng k v acc Ha Hk Hv)|exact (map_set_nodup k v acc Hn)].
    repeat split; try assumption.
    + pose proof (map_set_len encv k v acc) as Hm. clear - Hl1 Hl2 P4 Hm. lia.
    + pose proof (map_set_count k v acc) as Hm. unfold nlen in *. clear - P5 Hm En0. lia.
Qed.

(* a whole map: n entries announced, read into the empty list; merged duplicates only shorten the head *)
Lemma dec_map_min fuel n bs l r : bytes_ok bs = true -> dec_pairs fuel readv n [] bs = Ok l r ->
  pairs_rng l = true /\ keys_nodup l = true
  /\ (length (enc_maplen (nlen l) ++ enc_pairs_body encv l) + length r <= length (enc_maplen n) + length bs)%nat.
Proof.
  intros Hb H. apply (dec_pairs_min _ _ _ _ _ _ Hb) in H as (P1 & P2 & _ & P4 & P5); [|reflexivity|reflexivity].
  split; [exact P1|]. split; [exact P2|]. rewrite app_length.
  pose proof (head_bytes_len_mono mMap (nlen l) n P5) as Hm. unfold enc_maplen. cbn [enc_pairs_body length] in P4. lia.
Qed.
End PairsMin.

Lemma maplen_head_le encv (ps : list (eid * N)) n :
  (length (head_bytes mMap (nlen ps)) <= length (head_bytes mMap n) + length (enc_pairs_body encv ps))%nat.
Proof.
  (* one byte below 24 entries; from there on at most 9, which 24 entries exceed *)
  pose proof (head_bytes_pos mMap n). pose proof (enc_pairs_body_length encv ps). pose proof (head_bytes_length mMap (nlen ps)).
  unfold nlen in *. lia.
Qed.

Definition ext_rng (v : ext) : bool :=
  match v with
  | XPayload d => bytes_ok d
  | XGeneric tc d => u64_ok tc && negb (known_type tc) && bytes_ok d
  | XPrev e => eid_wf e
  | XAge n => u64_ok n
  | XHop l c => (l <=? 255) && (c <=? 255)
  | XSpray n => u64_ok n
  | XDtlsr id ts peers => eid_wf id && u64_ok ts && pairs_rng peers && keys_nodup peers
  | XProphet preds => pairs_rng preds && keys_nodup preds
  | XSig pk sg => bytes_ok pk && bytes_ok sg && len_ok pk && len_ok sg
  end.

Lemma pairs_rng_valid_wf l : pairs_rng l = true -> forallb (fun kv => eid_valid (fst kv)) l = true -> pairs_wf l = true.
Proof.
  induction l as [|[k v] l IH]; cbn [pairs_rng pairs_wf forallb fst snd]; intros H1 H2; [reflexivity|].
  apply andb_prop in H1. destruct H1 as [Ha Hb]. apply andb_prop in Ha. destruct Ha as [Hk Hv].
  apply andb_prop in H2. destruct H2 as [Hc Hd]. unfold eid_ok. rewrite Hk, Hc, Hv. cbn [andb].
  apply IH; assumption.
Qed.

Lemma ext_rng_valid_wf v : ext_rng v = true -> ext_valid v = true -> ext_wf v = true.
Proof.
  destruct v; cbn [ext_rng ext_valid ext_wf]; intros H1 H2; try assumption.
  - unfold eid_ok. rewrite H1, H2. reflexivity.
  - repeat (apply andb_prop in H1; destruct H1 as [H1 ?]). apply andb_prop in H2. destruct H2 as [Hv1 Hv2].
    unfold eid_ok. rewrite H1, Hv1. cbn [andb].
    repeat (apply andb_true_intro; split); try assumption. apply pairs_rng_valid_wf; assumption.
  - apply andb_prop in H1. destruct H1 as [Ha Hb]. rewrite Hb, andb_true_r. apply pairs_rng_valid_wf; assumption.
Qed.

Lemma len_ok_le (a b : list N) : (length a <= length b)%nat -> len_ok b = true -> len_ok a = true.
Proof. unfold len_ok, nlen, max_raw. lia. Qed.

(* The readers of the block-type-specific data that read more than one item, as dec_ext has them:
   the value is in range and its canonical encoding is no longer than what was read. *)
Lemma hop_min data v r : bytes_ok data = true ->
  bind (read_arr data) (fun l r => if negb (l =? 2) then Err else
  bind (read_uint r) (fun lim r => if 255 <? lim then Err else
  bind (read_uint r) (fun cnt r => if 255 <? cnt then Err else Ok (XHop lim cnt) r))) = Ok v r ->
  ext_rng v = true /\ (length (inner_of v) + length r <= length data)%nat.
Proof.
  intros Hb H. binv H as l r1 E1. apply (read_expect_min _ _ _ _ Hb) in E1 as (_ & Hb1 & Hl1).
  ifinv H as El. apply negb_false_iff, N.eqb_eq in El. subst l.
  binv H as lim r2 E2. apply (read_uint_min _ _ _ Hb1) in E2 as (_ & Hb2 & Hl2). ifinv H as Elim.
  binv H as cnt r3 E3. apply (read_uint_min _ _ _ Hb2) in E3 as (_ & _ & Hl3). ifinv H as Ecnt.
  inversion H; subst. cbn [ext_rng inner_of]. rewrite !app_length. unfold enc_arr.
  clear - Hl1 Hl2 Hl3 Elim Ecnt. lia.
Qed.

Lemma dtlsr_min data v r : bytes_ok data = true ->
  bind (read_arr data) (fun l r => if negb (l =? 3) then Err else
  bind (dec_eid r) (fun id r => bind (read_uint r) (fun ts r =>
  bind (read_maplen r) (fun n r =>
  bind (dec_pairs (S (length r)) read_uint n [] r) (fun ps r => Ok (XDtlsr id ts ps) r))))) = Ok v r ->
  ext_rng v = true /\ (length (inner_of v) + length r <= length data)%nat.
Proof.
  intros Hb H. binv H as l r1 E1. apply (read_expect_min _ _ _ _ Hb) in E1 as (_ & Hb1 & Hl1).
  ifinv H as El. apply negb_false_iff, N.eqb_eq in El. subst l.
  binv H as id r2 E2. apply (dec_eid_min _ _ _ Hb1) in E2 as (Hid & Hb2 & Hl2).
  binv H as ts r3 E3. apply (read_uint_min _ _ _ Hb2) in E3 as (Hts & Hb3 & Hl3).
  binv H as n r4 E4. apply (read_expect_min _ _ _ _ Hb3) in E4 as (_ & Hb4 & Hl4).
  binv H as ps r5 E5. apply (dec_map_min _ _ read_uint_min _ _ _ _ _ Hb4) in E5 as (P1 & P2 & Hl5).
  inversion H; subst. cbn [ext_rng inner_of]. rewrite Hid, Hts, P1, P2, !app_length in *. unfold enc_arr, enc_maplen in *.
  clear - Hl1 Hl2 Hl3 Hl4 Hl5. split; [reflexivity|lia].
Qed.

Lemma prophet_min data v r : bytes_ok data = true ->
  bind (read_maplen data) (fun n r =>
  bind (dec_pairs (S (length r)) read_f64 n [] r) (fun ps r => Ok (XProphet ps) r)) = Ok v r ->
  ext_rng v = true /\ (length (inner_of v) + length r <= length data)%nat.
Proof.
  intros Hb H. binv H as n r1 E1. apply (read_expect_min _ _ _ _ Hb) in E1 as (_ & Hb1 & Hl1).
  binv H as ps r2 E2. apply (dec_map_min _ _ read_f64_min _ _ _ _ _ Hb1) in E2 as (P1 & P2 & Hl2).
  inversion H; subst. cbn [ext_rng inner_of]. rewrite P1, P2. unfold enc_maplen in *.
  clear - Hl1 Hl2. split; [reflexivity|lia].
Qed.

Lemma sig_min data v r : bytes_ok data = true ->
  bind (read_arr data) (fun l r => if negb (l =? 2) then Err else
  bind (read_bstr r) (fun pk r => bind (read_bstr r) (fun sg r => Ok (XSig pk sg) r))) = Ok v r ->
  ext_rng v = true /\ (length (inner_of v) + length r <= length data)%nat.
Proof.
  intros Hb H. binv H as l r1 E1. apply (read_expect_min _ _ _ _ Hb) in E1 as (_ & Hb1 & Hl1).
  ifinv H as El. apply negb_false_iff, N.eqb_eq in El. subst l.
  binv H as pk r2 E2. apply (read_bstr_min _ _ _ Hb1) in E2 as (Hlpk & Hbpk & Hb2 & Hl2).
  binv H as sg r3 E3. apply (read_bstr_min _ _ _ Hb2) in E3 as (Hlsg & Hbsg & _ & Hl3).
  inversion H; subst. cbn [ext_rng inner_of]. rewrite Hbpk, Hbsg, Hlpk, Hlsg, !app_length. unfold enc_arr.
  clear - Hl1 Hl2 Hl3. split; [reflexivity|lia].
Qed.

Lemma dec_ext_min tc bs v r : u64_ok tc = true -> bytes_ok bs = true -> dec_ext tc bs = Ok v r ->
  ext_rng v = true /\ len_ok (inner_of v) = true /\ bytes_ok r = true /\ (length r < length bs)%nat.
Proof.
  intros Htc Hb H. unfold dec_ext in H.
  destruct (read_bstr bs) as [data rest| |] eqn:E; cbn [bind nobrk] in H; try discriminate.
  apply (read_bstr_min _ _ _ Hb) in E as (Hld & Hbd & Hbr & Hlen).
  match type of H with nobrk (match ?x with _ => _ end) = _ => destruct x as [v0 r0| |] eqn:Ei; try discriminate end.
  inversion H; subst v0 rest. clear H.
  (* whatever the type code, the value re-encodes into no more than data; the r0 left of data is dropped *)
  assert (Hv : ext_rng v = true /\ (length (inner_of v) + length r0 <= length data)%nat).
  { destruct (tc =? 1) eqn:T1; [inversion Ei; subst; cbn; split; [exact Hbd|lia]|].
    destruct (tc =? 6) eqn:T6.
    { binv Ei as e r1 E1. inversion Ei; subst. apply (dec_eid_min _ _ _ Hbd) in E1 as (He & _ & Hl). split; assumption. }
    destruct (tc =? 7) eqn:T7.
    { binv Ei as n r1 E1. inversion Ei; subst. apply (read_uint_min _ _ _ Hbd) in E1 as (Hn & _ & Hl). split; assumption. }
    destruct (tc =? 10) eqn:T10; [exact (hop_min _ _ _ Hbd Ei)|].
    destruct (tc =? 192) eqn:T192.
    { binv Ei as n r1 E1. inversion Ei; subst. apply (read_uint_min _ _ _ Hbd) in E1 as (Hn & _ & Hl). split; assumption. }
    destruct (tc =? 193) eqn:T193; [exact (dtlsr_min _ _ _ Hbd Ei)|].
    destruct (tc =? 194) eqn:T194; [exact (prophet_min _ _ _ Hbd Ei)|].
    destruct (tc =? 195) eqn:T195; [exact (sig_min _ _ _ Hbd Ei)|].
    inversion Ei; subst. cbn [ext_rng inner_of length]. unfold known_type.
    rewrite Htc, Hbd, T1, T6, T7, T10, T192, T193, T194, T195. split; [reflexivity|lia]. }
  destruct Hv as [Hv Hl]. split; [exact Hv|].
  split; [apply (len_ok_le _ data); [clear - Hl; lia|exact Hld]|]. split; [exact Hbr|].
  unfold enc_bstr in Hlen. rewrite app_length in Hlen. pose proof (head_bytes_pos mBytes (nlen data)) as Hp. clear - Hlen Hp. lia.
Qed.

Definition cblock_rng (c : cblock) : bool :=
  u64_ok (c_num c) && u64_ok (c_flags c) && crc_type_ok (c_crc c) && ext_rng (c_val c) && len_ok (inner_of (c_val c)).

Lemma dec_cblock_rng bs c r : bytes_ok bs = true -> dec_cblock bs = Ok c r -> cblock_rng c = true /\ bytes_ok r = true.
Proof.
  intros Hb H. unfold dec_cblock in H.
  binv H as l r0 E0. apply (read_expect_min _ _ _ _ Hb) in E0 as (_ & Hb0 & _). ifinv H as El.
  binv H as tc r1 E1. apply (read_uint_min _ _ _ Hb0) in E1 as (Htc & Hb1 & _).
  binv H as num r2 E2. apply (read_uint_min _ _ _ Hb1) in E2 as (Hnum & Hb2 & _).
  binv H as fl r3 E3. apply (read_uint_min _ _ _ Hb2) in E3 as (Hfl & Hb3 & _).
  binv H as crc r4 E4. apply (read_uint_min _ _ _ Hb3) in E4 as (_ & Hb4 & _). ifinv H as Ecrc. ifinv H as Epres.
  binv H as v r5 E5. apply (dec_ext_min _ _ _ _ Htc Hb4) in E5 as (Hv & Hlen & Hb5 & _).
  apply crc_tail_inv in H as (-> & [x ->] & _). split; [|exact (bytes_ok_app_r _ _ Hb5)].
  unfold cblock_rng, crc_type_ok. cbn [c_num c_flags c_crc c_val]. rewrite Hnum, Hfl, Hv, Hlen.
  replace (crc <=? 2) with true by (clear - Ecrc; lia). reflexivity.
Qed.

Lemma cblock_rng_valid_wf c : cblock_rng c = true -> cblock_valid c = true -> cblock_wf c = true.
Proof.
  unfold cblock_rng, cblock_valid, cblock_wf. intros H1 H2.
  apply andb_prop in H1. destruct H1 as [H1 Hlen]. apply andb_prop in H1. destruct H1 as [H1 Hrng].
  apply andb_prop in H1. destruct H1 as [H1 Hcrc]. apply andb_prop in H1. destruct H1 as [Hnum Hfl].
  apply andb_prop in H2. destruct H2 as [Hv _].
  assert (Hwf : ext_wf (c_val c) = true) by (apply ext_rng_valid_wf; assumption).
  rewrite (enc_ext_inner_ok _ Hwf), Hnum, Hfl, Hcrc, Hwf, Hlen. reflexivity.
Qed.

Lemma dec_blocks_rng : forall fuel bs acc bl rest,
  bytes_ok bs = true -> forallb cblock_rng acc = true ->
  dec_blocks fuel bs acc = Some (bl, rest) -> forallb cblock_rng bl = true.
Proof.
  induction fuel as [|fuel IH]; intros bs acc bl rest Hb Ha H; cbn [dec_blocks] in H; [discriminate|].
  destruct (starts_with 255 bs); [inversion H; subst; exact Ha|].
  destruct (dec_cblock bs) as [c r| |] eqn:E.
  - destruct (dec_cblock_rng bs c r Hb E) as [Hc Hr].
    apply (IH r (acc ++ [c]) bl rest Hr); [|exact H]. rewrite forallb_app, Ha. cbn. rewrite Hc. reflexivity.
  - inversion H; subst. exact Ha.
  - discriminate.
Qed.

Definition primary_rng (p : primary) : bool :=
  u64_ok (p_flags p) && crc_type_ok (p_crc p) && eid_wf (p_dst p) && eid_wf (p_src p) && eid_wf (p_rpt p)
  && u64_ok (p_time p) && u64_ok (p_seq p) && u64_ok (p_life p) && u64_ok (p_off p) && u64_ok (p_total p).

Lemma dec_primary_rng bs p r : bytes_ok bs = true -> dec_primary bs = Ok p r -> primary_rng p = true /\ bytes_ok r = true.
Proof.
  intros Hb H. unfold dec_primary in H.
  binv H as l r0 E0. apply (read_expect_min _ _ _ _ Hb) in E0 as (_ & Hb0 & _). ifinv H as El.
  binv H as ver r1 E1. apply (read_uint_min _ _ _ Hb0) in E1 as (_ & Hb1 & _). ifinv H as Ever.
  binv H as fl r2 E2. apply (read_uint_min _ _ _ Hb1) in E2 as (Hfl & Hb2 & _).
  binv H as crc r3 E3. apply (read_uint_min _ _ _ Hb2) in E3 as (_ & Hb3 & _). ifinv H as Ecrc. ifinv H as Epres.
  binv H as dst r4 E4. apply (dec_eid_min _ _ _ Hb3) in E4 as (Hdst & Hb4 & _).
  binv H as src r5 E5. apply (dec_eid_min _ _ _ Hb4) in E5 as (Hsrc & Hb5 & _).
  binv H as rpt r6 E6. apply (dec_eid_min _ _ _ Hb5) in E6 as (Hrpt & Hb6 & _).
  binv H as l2 r7 E7. apply (read_expect_min _ _ _ _ Hb6) in E7 as (_ & Hb7 & _). ifinv H as El2.
  binv H as tm r8 E8. apply (read_uint_min _ _ _ Hb7) in E8 as (Htm & Hb8 & _).
  binv H as sq r9 E9. apply (read_uint_min _ _ _ Hb8) in E9 as (Hsq & Hb9 & _).
  binv H as life r10 E10. apply (read_uint_min _ _ _ Hb9) in E10 as (Hlife & Hb10 & _).
  binv H as ot r11 E11. destruct ot as [off tot]. cbn [fst snd] in H.
  assert (Hot : u64_ok off = true /\ u64_ok tot = true /\ bytes_ok r11 = true).
  { destruct ((l =? 10) || (l =? 11)).
    - binv E11 as o1 ra Ea. apply (read_uint_min _ _ _ Hb10) in Ea as (Ho & Hba & _).
      binv E11 as t1 rb Eb. apply (read_uint_min _ _ _ Hba) in Eb as (Ht & Hbb & _). inversion E11; subst. tauto.
    - inversion E11; subst. repeat split; try reflexivity. exact Hb10. }
  destruct Hot as (Hoff & Htot & Hb11).
  apply crc_tail_inv in H as (-> & [x ->] & _). split; [|exact (bytes_ok_app_r _ _ Hb11)].
  unfold primary_rng, crc_type_ok. cbn [p_flags p_crc p_dst p_src p_rpt p_time p_seq p_life p_off p_total].
  rewrite Hfl, Hdst, Hsrc, Hrpt, Htm, Hsq, Hlife, Hoff, Htot. replace (crc <=? 2) with true by (clear - Ecrc; lia). reflexivity.
Qed.

(* The decoder accepts a primary block of 10 or 11 elements without the fragment flag and keeps the two
   fields; the serialiser writes them only with the flag.  So what is decoded from the re-serialised bytes
   is the bundle with these two fields cleared, and C01_reserialise compares up to that. *)
Definition norm_primary (p : primary) : primary :=
  if has (p_flags p) F_FRAG then p
  else {| p_flags := p_flags p; p_crc := p_crc p; p_dst := p_dst p; p_src := p_src p; p_rpt := p_rpt p;
          p_time := p_time p; p_seq := p_seq p; p_life := p_life p; p_off := 0; p_total := 0 |}.
Definition norm_bundle (b : bundle) : bundle := {| b_pri := norm_primary (b_pri b); b_blocks := b_blocks b |}.

Lemma primary_rng_valid_wf p : primary_rng p = true -> primary_valid p = true -> primary_wf (norm_primary p) = true.
Proof.
  unfold primary_rng, primary_valid, primary_wf, norm_primary. intros H1 H2.
  repeat (apply andb_prop in H1; destruct H1 as [H1 ?]).
  repeat (apply andb_prop in H2; destruct H2 as [H2 ?]).
  unfold eid_ok.
  destruct (has (p_flags p) F_FRAG) eqn:Ef; cbn [p_flags p_crc p_dst p_src p_rpt p_time p_seq p_life p_off p_total];
    rewrite ?Ef;
    repeat (apply andb_true_intro; split); try assumption; try reflexivity.
Qed.

Lemma norm_enc_primary p : enc_primary (norm_primary p) = enc_primary p.
Proof.
  unfold norm_primary. destruct (has (p_flags p) F_FRAG) eqn:Ef; [reflexivity|].
  unfold enc_primary. cbn [p_flags p_crc p_dst p_src p_rpt p_time p_seq p_life p_off p_total]. rewrite Ef. reflexivity.
Qed.

Lemma norm_check_valid now b : check_valid now (norm_bundle b) = check_valid now b.
Proof.
  unfold norm_bundle, norm_primary. destruct b as [p bl]. cbn [b_pri b_blocks].
  destruct (has (p_flags p) F_FRAG); reflexivity.
Qed.

Lemma norm_id_str b : id_str (norm_bundle b) = id_str b.
Proof.
  destruct b as [p bl]. unfold norm_bundle, norm_primary, id_str. cbn [b_pri b_blocks].
  destruct (has (p_flags p) F_FRAG) eqn:Ef.
  - rewrite Ef. reflexivity.
  - cbn [p_flags p_src p_time p_seq p_off p_total]. rewrite Ef. reflexivity.
Qed.

Theorem decoded_bundle_wf now bs b rest :
  bytes_ok bs = true -> dec_bundle now bs = Some (b, rest) -> bundle_wf (norm_bundle b) = true.
Proof.
  intros Hb H. apply dec_bundle_inv in H as (r1 & Ep & Ebl & Ev).
  assert (Htl : bytes_ok (tl bs) = true).
  { destruct bs as [|x bs]; [reflexivity|]. unfold bytes_ok in *. cbn [forallb tl] in *. apply andb_prop in Hb. tauto. }
  destruct (dec_primary_rng _ _ _ Htl Ep) as [Hp Hr1].
  pose proof (dec_blocks_rng _ _ [] _ _ Hr1 eq_refl Ebl) as Hbl.
  apply check_valid_parts in Ev as (Hpv & Hcv & _).
  unfold bundle_wf, norm_bundle. cbn [b_pri b_blocks]. apply andb_true_intro. split.
  - apply primary_rng_valid_wf; assumption.
  - rewrite forallb_forall in *. intros c Hc. apply cblock_rng_valid_wf; [apply Hbl, Hc|apply Hcv, Hc].
Qed.
