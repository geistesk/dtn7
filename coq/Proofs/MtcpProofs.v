(* MtcpProofs.v - proofs about the MTCP model: CBOR byte-string head codec, stream alignment,
   keep-alive invisibility, cuts. *)
From DTN Require Import Base ListFacts Mtcp.
Open Scope N_scope.

(* first byte and width of the heads that carry the length in following bytes *)
Definition wide_ok (b0 : N) (w : nat) : Prop :=
  b0 = 88 /\ w = 1%nat \/ b0 = 89 /\ w = 2%nat \/ b0 = 90 /\ w = 4%nat \/ b0 = 91 /\ w = 8%nat.

Lemma mtcp_head_cases n :
  n < 24 /\ mtcp_head n = [64 + n]
  \/ exists b0 w, wide_ok b0 w /\ mtcp_head n = b0 :: be_encode w n /\ (n < 2 ^ 64 -> n < 256 ^ N.of_nat w).
Proof.
  unfold mtcp_head, wide_ok. destruct (N.ltb_spec n 24); [left; auto|right].
  destruct (N.ltb_spec n 256); [exists 88, 1%nat; auto|].
  destruct (N.ltb_spec n 65536); [exists 89, 2%nat; auto 6|].
  destruct (N.ltb_spec n 4294967296); [exists 90, 4%nat|exists 91, 8%nat]; auto 8.
Qed.

(* Reading a first byte 64 + n, n < 24.  ReadMajors takes the byte apart with N.land, about which nothing is
   proved: the 24 bytes are all evaluated here, and forall_lt_sweep turns the table into read_head_small. *)
Definition small_check (n : N) : bool :=
  let b := 64 + n in
  negb ((b =? 159) || (b =? 255)) && (N.land b 31 =? n) && (N.land b 224 =? 64).
Lemma small_sweep : forallb small_check (nrange 24) = true.
Proof. vm_compute. reflexivity. Qed.

Lemma read_head_small n r : n < 24 -> mtcp_read_head ((64 + n) :: r) = Some (n, r).
Proof.
  intros Hn. pose proof (forall_lt_sweep 24 _ small_sweep n Hn) as H.
  unfold small_check in H. rewrite !andb_true_iff, negb_true_iff, !N.eqb_eq in H. destruct H as [[H1 H2] H3].
  unfold mtcp_read_head. rewrite H1, H2, H3. unfold mtcp_major_bstr.
  assert (E : (n <=? 23) = true) by (apply N.leb_le; lia). rewrite E. reflexivity.
Qed.

Lemma read_probe r : mtcp_read_head (mtcp_major_bstr :: r) = Some (0, r).
Proof. apply (read_head_small 0 r). lia. Qed.

Lemma read_head_wide b0 w s : wide_ok b0 w ->
  mtcp_read_head (b0 :: s) =
  match take_exact w s with Some (bs, r) => Some (be_decode bs, r) | None => None end.
Proof. intros [[-> ->]|[[-> ->]|[[-> ->]|[-> ->]]]]; reflexivity. Qed.

Theorem mtcp_head_roundtrip n r : n < 2 ^ 64 -> mtcp_read_head (mtcp_head n ++ r) = Some (n, r).
Proof.
  intros H64. destruct (mtcp_head_cases n) as [[Hs ->]|(b0 & w & Hw & -> & Hfit)]; cbn [app].
  - apply read_head_small, Hs.
  - rewrite (read_head_wide b0 w _ Hw). rewrite <- (be_encode_length w n) at 1.
    rewrite take_exact_app, be_decode_encode by auto. reflexivity.
Qed.

Lemma mtcp_head_cut n p q : mtcp_head n = p ++ q -> q <> [] -> mtcp_read_head p = None.
Proof.
  intros E Hq. destruct p as [|b0' bs]; [reflexivity|].
  assert (Hl : (length bs + 1 < length (mtcp_head n))%nat).
  { rewrite E. cbn [length app]. rewrite app_length. destruct q; [congruence|]. cbn [length]. lia. }
  destruct (mtcp_head_cases n) as [[_ E']|(b0 & w & Hw & E' & _)]; rewrite E' in *; cbn [length] in Hl; [lia|].
  injection E as <- _. rewrite be_encode_length in Hl.
  rewrite (read_head_wide b0 w _ Hw), take_exact_short by lia. reflexivity.
Qed.

Lemma loop_probe {B} (parse : N -> list N -> option (B * list N)) fuel r :
  mtcp_server_loop parse (S fuel) (mtcp_major_bstr :: r) = mtcp_server_loop parse fuel r.
Proof. cbn [mtcp_server_loop]. rewrite read_probe. reflexivity. Qed.

Lemma loop_bundle {B} (parse : N -> list N -> option (B * list N)) b x r fuel :
  b <> [] -> nlen b < 2 ^ 64 -> parse (nlen b) (b ++ r) = Some (x, r) ->
  mtcp_server_loop parse (S fuel) (mtcp_head (nlen b) ++ b ++ r) = x :: mtcp_server_loop parse fuel r.
Proof.
  intros Hne Hlen Hp. cbn [mtcp_server_loop].
  rewrite mtcp_head_roundtrip, nlen_nonempty, Hp by assumption. reflexivity.
Qed.

Section Codec.
Context {B : Type}.
Variable enc : B -> list N.
Variable parse : N -> list N -> option (B * list N).
(* [ok x]: x may be sent.  On those the bundle codec never produces the empty string and is
   prefix-free on what it produces (C01) *)
Variable ok : B -> Prop.
Hypothesis Hne : forall x, ok x -> enc x <> [].
Hypothesis Hlen : forall x, ok x -> nlen (enc x) < 2 ^ 64.
Hypothesis Hparse : forall x r, ok x -> parse (nlen (enc x)) (enc x ++ r) = Some (x, r).

Definition cev (o : option B) : mtcp_ev := match o with Some x => MSend (enc x) | None => MKeepalive end.
Definition handed_up (l : list (option B)) : list B :=
  flat_map (fun o => match o with Some x => [x] | None => [] end) l.

Lemma handed_up_sends (l : list B) : handed_up (map Some l) = l.
Proof. induction l as [|x l IH]; [reflexivity|]. cbn [map handed_up flat_map app] in *. f_equal. exact IH. Qed.

Definition sendable (o : option B) : Prop := match o with Some x => ok x | None => True end.

Lemma server_loop_stream l : forall fuel, Forall sendable l ->
  (length (mtcp_client_stream (map cev l)) < fuel)%nat ->
  mtcp_server_loop parse fuel (mtcp_client_stream (map cev l)) = handed_up l.
Proof.
  induction l as [|o l IH]; intros fuel Hok Hf; [destruct fuel; reflexivity|].
  inversion Hok as [|o' l' Ho Hl]; subst o' l'.
  change (mtcp_client_stream (map cev (o :: l)))
    with (mtcp_ev_bytes (cev o) ++ mtcp_client_stream (map cev l)) in *.
  rewrite app_length in Hf. destruct o as [x|]; cbn [cev mtcp_ev_bytes handed_up flat_map app] in *.
  - (* two rounds of the loop: the bundle, then the probe after it *)
    unfold mtcp_frame in *. rewrite <- !app_assoc. rewrite !app_length in Hf. cbn [mtcp_probe length app] in *.
    assert (Hx : length (enc x) <> 0%nat) by (rewrite length_zero_iff_nil; auto).
    destruct fuel as [|[|fuel]]; [lia..|]. rewrite (loop_bundle parse (enc x) x), loop_probe by auto.
    f_equal. apply IH; [exact Hl|lia].
  - cbn [mtcp_probe length app] in *. destruct fuel as [|fuel]; [lia|]. rewrite loop_probe.
    apply IH; [exact Hl|lia].
Qed.

Theorem mtcp_stream_gen l : Forall sendable l ->
  mtcp_server parse (mtcp_client_stream (map cev l)) = handed_up l.
Proof. intros H. apply server_loop_stream; [exact H|lia]. Qed.
End Codec.

Definition ev_ok (e : mtcp_ev) : Prop :=
  match e with MSend b => b <> [] /\ nlen b < 2 ^ 64 | MKeepalive => True end.

Lemma parse_opaque_ok b r : mtcp_parse_opaque (nlen b) (b ++ r) = Some (b, r).
Proof. unfold mtcp_parse_opaque, nlen. rewrite Nat2N.id. apply take_exact_app. Qed.

(* the opaque server is the server for the identity codec on byte strings: every event list is of the
   form the codec theorem speaks about *)
Lemma events_as_options evs : exists l,
  evs = map (cev (fun b => b)) l /\ mtcp_sent evs = handed_up l
  /\ (Forall ev_ok evs -> Forall (sendable (fun b => b <> [] /\ nlen b < 2 ^ 64)) l).
Proof.
  induction evs as [|e evs (l & -> & Hs & Hok)]; [exists []; auto|].
  exists (match e with MSend b => Some b | MKeepalive => None end :: l).
  destruct e as [b|]; cbn [map cev mtcp_sent handed_up flat_map app]; rewrite Hs.
  all: split; [reflexivity|]; split; [reflexivity|].
  all: intros H; inversion H; subst; constructor; auto.
Qed.

Lemma read_head_more p q n r : mtcp_read_head p = Some (n, r) -> mtcp_read_head (p ++ q) = Some (n, r ++ q).
Proof.
  destruct p as [|b s]; [discriminate|]. cbn [app]. unfold mtcp_read_head.
  destruct (_ || _); [discriminate|]. destruct (_ <=? 23).
  - destruct (_ =? _); [|discriminate]. intros [= <- <-]. reflexivity.
  - destruct (_ <=? 27); [|discriminate].
    destruct (take_exact _ s) as [[bs r']|] eqn:E; [|discriminate]. rewrite (take_exact_more _ _ q _ _ E).
    destruct (_ =? _); [|discriminate]. intros [= <- <-]. reflexivity.
Qed.

Lemma server_loop_mono {B} (parse : N -> list N -> option (B * list N)) q :
  (forall n s x r, parse n s = Some (x, r) -> parse n (s ++ q) = Some (x, r ++ q)) ->
  forall fuel fuel' p, (fuel <= fuel')%nat ->
  exists k, mtcp_server_loop parse fuel p = firstn k (mtcp_server_loop parse fuel' (p ++ q)).
Proof.
  intros Hparse. induction fuel as [|fuel IH]; intros fuel' p Hf; [exists O; reflexivity|].
  destruct fuel' as [|fuel']; [lia|]. cbn [mtcp_server_loop].
  destruct (mtcp_read_head p) as [[n r]|] eqn:Eh; [|exists O; reflexivity].
  rewrite (read_head_more _ q _ _ Eh). destruct (n =? 0); [apply IH; lia|].
  destruct (parse n r) as [[x r']|] eqn:Ep; [|exists O; reflexivity].
  rewrite (Hparse _ _ _ _ Ep). destruct (IH fuel' r' ltac:(lia)) as [k Hk].
  exists (S k). cbn [firstn]. rewrite Hk. reflexivity.
Qed.

Lemma send_chunks_concat b : concat (mtcp_send_chunks b) = mtcp_frame b.
Proof.
  unfold mtcp_send_chunks, mtcp_frame.
  destruct (Nat.leb (length b) (mtcp_bufsize - length (mtcp_head (nlen b)))).
  - cbn [concat]. rewrite app_nil_r, <- app_assoc. reflexivity.
  - cbn [concat]. rewrite app_nil_r, <- !app_assoc. rewrite (app_assoc (firstn _ b)), firstn_skipn. reflexivity.
Qed.

Lemma write_chunks_spec cs : forall cut,
  let wf := mtcp_write_chunks cs cut in
  snd wf = match cut with Some (k, _) => Nat.ltb k (length cs) | None => false end
  /\ (snd wf = false -> fst wf = cs)
  /\ exists q, concat cs = concat (fst wf) ++ q.
Proof.
  cbv zeta. induction cs as [|c cs IH]; intros cut; cbn [mtcp_write_chunks].
  - split; [destruct cut as [[k m]|]; reflexivity|]. split; [reflexivity|]. exists []. reflexivity.
  - destruct cut as [[[|k] m]|]; cbn [length]; [|specialize (IH (Some (k, m)))|specialize (IH None)].
    (* the write of c fails after m bytes *)
    1: { split; [reflexivity|]. split; [discriminate|]. exists (skipn m c ++ concat cs). cbn [fst].
         destruct (Nat.eqb m 0) eqn:E; [apply Nat.eqb_eq in E; subst m; reflexivity|].
         cbn [concat]. rewrite app_nil_r, app_assoc, firstn_skipn. reflexivity. }
    all: destruct (mtcp_write_chunks cs _) as [w f]; cbn [fst snd] in *.
    all: destruct IH as (I1 & I2 & q & I3); split; [exact I1|].
    all: split; [intros E; rewrite (I2 E); reflexivity|].
    all: exists q; cbn [concat]; rewrite I3, app_assoc; reflexivity.
Qed.
