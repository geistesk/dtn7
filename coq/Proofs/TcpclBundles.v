(* TCPCL transfers carrying real bundles: what Properties/C11_bundles.v composes the receiver theorem of
   TcpclProofs.v with - a transfer whose bytes are the serialisation of a valid bundle (property C01). *)
From DTN Require Import Base Bundle BundleProofs BundleStreamProofs TcpclProofs.
Open Scope N_scope.

Definition xfer_carries (now : N) (x : xfer) (b : bundle) : Prop := good now b /\ x_bs x = bundle_bytes b.
