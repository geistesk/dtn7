(* Proofs about Model/Dtlsr.v.  The Bellman-Ford reference computes the minimum path cost (None iff
   unreachable) for every finite graph with non-negative costs; on it rest the model's routing
   table (entry iff reachable, entry is an optimal first hop) and the checker applied to the Go
   table. *)
From Coq Require Import Permutation.
From DTN Require Import Base ListFacts Dtlsr.
Local Open Scope nat_scope.

Fixpoint is_path (g : list dt_arc) (u : nat) (p : list dt_arc) (v : nat) : Prop :=
  match p with
  | [] => u = v
  | a :: p' => arc_src a = u /\ In a g /\ is_path g (arc_dst a) p' v
  end.
Definition pcost (p : list dt_arc) : Z := fold_right (fun a acc => arc_cost a + acc)%Z 0%Z p.

Definition wf_graph (n : nat) (g : list dt_arc) : Prop :=
  forall a, In a g -> arc_src a < n /\ arc_dst a < n.
Definition nonneg (g : list dt_arc) : Prop := forall a, In a g -> (0 <= arc_cost a)%Z.

Definition min_cost (g : list dt_arc) (s t : nat) (r : option Z) : Prop :=
  match r with
  | Some x => (exists p, is_path g s p t /\ pcost p = x) /\ (forall p, is_path g s p t -> (x <= pcost p)%Z)
  | None => forall p, ~ is_path g s p t
  end.

Definition pverts (u : nat) (p : list dt_arc) : list nat := u :: map arc_dst p.

(* h is an optimal first hop from 0 towards d: an arc 0 -> h of g starts a loop-free path to d
   (no vertex visited twice, in particular it never comes back to 0) whose cost is minimal
   among ALL paths 0 ~> d *)
Definition optimal_first_hop (g : list dt_arc) (d h : nat) : Prop :=
  exists a p, arc_src a = 0 /\ arc_dst a = h /\ is_path g 0 (a :: p) d /\ NoDup (pverts 0 (a :: p)) /\
              forall q, is_path g 0 q d -> (pcost (a :: p) <= pcost q)%Z.

Lemma is_path_app : forall g p q u v, is_path g u (p ++ q) v <-> exists m, is_path g u p m /\ is_path g m q v.
Proof.
  induction p as [|a p IH]; intros q u v; cbn [app is_path].
  - split; [eauto|intros (m & -> & H); exact H].
  - rewrite IH. split.
    + intros (Hs & Hin & m & H1 & H2). eauto 6.
    + intros (m & (Hs & Hin & H1) & H2). eauto.
Qed.

Lemma pcost_cons : forall a p, pcost (a :: p) = (arc_cost a + pcost p)%Z.
Proof. reflexivity. Qed.

Lemma pcost_app : forall p q, pcost (p ++ q) = (pcost p + pcost q)%Z.
Proof.
  induction p as [|a p IH]; intros q.
  - cbn [app]. change (pcost []) with 0%Z. lia.
  - rewrite <- app_comm_cons, !pcost_cons, IH. lia.
Qed.

Lemma pcost_nonneg : forall g p u v, nonneg g -> is_path g u p v -> (0 <= pcost p)%Z.
Proof.
  induction p as [|a p IH]; intros u v Hn H; cbn in *; [lia|].
  destruct H as (_ & Hin & H). fold (pcost p). specialize (IH _ _ Hn H). specialize (Hn _ Hin). lia.
Qed.

Lemma is_path_end_lt : forall n g p u v, wf_graph n g -> u < n -> is_path g u p v -> v < n.
Proof.
  induction p as [|a p IH]; intros u v Hwf Hu H; cbn in *; [subst; auto|].
  destruct H as (_ & Hin & H). apply (IH (arc_dst a) v Hwf); [apply Hwf; auto|exact H].
Qed.

Lemma pverts_cons : forall u a p, pverts u (a :: p) = u :: pverts (arc_dst a) p.
Proof. reflexivity. Qed.

Definition ole (a b : option Z) : Prop :=
  match b with
  | None => True
  | Some y => match a with Some x => (x <= y)%Z | None => False end
  end.

Lemma ole_refl : forall a, ole a a.
Proof. destruct a; cbn; auto; lia. Qed.
Lemma ole_trans : forall a b c, ole a b -> ole b c -> ole a c.
Proof. destruct a, b, c; cbn; intros; auto; try lia; contradiction. Qed.
Lemma omin_le_l : forall a b, ole (dt_omin a b) a.
Proof. destruct a, b; cbn; auto; lia. Qed.
Lemma omin_le_r : forall a b, ole (dt_omin a b) b.
Proof. destruct a, b; cbn; auto; lia. Qed.
Lemma omin_cases : forall a b, dt_omin a b = a \/ dt_omin a b = b.
Proof.
  destruct a as [x|], b as [y|]; cbn; auto.
  destruct (Z.min_spec x y) as [[_ ->]|[_ ->]]; auto.
Qed.
Lemma oadd_mono : forall a x c, ole a (Some x) -> ole (dt_oadd a c) (Some (x + c)%Z).
Proof. destruct a; cbn; intros; auto; lia. Qed.

Lemma relax_spec : forall g d v,
  ole (dt_relax g d v) (dt_get d v) /\
  (forall a, In a g -> arc_dst a = v -> ole (dt_relax g d v) (dt_oadd (dt_get d (arc_src a)) (arc_cost a))) /\
  (dt_relax g d v = dt_get d v \/
   exists a, In a g /\ arc_dst a = v /\ dt_relax g d v = dt_oadd (dt_get d (arc_src a)) (arc_cost a)).
Proof.
  intros g d v. unfold dt_relax. induction g as [|b g (Hself & Harc & Hone)]; cbn [fold_right].
  - split; [apply ole_refl|]. split; [intros a []|left; reflexivity].
  - set (r := fold_right _ _ g) in *. set (c := dt_oadd (dt_get d (arc_src b)) (arc_cost b)).
    assert (Hone' : r = dt_get d v \/
              exists a, In a (b :: g) /\ arc_dst a = v /\ r = dt_oadd (dt_get d (arc_src a)) (arc_cost a)).
    { destruct Hone as [H|(a & Ha & Hv & H)]; [left; exact H|right; exists a; cbn; auto]. }
    destruct (Nat.eqb_spec (arc_dst b) v) as [E|E].
    + split; [eapply ole_trans; [apply omin_le_r|exact Hself]|]. split.
      * intros a [<-|Ha] Hv; [apply omin_le_l|]. eapply ole_trans; [apply omin_le_r|auto].
      * destruct (omin_cases c r) as [-> | ->]; [|exact Hone']. right. exists b. cbn. auto.
    + split; [exact Hself|]. split; [|exact Hone'].
      intros a [<-|Ha] Hv; [contradiction|auto].
Qed.

Lemma get_step : forall n g d v, dt_get (dt_bf_step n g d) v = if v <? n then dt_relax g d v else None.
Proof. intros. apply nth_tab. Qed.
Lemma get_init : forall n s v,
  dt_get (dt_bf_init n s) v = if v <? n then (if Nat.eqb v s then Some 0%Z else None) else None.
Proof. intros. apply (nth_tab (fun v => if Nat.eqb v s then Some 0%Z else None)). Qed.

Lemma bf_iter_sound : forall n g s k v x,
  dt_get (dt_bf_iter k n g s) v = Some x -> exists p, is_path g s p v /\ pcost p = x.
Proof.
  intros n g s. induction k as [|k IH]; intros v x H; cbn [dt_bf_iter] in H.
  - rewrite get_init in H. destruct (v <? n); [|discriminate].
    destruct (Nat.eqb_spec v s) as [->|]; [|discriminate]. injection H as <-.
    exists []. split; reflexivity.
  - rewrite get_step in H. destruct (v <? n); [|discriminate].
    destruct (relax_spec g (dt_bf_iter k n g s) v) as (_ & _ & [E|(a & Hin & Hd & E)]); rewrite E in H.
    + apply IH; auto.
    + destruct (dt_get (dt_bf_iter k n g s) (arc_src a)) as [y|] eqn:Ey; [|discriminate].
      injection H as <-. destruct (IH _ _ Ey) as (p & Hp & <-).
      exists (p ++ [a]). split.
      * apply is_path_app. exists (arc_src a). cbn. auto.
      * rewrite pcost_app. cbn. lia.
Qed.

Lemma bf_iter_complete : forall n g s, wf_graph n g -> s < n ->
  forall k p v, is_path g s p v -> length p <= k -> ole (dt_get (dt_bf_iter k n g s) v) (Some (pcost p)).
Proof.
  intros n g s Hwf Hs. induction k as [|k IH]; intros p v Hp Hl.
  - destruct p; [|cbn in Hl; lia]. cbn in Hp. subst v. cbn [dt_bf_iter].
    rewrite get_init, (proj2 (Nat.ltb_lt s n) Hs), Nat.eqb_refl. apply Z.le_refl.
  - pose proof (is_path_end_lt n g p s v Hwf Hs Hp) as Hv. apply Nat.ltb_lt in Hv.
    cbn [dt_bf_iter]. rewrite get_step, Hv.
    destruct p as [|a q _] using rev_ind.
    + (* round k+1 does not raise the value of v *)
      apply ole_trans with (dt_get (dt_bf_iter k n g s) v); [apply relax_spec|]. apply IH; [exact Hp|cbn; lia].
    + (* the last arc a = (m, v): k rounds bound m by the cost of q, round k+1 relaxes a *)
      apply is_path_app in Hp. destruct Hp as (m & Hq & Hsrc & Hin & Hd). cbn in Hd.
      rewrite app_length in Hl. cbn in Hl.
      eapply ole_trans; [apply relax_spec; eauto|].
      rewrite pcost_app, Hsrc. cbn. rewrite Z.add_0_r.
      apply oadd_mono, IH; auto. lia.
Qed.

Lemma path_suffix_from : forall g, nonneg g -> forall q b v u,
  is_path g b q v -> In u (pverts b q) ->
  exists q', is_path g u q' v /\ (pcost q' <= pcost q)%Z /\ (NoDup (pverts b q) -> NoDup (pverts u q')).
Proof.
  intros g Hn. induction q as [|a q IH]; intros b v u Hp Hin.
  - destruct Hin as [->|[]]. exists []. split; [exact Hp|]. split; [apply Z.le_refl|auto].
  - destruct (Nat.eq_dec b u) as [->|Hne].
    + exists (a :: q). split; [exact Hp|]. split; [apply Z.le_refl|auto].
    + rewrite pverts_cons in *. destruct Hin as [E|Hin]; [congruence|].
      destruct Hp as (Hs & Hia & Hp).
      destruct (IH (arc_dst a) v u Hp Hin) as (q' & H1 & H2 & H3).
      exists q'. split; [exact H1|]. split.
      * rewrite pcost_cons. specialize (Hn _ Hia). lia.
      * intros Hnd. apply H3. apply NoDup_cons_iff in Hnd. apply Hnd.
Qed.

Lemma path_shorten : forall g, nonneg g -> forall p u v,
  is_path g u p v -> exists p', is_path g u p' v /\ (pcost p' <= pcost p)%Z /\ NoDup (pverts u p').
Proof.
  intros g Hn. induction p as [|a p IH]; intros u v Hp.
  - exists []. repeat split; auto; [lia|]. constructor; [intros []|constructor].
  - destruct Hp as (Hs & Hia & Hp). rewrite pcost_cons. pose proof (Hn _ Hia) as Ha.
    destruct (IH _ _ Hp) as (p1 & H1 & H2 & H3).
    destruct (in_dec Nat.eq_dec u (pverts (arc_dst a) p1)) as [Hin|Hnin].
    + (* the shortened rest comes back to u: continue from there *)
      destruct (path_suffix_from g Hn p1 (arc_dst a) v u H1 Hin) as (q' & Hq & Hc & Hnd).
      exists q'. split; [exact Hq|]. split; [lia|auto].
    + exists (a :: p1). rewrite pcost_cons, pverts_cons. repeat split; auto; [lia|]. constructor; auto.
Qed.

Lemma pverts_lt : forall n g p u v, wf_graph n g -> u < n -> is_path g u p v -> forall x, In x (pverts u p) -> x < n.
Proof.
  induction p as [|a p IH]; intros u v Hwf Hu Hp x Hx.
  - destruct Hx as [->|[]]. auto.
  - rewrite pverts_cons in Hx. destruct Hx as [->|Hx]; auto.
    destruct Hp as (_ & Hia & Hp). eapply (IH (arc_dst a)); eauto. apply Hwf; auto.
Qed.

Lemma simple_path_short : forall n g p u v, wf_graph n g -> u < n -> is_path g u p v -> NoDup (pverts u p) -> length p <= n - 1.
Proof.
  intros n g p u v Hwf Hu Hp Hnd.
  assert (Hl : length (pverts u p) <= length (seq 0 n)).
  { apply NoDup_incl_length; auto. intros x Hx. apply in_seq. split; [lia|]. cbn. eapply pverts_lt; eauto. }
  unfold pverts in Hl. cbn in Hl. rewrite map_length, seq_length in Hl. lia.
Qed.

Lemma bf_correct : forall n g s t, wf_graph n g -> nonneg g -> s < n -> min_cost g s t (dt_dist n g s t).
Proof.
  intros n g s t Hwf Hn Hs. unfold dt_dist, dt_bf.
  assert (Hlow : forall p, is_path g s p t -> ole (dt_get (dt_bf_iter (n - 1) n g s) t) (Some (pcost p))).
  { intros p Hp. destruct (path_shorten g Hn p s t Hp) as (p' & Hp' & Hc & Hnd).
    eapply ole_trans; [apply (bf_iter_complete n g s Hwf Hs (n - 1) p' t Hp')|exact Hc].
    eapply simple_path_short; eauto. }
  destruct (dt_get (dt_bf_iter (n - 1) n g s) t) as [x|] eqn:E.
  - split; [eapply bf_iter_sound; eauto|exact Hlow].
  - exact Hlow.
Qed.

Lemma apsp_row : forall n g s, nth s (dt_apsp n g) [] = if s <? n then dt_bf n g s else [].
Proof. intros. apply nth_tab. Qed.
Lemma mdist_eq : forall n g s t, s < n -> dt_mdist (dt_apsp n g) s t = dt_dist n g s t.
Proof. intros n g s t Hs. unfold dt_mdist. rewrite apsp_row. apply Nat.ltb_lt in Hs. rewrite Hs. reflexivity. Qed.

Lemma in_no0 : forall g a, In a (dt_no0 g) <-> In a g /\ arc_src a <> 0 /\ arc_dst a <> 0.
Proof.
  intros. unfold dt_no0. rewrite filter_In, andb_true_iff, !negb_true_iff, !Nat.eqb_neq. reflexivity.
Qed.

Lemma wf_no0 : forall n g, wf_graph n g -> wf_graph n (dt_no0 g).
Proof. intros n g H a Ha. apply in_no0 in Ha. apply H. tauto. Qed.
Lemma nonneg_no0 : forall g, nonneg g -> nonneg (dt_no0 g).
Proof. intros g H a Ha. apply in_no0 in Ha. apply H. tauto. Qed.

Lemma path_no0_iff : forall g p u v, u <> 0 ->
  (is_path (dt_no0 g) u p v <-> is_path g u p v /\ ~ In 0 (pverts u p)).
Proof.
  induction p as [|a p IH]; intros u v Hu.
  - cbn. intuition congruence.
  - rewrite pverts_cons. cbn [is_path In]. rewrite in_no0. split.
    + intros (Hs & (Hin & _ & Hd) & Hp). apply (IH _ _ Hd) in Hp. intuition congruence.
    + intros ((Hs & Hin & Hp) & Hn).
      assert (Hd : arc_dst a <> 0) by (intros E; apply Hn; right; left; auto).
      rewrite (IH _ _ Hd). intuition congruence.
Qed.

Lemma opt_arc_iff : forall n g d a, wf_graph n g -> nonneg g -> 0 < n -> In a g ->
  (dt_opt_arc (dt_bf n g 0) (dt_apsp n (dt_no0 g)) d a = true <->
   exists p, is_path g 0 (a :: p) d /\ NoDup (pverts 0 (a :: p)) /\
             forall q, is_path g 0 q d -> (pcost (a :: p) <= pcost q)%Z).
Proof.
  intros n g d a Hwf Hnn Hn Hin.
  assert (Hhn : arc_dst a < n) by (apply Hwf; auto).
  pose proof (bf_correct n (dt_no0 g) (arc_dst a) d (wf_no0 _ _ Hwf) (nonneg_no0 _ Hnn) Hhn) as C0.
  pose proof (bf_correct n g 0 d Hwf Hnn Hn) as C.
  unfold dt_opt_arc. rewrite mdist_eq by exact Hhn. fold (dt_dist n g 0 d).
  rewrite !andb_true_iff, Nat.eqb_eq, negb_true_iff, Nat.eqb_neq. split.
  - intros ((Hs & Hh) & H).
    destruct (dt_dist n (dt_no0 g) (arc_dst a) d) as [x|]; [|discriminate].
    destruct (dt_dist n g 0 d) as [dd|]; [|discriminate].
    apply Z.eqb_eq in H. destruct C0 as ((p & Hp & Hc) & _). destruct C as (_ & Hmin).
    (* a cheapest path of g \ 0 from the hop, made loop-free, continues a *)
    destruct (path_shorten _ (nonneg_no0 _ Hnn) p _ _ Hp) as (p' & Hp' & Hc' & Hnd).
    apply (path_no0_iff _ _ _ _ Hh) in Hp'. destruct Hp' as (Hp' & Hno0).
    exists p'. rewrite pverts_cons, pcost_cons. repeat split; auto.
    + constructor; assumption.
    + intros q Hq. specialize (Hmin q Hq). lia.
  - intros (p & Hpa & Hnd & Hmin). pose proof Hpa as (Hs & _ & Hp).
    rewrite pverts_cons in Hnd. apply NoDup_cons_iff in Hnd. destruct Hnd as (Hn0 & _).
    assert (Hh0 : arc_dst a <> 0) by (intros E; apply Hn0; left; auto).
    assert (Hp0 : is_path (dt_no0 g) (arc_dst a) p d) by (apply path_no0_iff; auto).
    split; [split; assumption|].
    destruct (dt_dist n (dt_no0 g) (arc_dst a) d) as [x|]; [|destruct (C0 _ Hp0)].
    destruct (dt_dist n g 0 d) as [dd|]; [|destruct (C _ Hpa)].
    destruct C0 as ((px & Hpx & <-) & Hmin0). destruct C as ((pd & Hpd & <-) & Hmind).
    apply Z.eqb_eq.
    (* a :: p costs no more than pd and than a :: px, which are paths; px and pd are cheapest *)
    assert (Hq : is_path g 0 (a :: px) d).
    { split; [exact Hs|]. split; [exact Hin|]. apply path_no0_iff in Hpx; tauto. }
    specialize (Hmin0 p Hp0). specialize (Hmind _ Hpa).
    pose proof (Hmin _ Hq) as Hm1. pose proof (Hmin _ Hpd) as Hm2. rewrite !pcost_cons in *. lia.
Qed.

Lemma ofh_arc_iff : forall n g d h, wf_graph n g -> nonneg g -> 0 < n ->
  (optimal_first_hop g d h <->
   exists a, In a g /\ arc_dst a = h /\ dt_opt_arc (dt_bf n g 0) (dt_apsp n (dt_no0 g)) d a = true).
Proof.
  intros n g d h Hwf Hnn Hn. split.
  - intros (a & p & _ & Hd & Hp & H). exists a. pose proof Hp as (_ & Hin & _).
    split; [exact Hin|]. split; [exact Hd|]. apply (opt_arc_iff n); eauto.
  - intros (a & Hin & Hd & H). apply opt_arc_iff in H; auto. destruct H as (p & Hp & H).
    exists a, p. split; [apply Hp|]. auto.
Qed.

Lemma ofh_b_iff : forall n g d h, wf_graph n g -> nonneg g -> 0 < n ->
  (dt_ofh_b n g d h = true <-> optimal_first_hop g d h).
Proof.
  intros n g d h Hwf Hnn Hn. unfold dt_ofh_b. rewrite existsb_exists, (ofh_arc_iff n) by assumption.
  split; intros (a & Hin & H); exists a; (split; [exact Hin|]).
  - apply andb_true_iff in H. rewrite Nat.eqb_eq in H. exact H.
  - destruct H as (-> & ->). rewrite Nat.eqb_refl. reflexivity.
Qed.

Lemma reachable_b_iff : forall n g d, wf_graph n g -> nonneg g -> 0 < n ->
  (dt_reachable_b n g d = true <-> exists p, is_path g 0 p d).
Proof.
  intros n g d Hwf Hnn Hn. unfold dt_reachable_b.
  pose proof (bf_correct n g 0 d Hwf Hnn Hn) as C.
  destruct (dt_dist n g 0 d).
  - split; auto. intros _. destruct C as ((p & Hp & _) & _). eauto.
  - split; [discriminate|]. intros (p & Hp). destruct (C p Hp).
Qed.

Lemma ofh_exists : forall n g d, wf_graph n g -> nonneg g -> 0 < n -> d <> 0 ->
  (exists p, is_path g 0 p d) -> exists h, optimal_first_hop g d h.
Proof.
  intros n g d Hwf Hnn Hn Hd (p & Hp).
  pose proof (bf_correct n g 0 d Hwf Hnn Hn) as C.
  destruct (dt_dist n g 0 d) as [x|]; [|destruct (C p Hp)].
  destruct C as ((p0 & Hp0 & Hc0) & Hmin).
  destruct (path_shorten g Hnn p0 0 d Hp0) as (p1 & Hp1 & Hc1 & Hnd).
  destruct p1 as [|a p1]; [cbn in Hp1; congruence|].
  exists (arc_dst a), a, p1. split; [apply Hp1|]. split; [reflexivity|]. split; [exact Hp1|]. split; [exact Hnd|].
  intros q Hq. specialize (Hmin q Hq). lia.
Qed.

Lemma first_hop_spec : forall n g, wf_graph n g -> nonneg g -> 0 < n -> forall d,
  match dt_first_hop (dt_bf n g 0) (dt_apsp n (dt_no0 g)) g d with
  | Some h => optimal_first_hop g d h
  | None => d <> 0 -> forall p, ~ is_path g 0 p d
  end.
Proof.
  intros n g Hwf Hnn Hn d. unfold dt_first_hop. destruct (find _ g) as [a|] eqn:E.
  - apply find_some in E. destruct E as (Hin & Ho). apply (ofh_arc_iff n); eauto.
  - intros Hd p Hp. destruct (ofh_exists n g d Hwf Hnn Hn Hd (ex_intro _ p Hp)) as (h & Hh).
    apply (ofh_arc_iff n) in Hh; auto. destruct Hh as (a & Hin & _ & Ho).
    pose proof (find_none _ _ E a Hin) as F. rewrite Ho in F. discriminate.
Qed.

Lemma ofh_arc : forall g d h, optimal_first_hop g d h -> h <> 0 /\ exists a, In a g /\ arc_src a = 0 /\ arc_dst a = h.
Proof.
  intros g d h (a & p & Hs & Hd & (_ & Hin & _) & Hnd & _). split; [|eauto].
  rewrite pverts_cons in Hnd. apply NoDup_cons_iff in Hnd. intros E. apply Hnd. left. congruence.
Qed.

Lemma in_table_idx : forall n g d h,
  In (d, h) (dt_table_idx n g) <->
  (1 <= d < n /\ dt_first_hop (dt_bf n g 0) (dt_apsp n (dt_no0 g)) g d = Some h).
Proof.
  intros n g d h. unfold dt_table_idx. rewrite in_flat_map. split.
  - intros (d' & Hd' & Hin). apply in_seq in Hd'.
    destruct (dt_first_hop _ _ g d') as [h'|] eqn:E; [|contradiction].
    destruct Hin as [[= <- <-]|[]]. split; [lia|exact E].
  - intros (Hd & E). exists d. split; [apply in_seq; lia|]. rewrite E. left. reflexivity.
Qed.

Lemma check_entries_eq : forall n g es,
  dt_check_entries n g es = map (fun dh => dt_ofh_b n g (fst dh) (snd dh)) es.
Proof. reflexivity. Qed.
Lemma reachable_all_eq : forall n g,
  dt_reachable_all n g = map (dt_reachable_b n g) (seq 0 n).
Proof. reflexivity. Qed.

(* Vertex 0 of the graph is this node because the index starts with the own ID, and stays so
   because new IDs are appended.  A node without an index also reads as vertex 0 (dt_node_index:
   Go's missing key), hence the second part of [dt_inv]: the sender of every stored record is
   indexed, so only the own ID gives arcs that leave vertex 0 (graph_arc0_own). *)
Definition idx_ok (self : N) (idx : list N) : Prop := (exists r, idx = self :: r) /\ NoDup idx.

Definition dt_inv (st : dt_state) : Prop :=
  idx_ok (dt_self st) (dt_index st) /\ (forall d, In d (dt_recv st) -> In (pd_id d) (dt_index st)).

Definition dt_past (st : dt_state) (now : N) : Prop :=
  (forall p t, In (p, t) (dt_own st) -> (t <= now)%N) /\
  (forall d p t, In d (dt_recv st) -> In (p, t) (pd_peers d) -> (t <= now)%N).

Lemma new_node_incl : forall id idx x, In x idx -> In x (dt_new_node id idx).
Proof. intros. unfold dt_new_node. destruct (existsb _ idx); auto. apply in_or_app; auto. Qed.
Lemma new_node_in : forall id idx, In id (dt_new_node id idx).
Proof.
  intros. unfold dt_new_node. destruct (existsb (N.eqb id) idx) eqn:E.
  - apply existsb_eqb_in; auto.
  - apply in_or_app. right. left. auto.
Qed.
Lemma new_node_ok : forall self id idx, idx_ok self idx -> idx_ok self (dt_new_node id idx).
Proof.
  intros self id idx ((r & Hr) & Hnd). unfold dt_new_node.
  destruct (existsb (N.eqb id) idx) eqn:E; [split; eauto|].
  split.
  - exists (r ++ [id]). rewrite Hr. reflexivity.
  - apply NoDup_snoc; [exact Hnd|]. rewrite <- existsb_eqb_in. congruence.
Qed.
Lemma new_nodes_incl : forall ids idx x, In x idx -> In x (dt_new_nodes ids idx).
Proof.
  induction ids as [|y ids IH]; intros idx x H; cbn; auto.
  apply IH. apply new_node_incl; auto.
Qed.
Lemma new_nodes_ok : forall self ids idx, idx_ok self idx -> idx_ok self (dt_new_nodes ids idx).
Proof.
  induction ids as [|y ids IH]; intros idx H; cbn; auto.
  apply IH. apply new_node_ok; auto.
Qed.

Lemma recv_get_find : forall id l, dt_recv_get id l = find (fun d => pd_id d =? id)%N l.
Proof. induction l as [|x l IH]; cbn; [|rewrite IH]; reflexivity. Qed.
Lemma recv_get_in : forall id l d, dt_recv_get id l = Some d -> In d l /\ pd_id d = id.
Proof. intros id l d H. rewrite recv_get_find in H. apply find_some in H. rewrite N.eqb_eq in H. exact H. Qed.
Lemma recv_get_none : forall id l, dt_recv_get id l = None -> forall d, In d l -> pd_id d <> id.
Proof. intros id l H d Hd. rewrite recv_get_find in H. apply N.eqb_neq, (find_none _ _ H d Hd). Qed.
Lemma recv_set_in : forall nw l d, In d (dt_recv_set nw l) -> d = nw \/ In d l.
Proof.
  induction l as [|x l IH]; intros d H; cbn in *.
  - destruct H as [->|[]]; auto.
  - destruct (pd_id x =? pd_id nw)%N; cbn in H.
    + destruct H as [->|H]; auto.
    + destruct H as [->|H]; auto. destruct (IH d H); auto.
Qed.
Lemma recv_get_set : forall id nw l,
  dt_recv_get id (dt_recv_set nw l) = if (pd_id nw =? id)%N then Some nw else dt_recv_get id l.
Proof.
  induction l as [|x l IH]; cbn.
  - reflexivity.
  - destruct (N.eqb_spec (pd_id x) (pd_id nw)) as [E|E]; cbn.
    + rewrite E. destruct (pd_id nw =? id)%N; reflexivity.
    + destruct (N.eqb_spec (pd_id x) id) as [E1|E1].
      * destruct (N.eqb_spec (pd_id nw) id) as [E2|E2]; [congruence|reflexivity].
      * exact IH.
Qed.

Lemma dt_step_self : forall st o, dt_self (dt_step st o) = dt_self st.
Proof.
  intros st [d|p now|p now|now pt|now|now]; cbn; auto.
  - unfold dt_notify. destruct (dt_recv_get _ _); [destruct (dt_should_replace _ _)|]; reflexivity.
  - unfold dt_recompute_cron. destruct (_ || _); reflexivity.
Qed.

Lemma dt_init_inv : forall self ts, dt_inv (dt_init self ts).
Proof.
  intros. split; [split|].
  - exists []. reflexivity.
  - cbn. constructor; [intros []|constructor].
  - cbn. intros d [].
Qed.

Lemma dt_step_inv : forall st o, dt_inv st -> dt_inv (dt_step st o).
Proof.
  intros st o (Hok & Hrecv). destruct o as [d|p now|p now|now pt|now|now]; cbn.
  - unfold dt_notify. destruct (dt_recv_get (pd_id d) (dt_recv st)) as [old|] eqn:E.
    + destruct (dt_should_replace d old); [|split; auto].
      split; cbn.
      * apply new_nodes_ok; auto.
      * intros d' H. apply recv_set_in in H. apply new_nodes_incl. destruct H as [->|H]; auto.
        apply recv_get_in in E. destruct E as (Ho & Hid). rewrite <- Hid. auto.
    + split; cbn.
      * apply new_nodes_ok, new_node_ok; auto.
      * intros d' H. apply recv_set_in in H. apply new_nodes_incl. destruct H as [->|H].
        -- apply new_node_in.
        -- apply new_node_incl; auto.
  - split; cbn; [apply new_node_ok; auto|]. intros d H. apply new_node_incl; auto.
  - split; cbn; auto.
  - split; cbn; auto.
  - split; cbn; auto.
  - unfold dt_recompute_cron. destruct (_ || _); split; cbn; auto.
Qed.

Lemma dt_run_inv : forall ops st, dt_inv st -> dt_inv (dt_run st ops).
Proof. induction ops as [|o ops IH]; intros st H; cbn; auto. apply IH, dt_step_inv; auto. Qed.

Lemma find_index_nth : forall id idx i, dt_find_index id idx = Some i -> nth_error idx i = Some id.
Proof.
  induction idx as [|x idx IH]; intros i H; cbn in *; [discriminate|].
  destruct (N.eqb_spec x id) as [E|E]; [inversion H; subst; reflexivity|].
  destruct (dt_find_index id idx) as [j|]; [|discriminate]. inversion H; subst. cbn. auto.
Qed.
Lemma find_index_in : forall id idx, In id idx -> exists i, dt_find_index id idx = Some i.
Proof.
  induction idx as [|x idx IH]; intros H; [contradiction|]. cbn.
  destruct (N.eqb_spec x id) as [E|E]; [eauto|].
  destruct H as [H|H]; [congruence|]. destruct (IH H) as (i & ->). eauto.
Qed.
Lemma node_index_lt : forall id idx, 0 < length idx -> dt_node_index id idx < length idx.
Proof.
  intros id idx H. unfold dt_node_index. destruct (dt_find_index id idx) eqn:E; [|exact H].
  apply nth_error_Some. rewrite (find_index_nth _ _ _ E). discriminate.
Qed.
Lemma node_index_nonzero : forall self r id, id <> self -> In id (self :: r) -> dt_node_index id (self :: r) <> 0.
Proof.
  intros self r id Hne [E|Hin]; [congruence|]. unfold dt_node_index. cbn [dt_find_index].
  destruct (N.eqb_spec self id); [congruence|]. destruct (find_index_in _ _ Hin) as (i & ->). discriminate.
Qed.

Lemma edge_cost_nonneg : forall now t, (t <= now)%N -> (0 <= dt_edge_cost now t)%Z.
Proof. intros. unfold dt_edge_cost. destruct (t =? 0)%N; lia. Qed.

Lemma in_fold_add_arc : forall l acc a, In a (fold_left dt_add_arc l acc) -> In a l \/ In a acc.
Proof.
  induction l as [|b l IH]; intros acc a H; cbn in *; auto.
  destruct (IH _ _ H) as [H1|H1]; auto.
  unfold dt_add_arc in H1. destruct H1 as [->|H1]; auto.
  apply filter_In in H1. tauto.
Qed.

Lemma graph_arc_origin : forall st now a, In a (dt_graph st now) ->
  (exists p t, In (p, t) (dt_own st) /\ a = (0, dt_node_index p (dt_index st), dt_edge_cost now t)) \/
  (exists d p t, In d (dt_recv st) /\ In (p, t) (pd_peers d) /\
     a = (dt_node_index (pd_id d) (dt_index st), dt_node_index p (dt_index st), dt_edge_cost now t)).
Proof.
  intros st now a H. apply in_fold_add_arc in H. destruct H as [H|[]].
  unfold dt_raw_arcs, dt_arcs_of in H. rewrite in_app_iff, in_flat_map in H.
  destruct H as [H|(d & Hd & H)]; apply in_map_iff in H; destruct H as ((p & t) & <- & Hin).
  - left. exists p, t. auto.
  - right. exists d, p, t. auto.
Qed.

Lemma graph_wf : forall st now, dt_inv st -> wf_graph (length (dt_index st)) (dt_graph st now).
Proof.
  intros st now (((r & Hr) & _) & _) a Ha.
  assert (Hl : 0 < length (dt_index st)) by (rewrite Hr; cbn; lia).
  apply graph_arc_origin in Ha.
  destruct Ha as [(p & t & _ & ->)|(d & p & t & _ & _ & ->)]; cbn; split; auto using node_index_lt.
Qed.

Lemma graph_nonneg : forall st now, dt_past st now -> nonneg (dt_graph st now).
Proof.
  intros st now (Ho & Hr) a Ha. apply graph_arc_origin in Ha.
  destruct Ha as [(p & t & Hin & ->)|(d & p & t & Hd & Hin & ->)]; cbn; apply edge_cost_nonneg; eauto.
Qed.

(* arcs leaving vertex 0 are the node's own links, unless a record claiming the own ID is stored *)
Lemma graph_arc0_own : forall st now a, dt_inv st -> dt_recv_get (dt_self st) (dt_recv st) = None ->
  In a (dt_graph st now) -> arc_src a = 0 ->
  exists p t, In (p, t) (dt_own st) /\ arc_dst a = dt_node_index p (dt_index st) /\ arc_cost a = dt_edge_cost now t.
Proof.
  intros st now a (((r & Hr) & _) & Hrecv) Hnone Ha Hs. apply graph_arc_origin in Ha.
  destruct Ha as [(p & t & Hin & ->)|(d & p & t & Hd & Hin & ->)].
  - exists p, t. auto.
  - exfalso. cbn in Hs. pose proof (recv_get_none _ _ Hnone d Hd) as Hne.
    specialize (Hrecv d Hd). rewrite Hr in Hs, Hrecv.
    eapply node_index_nonzero; eauto.
Qed.

Lemma in_table_of : forall idx t dest hop,
  (forall d h, In (d, h) t -> d < length idx /\ h < length idx) ->
  (In (dest, hop) (dt_table_of idx t) <->
   exists d h, In (d, h) t /\ nth_error idx d = Some dest /\ nth_error idx h = Some hop).
Proof.
  intros idx t dest hop Hlt. unfold dt_table_of. rewrite in_map_iff. split.
  - intros ((d & h) & [= <- <-] & Hin). destruct (Hlt d h Hin).
    exists d, h. split; [exact Hin|]. split; apply nth_error_nth'; assumption.
  - intros (d & h & Hin & Hd & Hh). exists (d, h). split; [|exact Hin].
    cbn. f_equal; apply nth_error_nth; assumption.
Qed.

Lemma table_spec : forall st now, dt_inv st -> dt_past st now ->
  let idx := dt_index st in
  let g := dt_graph st now in
  let tbl := dt_table (dt_compute st now) in
  (forall dest hop, In (dest, hop) tbl ->
     exists d h, nth_error idx d = Some dest /\ nth_error idx h = Some hop /\ 1 <= d /\ optimal_first_hop g d h) /\
  (forall d dest, 1 <= d -> nth_error idx d = Some dest ->
     ((exists hop, In (dest, hop) tbl) <-> (exists p, is_path g 0 p d))) /\
  (forall dest h1 h2, In (dest, h1) tbl -> In (dest, h2) tbl -> h1 = h2).
Proof.
  intros st now Hinv Hpast idx g tbl. set (n := length idx).
  pose proof (graph_wf st now Hinv) as Hwf. pose proof (graph_nonneg st now Hpast) as Hnn.
  destruct Hinv as (((r & Hr) & Hnd) & _). fold idx g n in Hwf, Hnn, Hr, Hnd.
  assert (Hn : 0 < n) by (unfold n; rewrite Hr; cbn; lia).
  pose proof (first_hop_spec n g Hwf Hnn Hn) as HF.
  (* an index entry (d, h) is the model's first hop h for a d of 1..n-1; h is the end of an arc *)
  assert (Hlt : forall d h, In (d, h) (dt_table_idx n g) -> d < n /\ h < n).
  { intros d h H. apply in_table_idx in H. destruct H as (Hd & E). specialize (HF d). rewrite E in HF.
    destruct (ofh_arc _ _ _ HF) as (_ & a & Hin & _ & <-). split; [lia|apply Hwf, Hin]. }
  (* the table is the index table read through idx, and idx is injective *)
  pose proof (fun dest hop => in_table_of idx _ dest hop Hlt) as Htbl.
  assert (Hinj : forall d1 d2 x, nth_error idx d1 = Some x -> nth_error idx d2 = Some x -> d1 = d2).
  { intros d1 d2 x H1 H2. apply (proj1 (NoDup_nth_error idx) Hnd); [apply nth_error_Some|]; congruence. }
  split; [|split].
  - intros dest hop H. apply Htbl in H. destruct H as (d & h & H & Hd & Hh).
    apply in_table_idx in H. destruct H as (Hd1 & E). specialize (HF d). rewrite E in HF.
    exists d, h. repeat split; auto; lia.
  - intros d dest Hd Hnth. specialize (HF d). split.
    + intros (hop & H). apply Htbl in H. destruct H as (d' & h & H & Hd' & _).
      rewrite <- (Hinj d d' dest Hnth Hd') in H. apply in_table_idx in H. destruct H as (_ & E).
      rewrite E in HF. destruct HF as (a & p & _ & _ & Hp & _). eauto.
    + intros (p & Hp). assert (Hdn : d < n) by (apply nth_error_Some; congruence).
      destruct (dt_first_hop _ _ g d) as [h|] eqn:E; [|destruct (HF ltac:(lia) p Hp)].
      assert (H : In (d, h) (dt_table_idx n g)) by (apply in_table_idx; auto).
      exists (nth h idx 0%N). apply Htbl. exists d, h. split; [exact H|]. split; [exact Hnth|].
      apply nth_error_nth', (Hlt d h H).
  - intros dest h1 h2 H1 H2. apply Htbl in H1, H2.
    destruct H1 as (d1 & x1 & I1 & N1 & M1), H2 as (d2 & x2 & I2 & N2 & M2).
    rewrite (Hinj d2 d1 dest N2 N1) in I2. apply in_table_idx in I1, I2.
    destruct I1 as (_ & E1), I2 as (_ & E2). congruence.
Qed.

Definition dt_upd (o : option dt_pd) (x : dt_pd) : option dt_pd :=
  match o with
  | None => Some x
  | Some y => if dt_should_replace x y then Some x else Some y
  end.

Definition notifs_of (id : N) (ops : list dt_op) : list dt_pd :=
  flat_map (fun o => match o with DtNotify d => if (pd_id d =? id)%N then [d] else [] | _ => [] end) ops.

Definition first_max (l : list dt_pd) (b : dt_pd) : Prop :=
  exists l1 l2, l = l1 ++ b :: l2 /\ (forall x, In x l1 -> (pd_ts x < pd_ts b)%N) /\ (forall x, In x l2 -> (pd_ts x <= pd_ts b)%N).

Lemma step_recv : forall st o id,
  dt_recv_get id (dt_recv (dt_step st o)) =
  match o with
  | DtNotify d => if (pd_id d =? id)%N then dt_upd (dt_recv_get id (dt_recv st)) d else dt_recv_get id (dt_recv st)
  | _ => dt_recv_get id (dt_recv st)
  end.
Proof.
  intros st o id. destruct o as [d|p now|p now|now pt|now|now]; cbn; auto.
  - unfold dt_notify. destruct (N.eqb_spec (pd_id d) id) as [E|E].
    + subst id. destruct (dt_recv_get (pd_id d) (dt_recv st)) as [old|] eqn:G; cbn.
      * destruct (dt_should_replace d old); cbn; [rewrite recv_get_set, N.eqb_refl; reflexivity|exact G].
      * rewrite recv_get_set, N.eqb_refl. reflexivity.
    + (* stored or not, a record of another node leaves the entry of id alone *)
      apply N.eqb_neq in E.
      destruct (dt_recv_get (pd_id d) (dt_recv st)) as [old|]; [destruct (dt_should_replace d old)|]; cbn [dt_recv];
        rewrite ?recv_get_set, ?E; reflexivity.
  - unfold dt_recompute_cron. destruct (_ || _); reflexivity.
Qed.

Lemma run_recv : forall ops st id,
  dt_recv_get id (dt_recv (dt_run st ops)) = fold_left dt_upd (notifs_of id ops) (dt_recv_get id (dt_recv st)).
Proof.
  induction ops as [|o ops IH]; intros st id; [reflexivity|].
  change (dt_run st (o :: ops)) with (dt_run (dt_step st o) ops).
  rewrite IH, step_recv. unfold notifs_of. cbn [flat_map]. rewrite fold_left_app.
  destruct o as [d| | | | |]; cbn [fold_left app]; auto. destruct (pd_id d =? id)%N; reflexivity.
Qed.

Lemma first_max_in : forall l b, first_max l b -> In b l.
Proof. intros l b (l1 & l2 & -> & _). apply in_or_app. right. left. auto. Qed.
Lemma first_max_ge : forall l b x, first_max l b -> In x l -> (pd_ts x <= pd_ts b)%N.
Proof.
  intros l b x (l1 & l2 & -> & H1 & H2) Hin. apply in_app_or in Hin.
  destruct Hin as [Hin|[->|Hin]]; auto; [specialize (H1 _ Hin)|]; lia.
Qed.

(* the last arrival x either beats everything before it or joins the records after the winner *)
Lemma fold_upd : forall l y, exists b, fold_left dt_upd l (Some y) = Some b /\ first_max (y :: l) b.
Proof.
  induction l as [|x l IH] using rev_ind; intros y.
  - exists y. split; [reflexivity|]. exists [], []. repeat split; auto; intros z [].
  - destruct (IH y) as (b & Hb & Hm). rewrite fold_left_app, Hb. cbn [fold_left dt_upd].
    unfold dt_should_replace. rewrite app_comm_cons. destruct (N.ltb_spec (pd_ts b) (pd_ts x)) as [L|L].
    + exists x. split; [reflexivity|]. exists (y :: l), []. repeat split; [|intros z []].
      intros z Hz. pose proof (first_max_ge _ _ z Hm Hz). lia.
    + exists b. split; [reflexivity|]. destruct Hm as (l1 & l2 & -> & H1 & H2).
      exists l1, (l2 ++ [x]). rewrite <- app_assoc. repeat split; auto.
      intros z Hz. apply in_app_or in Hz. destruct Hz as [Hz|[<-|[]]]; auto.
Qed.

Lemma replace_order_independent : forall l1 l2 b1 b2, Permutation l1 l2 -> first_max l1 b1 -> first_max l2 b2 ->
  pd_ts b1 = pd_ts b2 /\ (NoDup (map pd_ts l1) -> b1 = b2).
Proof.
  intros l1 l2 b1 b2 Hp H1 H2.
  assert (I1 : In b1 l2) by (eapply Permutation_in; eauto using first_max_in).
  assert (I2 : In b2 l1) by (eapply Permutation_in; [apply Permutation_sym|]; eauto using first_max_in).
  pose proof (first_max_ge _ _ _ H2 I1). pose proof (first_max_ge _ _ _ H1 I2).
  assert (E : pd_ts b1 = pd_ts b2) by lia. split; auto.
  intros Hnd. pose proof (first_max_in _ _ H1) as J1. clear - Hnd J1 I2 E.
  induction l1 as [|x l IH]; [contradiction|]. cbn in Hnd. inversion Hnd as [|? ? Hn Hnd']; subst.
  destruct J1 as [->|J1], I2 as [->|I2]; auto.
  - exfalso. apply Hn. rewrite E. apply in_map; auto.
  - exfalso. apply Hn. rewrite <- E. apply in_map; auto.
Qed.

Lemma filter_clas_spec : forall senders sent f s, dt_filter_clas senders sent = (f, s) ->
  s = sent ++ f /\ incl f senders /\ (NoDup sent -> NoDup s) /\ incl senders s.
Proof.
  induction senders as [|p r IH]; intros sent f s H; cbn in H.
  - injection H as <- <-. rewrite app_nil_r. repeat split; auto; intros x [].
  - destruct (existsb (N.eqb p) sent) eqn:E.
    + destruct (IH _ _ _ H) as (H1 & H2 & H3 & H4). apply existsb_eqb_in in E.
      split; [exact H1|]. split; [intros x Hx; right; auto|]. split; [exact H3|].
      intros x [<-|Hx]; auto. rewrite H1. apply in_or_app. auto.
    + destruct (dt_filter_clas r (sent ++ [p])) as (f', s') eqn:R. injection H as <- <-.
      destruct (IH _ _ _ R) as (H1 & H2 & H3 & H4). rewrite <- app_assoc in H1.
      split; [exact H1|]. split; [intros x [<-|Hx]; [left|right]; auto|]. split.
      * intros Hnd. apply H3, NoDup_snoc; [exact Hnd|]. rewrite <- existsb_eqb_in. congruence.
      * intros x [<-|Hx]; auto. rewrite H1. apply in_or_app. right. left. reflexivity.
Qed.

Lemma bcast_once : forall calls sent, NoDup sent ->
  NoDup (sent ++ concat (dt_bcast_run sent calls)).
Proof.
  induction calls as [|c calls IH]; intros sent Hnd; cbn.
  - rewrite app_nil_r. auto.
  - destruct (dt_filter_clas c sent) as (f, s) eqn:E. cbn.
    destruct (filter_clas_spec _ _ _ _ E) as (H1 & _ & H3 & _).
    rewrite app_assoc, <- H1. apply IH, H3, Hnd.
Qed.

Lemma forward_unicast : forall table senders sent dest chosen sent' del,
  dt_forward_select table senders sent false dest = (chosen, sent', del) ->
  sent' = sent /\ (del = true <-> chosen <> []) /\
  ((chosen <> [] /\ chosen = filter (N.eqb (dst_node dest)) senders) \/
   (filter (N.eqb (dst_node dest)) senders = [] /\
    (chosen = [] \/ exists h, chosen = [h] /\ dst_bare dest = true /\ dt_assoc_get (dst_node dest) table = Some h /\ In h senders))).
Proof.
  intros table senders sent dest chosen sent' del H. unfold dt_forward_select in H.
  destruct (filter (N.eqb (dst_node dest)) senders) as [|x l] eqn:F.
  - unfold dt_sender_for_bundle in H.
    destruct (if dst_bare dest then _ else None) as [h|] eqn:T; [destruct (existsb (N.eqb h) senders) eqn:Ex|];
      inversion H; subst.
    + (* the table has a next hop and it is connected *)
      destruct (dst_bare dest); [|discriminate].
      split; auto. split; [split; [discriminate|auto]|]. right. split; auto. right. exists h.
      repeat split; auto. apply existsb_eqb_in; auto.
    + split; auto. split; [split; [discriminate|congruence]|]. right. auto.
    + split; auto. split; [split; [discriminate|congruence]|]. right. auto.
  - inversion H; subst. split; auto. split; [split; [discriminate|auto]|]. left. split; [discriminate|reflexivity].
Qed.

Lemma table_hop_is_neighbour : forall st now, dt_inv st -> dt_past st now ->
  dt_recv_get (dt_self st) (dt_recv st) = None ->
  forall dest hop, In (dest, hop) (dt_table (dt_compute st now)) ->
  exists t, In (hop, t) (dt_own st) /\
            exists a, In a (dt_graph st now) /\ arc_src a = 0 /\ nth_error (dt_index st) (arc_dst a) = Some hop /\
                      arc_cost a = dt_edge_cost now t.
Proof.
  intros st now Hinv Hpast Hnone dest hop Hin.
  destruct (table_spec st now Hinv Hpast) as (T1 & _).
  destruct (T1 dest hop Hin) as (d & h & _ & Hh & _ & Ho).
  destruct (ofh_arc _ _ _ Ho) as (Hh0 & a & Ha & Hs & Hd).
  destruct (graph_arc0_own st now a Hinv Hnone Ha Hs) as (p & t & Hp & Hdp & Hc).
  assert (Hf : dt_find_index p (dt_index st) = Some h).
  { (* a peer without an index would read as vertex 0, and h <> 0 *)
    unfold dt_node_index in Hdp. destruct (dt_find_index p (dt_index st)) as [i|]; congruence. }
  apply find_index_nth in Hf. assert (hop = p) by congruence. subst p.
  exists t. split; auto. exists a. rewrite Hd. auto.
Qed.

Lemma assoc_get_in : forall k l v, dt_assoc_get k l = Some v -> In (k, v) l.
Proof.
  induction l as [|(k', v') l IH]; intros v H; cbn in *; [discriminate|].
  destruct (N.eqb_spec k' k) as [E|E]; [inversion H; subst; auto|auto].
Qed.
Lemma assoc_get_functional : forall k l v, (forall k v1 v2, In (k, v1) l -> In (k, v2) l -> v1 = v2) ->
  In (k, v) l -> dt_assoc_get k l = Some v.
Proof.
  induction l as [|(k', v') l IH]; intros v Hf Hin; [contradiction|]. cbn.
  destruct (N.eqb_spec k' k) as [E|E].
  - subst k'. f_equal. eapply Hf; [left; reflexivity|exact Hin].
  - destruct Hin as [Hin|Hin]; [inversion Hin; congruence|]. apply IH; auto.
    intros k0 v1 v2 A B. eapply Hf; right; eauto.
Qed.
Lemma assoc_get_set : forall k k' v l,
  dt_assoc_get k (dt_assoc_set k' v l) = if (k' =? k)%N then Some v else dt_assoc_get k l.
Proof.
  intros k k' v l. induction l as [|[k2 v2] l IH]; cbn [dt_assoc_set dt_assoc_get].
  - reflexivity.
  - destruct (N.eqb_spec k2 k') as [->|E]; cbn [dt_assoc_get].
    + destruct (k' =? k)%N; reflexivity.
    + rewrite IH. destruct (N.eqb_spec k2 k) as [->|]; [|reflexivity].
      destruct (N.eqb_spec k' k); congruence.
Qed.

Lemma assoc_get_filter : forall (f : N * N -> bool) k v l,
  dt_assoc_get k l = Some v -> f (k, v) = true -> dt_assoc_get k (filter f l) = Some v.
Proof.
  intros f k v l H Hf. induction l as [|[k' v'] l IH]; cbn [dt_assoc_get filter] in *; [discriminate|].
  destruct (N.eqb_spec k' k) as [->|E].
  - injection H as ->. rewrite Hf. cbn [dt_assoc_get]. now rewrite N.eqb_refl.
  - apply N.eqb_neq in E. destruct (f (k', v')); cbn [dt_assoc_get]; [rewrite E|]; auto.
Qed.

Lemma step_own : forall st o,
  dt_own (dt_step st o) =
  match o with
  | DtAppear p _ => dt_assoc_set p 0 (dt_own st)
  | DtDisappear p now => dt_assoc_set p now (dt_own st)
  | DtPurge now pt => filter (fun kv => (snd kv =? 0)%N || negb (snd kv + pt <? now)%N) (dt_own st)
  | _ => dt_own st
  end.
Proof.
  intros st [d|p now|p now|now pt|now|now]; cbn; auto.
  - unfold dt_notify. destruct (dt_recv_get _ _); [destruct (dt_should_replace _ _)|]; reflexivity.
  - unfold dt_recompute_cron. destruct (_ || _); reflexivity.
Qed.

Lemma connected_live_from : forall ops st acc p,
  dt_connected_from acc ops p = true ->
  (acc = true -> dt_assoc_get p (dt_own st) = Some 0%N) ->
  dt_assoc_get p (dt_own (dt_run st ops)) = Some 0%N.
Proof.
  induction ops as [|o ops IH]; intros st acc p Hc Hacc; [exact (Hacc Hc)|].
  change (dt_run st (o :: ops)) with (dt_run (dt_step st o) ops).
  destruct o as [d|q now|q now|now pt|now|now]; cbn [dt_connected_from] in Hc;
    (eapply IH; [exact Hc|]); rewrite step_own; try exact Hacc.
  - rewrite assoc_get_set. destruct (q =? p)%N; auto.
  - rewrite assoc_get_set. destruct (q =? p)%N; [discriminate|exact Hacc].
  - intros Ha. apply assoc_get_filter; auto.
Qed.
