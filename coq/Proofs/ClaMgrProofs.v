(* ClaMgrProofs.v - invariants of the CLA manager model (Model/ClaMgr.v) behind the C16 theorems.
   The invariant says that an instance is started according to the call log iff the registry holds
   an active element for it.  Under the registry invariant an instance has at most one element and
   the log of an instance depends only on the calls made on it, so the retry pass and the shutdown
   are analysed one element at a time; every step but Manager.Close updates registry and log by
   calls that keep the two in step. *)
From DTN Require Import Base ClaMgr.
Open Scope Z_scope.

Definition keys (r : cm_reg) : list N := map fst r.

Lemma reg_get_In k r : forall e, reg_get k r = Some e -> In (k, e) r.
Proof.
  induction r as [|[k' e'] r IH]; cbn [reg_get]; intros e H; [discriminate|].
  destruct (N.eqb_spec k k') as [->|Hne].
  - injection H as <-. now left.
  - right. now apply IH.
Qed.

Lemma In_reg_del k r : forall x, In x (reg_del k r) -> In x r.
Proof.
  induction r as [|[k' e'] r IH]; cbn [reg_del]; intros x H; [contradiction|].
  destruct (N.eqb k k').
  - now right.
  - destruct H as [H|H]; [now left|right; now apply IH].
Qed.

Lemma NoDup_reg_del k r : NoDup (keys r) -> NoDup (keys (reg_del k r)).
Proof.
  induction r as [|[k' e'] r IH]; cbn [reg_del keys map fst]; intros Hnd; [constructor|].
  inversion Hnd as [|? ? Hnotin Hnd']; subst.
  destruct (N.eqb k k'); [exact Hnd'|].
  cbn [map fst]. constructor.
  - intros (ke & <- & Hin%In_reg_del)%in_map_iff. apply Hnotin, (in_map fst), Hin.
  - now apply IH.
Qed.

Lemma reg_del_notin k r : NoDup (keys r) -> ~ In k (keys (reg_del k r)).
Proof.
  induction r as [|[k' e'] r IH]; cbn [reg_del keys map fst]; intros Hnd; [tauto|].
  inversion Hnd as [|? ? Hnotin Hnd']; subst.
  destruct (N.eqb_spec k k') as [->|Hne]; [exact Hnotin|].
  cbn [map fst]. intros [H|H]; [congruence|]. now apply IH.
Qed.

Lemma keys_reg_set k e r : forall x, In x (keys (reg_set k e r)) -> x = k \/ In x (keys r).
Proof.
  induction r as [|[k' e'] r IH]; cbn [reg_set keys map fst]; intros x H.
  - destruct H as [H|[]]; now left.
  - destruct (N.eqb_spec k k') as [->|Hne]; cbn [map fst] in H.
    + destruct H as [H|H]; [left; congruence|right; now right].
    + destruct H as [H|H]; [right; now left|].
      destruct (IH _ H) as [?|?]; [now left|right; now right].
Qed.

Lemma NoDup_reg_set k e r : NoDup (keys r) -> NoDup (keys (reg_set k e r)).
Proof.
  induction r as [|[k' e'] r IH]; cbn [reg_set keys map fst]; intros Hnd.
  - constructor; [tauto|constructor].
  - inversion Hnd as [|? ? Hnotin Hnd']; subst.
    destruct (N.eqb_spec k k') as [->|Hne]; cbn [map fst].
    + constructor; assumption.
    + constructor; [|now apply IH].
      intros H. destruct (keys_reg_set _ _ _ _ H) as [?|?]; [congruence|contradiction].
Qed.

Lemma existsb_reg_split (F : N * cm_elem -> bool) k r :
  existsb F r = (match reg_get k r with Some e => F (k, e) | None => false end) || existsb F (reg_del k r).
Proof.
  induction r as [|[k' e'] r IH]; cbn [reg_get reg_del existsb]; [reflexivity|].
  destruct (N.eqb_spec k k') as [->|Hne]; [reflexivity|].
  cbn [existsb]. rewrite IH. destruct (F (k', e')), (reg_get k r); cbn; try reflexivity.
  all: now rewrite ?orb_true_r.
Qed.

Lemma existsb_reg_set (F : N * cm_elem -> bool) k e r :
  existsb F (reg_set k e r) = F (k, e) || existsb F (reg_del k r).
Proof.
  induction r as [|[k' e'] r IH]; cbn [reg_set reg_del existsb]; [reflexivity|].
  destruct (N.eqb_spec k k') as [->|Hne]; cbn [existsb]; [reflexivity|].
  rewrite IH. destruct (F (k', e')), (F (k, e)); reflexivity.
Qed.

Lemma Forall_reg_del (P : N * cm_elem -> Prop) k r : Forall P r -> Forall P (reg_del k r).
Proof.
  intros H. rewrite Forall_forall in *. intros x Hx. apply H. eapply In_reg_del; eauto.
Qed.

Lemma Forall_reg_set (P : N * cm_elem -> Prop) k e r : Forall P r -> P (k, e) -> Forall P (reg_set k e r).
Proof.
  induction r as [|[k' e'] r IH]; cbn [reg_set]; intros H Hp.
  - constructor; [exact Hp|constructor].
  - apply Forall_cons_iff in H as [Hx H]. destruct (N.eqb k k'); constructor; auto.
Qed.

Definition sfold (id : nat) (cs : list cm_call) (b : bool) : bool := fold_left (cm_started_step id) cs b.

Lemma cm_started_app l cs id : cm_started (l ++ cs) id = sfold id cs (cm_started l id).
Proof. unfold cm_started, sfold. now rewrite fold_left_app. Qed.

Lemma sfold_app id a b x : sfold id (a ++ b) x = sfold id b (sfold id a x).
Proof. unfold sfold. now rewrite fold_left_app. Qed.

Definition call_inst (c : cm_call) : nat := match c with CStart i _ => i | CClose i => i end.

Definition calls_of (id : nat) (cs : list cm_call) : list cm_call := filter (fun c => Nat.eqb (call_inst c) id) cs.

Lemma sfold_calls_of id cs : forall b, sfold id cs b = sfold id (calls_of id cs) b.
Proof.
  induction cs as [|c cs IH]; intros b; [reflexivity|]. unfold sfold, calls_of in *. cbn [filter fold_left].
  destruct (Nat.eqb (call_inst c) id) eqn:E; cbn [fold_left]; [apply IH|].
  rewrite <- IH. destruct c; cbn [cm_started_step call_inst] in *; now rewrite E.
Qed.

Lemma count_calls_of f id cs :
  (forall c, f c = true -> call_inst c = id) ->
  cm_count f cs = cm_count f (calls_of id cs).
Proof.
  intros Hf. unfold cm_count, calls_of. induction cs as [|c cs IH]; [reflexivity|]. cbn [filter].
  destruct (f c) eqn:Fc.
  - rewrite (Hf c Fc), Nat.eqb_refl. cbn [filter length]. now rewrite Fc, IH.
  - destruct (Nat.eqb (call_inst c) id); cbn [filter]; now rewrite ?Fc.
Qed.

Lemma calls_of_inst i id cs :
  (forall c, In c cs -> call_inst c = i) ->
  calls_of id cs = if Nat.eqb i id then cs else [].
Proof.
  induction cs as [|c cs IH]; intros H; unfold calls_of in *; cbn [filter]; [now destruct (Nat.eqb i id)|].
  rewrite (H c (or_introl eq_refl)), IH by (intros; apply H; now right). now destruct (Nat.eqb i id).
Qed.

Lemma sfold_other i id cs b : (forall c, In c cs -> call_inst c = i) -> i <> id -> sfold id cs b = b.
Proof.
  intros H Hne. rewrite sfold_calls_of, (calls_of_inst i) by exact H.
  apply Nat.eqb_neq in Hne. now rewrite Hne.
Qed.

Lemma count_app f a b : cm_count f (a ++ b) = (cm_count f a + cm_count f b)%nat.
Proof. unfold cm_count. now rewrite filter_app, app_length. Qed.

(* An element sits under the address of its own instance: this is what lets cm_find, which looks for
   the instance, and reg_get, which looks up the address, find the same element.  It is active exactly
   while its stop channel is open.  Its budget never exceeds the configured one: only budget_bound
   needs that. *)
Definition elem_ok (cfg : cm_cfg) (ke : N * cm_elem) : Prop :=
  let e := snd ke in
  fst ke = ad_addr (cm_ad cfg (e_inst e))
  /\ (e_ttl e < 0 <-> e_chan e = COpen)
  /\ e_ttl e <= cfg_ttl cfg.

Definition reg_act (r : cm_reg) (id : nat) : bool :=
  existsb (fun ke => Nat.eqb (e_inst (snd ke)) id && cm_active (snd ke)) r.
Definition reg_has (r : cm_reg) (id : nat) : bool :=
  existsb (fun ke => Nat.eqb (e_inst (snd ke)) id) r.

Lemma reg_act_cons k e r id :
  reg_act ((k, e) :: r) id = (Nat.eqb (e_inst e) id && cm_active e) || reg_act r id.
Proof. reflexivity. Qed.
Lemma reg_has_cons k e (r : cm_reg) id :
  reg_has ((k, e) :: r) id = Nat.eqb (e_inst e) id || reg_has r id.
Proof. reflexivity. Qed.

Lemma reg_has_false_act r : forall id, reg_has r id = false -> reg_act r id = false.
Proof.
  induction r as [|[k e] r IH]; intros id H; [reflexivity|].
  rewrite reg_has_cons in H. apply orb_false_iff in H as [H1 H2]. now rewrite reg_act_cons, H1, (IH _ H2).
Qed.

Lemma reg_has_key cfg r : forall id, Forall (elem_ok cfg) r ->
  ~ In (ad_addr (cm_ad cfg id)) (keys r) -> reg_has r id = false.
Proof.
  induction r as [|[k e] r IH]; intros id Hok Hnot; [reflexivity|].
  inversion Hok as [|? ? (Hk & _) Hok']; subst. cbn [keys map fst snd] in *. rewrite reg_has_cons.
  destruct (Nat.eqb_spec (e_inst e) id) as [Heq|Hne].
  - exfalso. apply Hnot. left. now rewrite <- Heq.
  - apply IH; [exact Hok'|]. intros Hin. apply Hnot. now right.
Qed.

Definition sync (r : cm_reg) (cs : list cm_call) (r' : cm_reg) : Prop :=
  forall id, sfold id cs (reg_act r id) = reg_act r' id.

Lemma sync_refl r : sync r [] r.
Proof. intros id. reflexivity. Qed.

Lemma sync_trans r1 c1 r2 c2 r3 : sync r1 c1 r2 -> sync r2 c2 r3 -> sync r1 (c1 ++ c2) r3.
Proof. intros H1 H2 id. rewrite sfold_app, H1. apply H2. Qed.

Lemma activate_spec cfg perm o k e :
  0 <= cfg_ttl cfg -> elem_ok cfg (k, e) -> cm_active e = false ->
  forall e' s rt c, cm_activate perm o e = (e', (s, rt), c) ->
  e_inst e' = e_inst e
  /\ elem_ok cfg (k, e')
  /\ s = cm_active e'
  /\ (forall x, In x c -> call_inst x = e_inst e)
  /\ sfold (e_inst e) c false = cm_active e'.
Proof.
  intros Hq Hek Hna e' s rt c H. pose proof Hek as (Hk & Hc & Hle).
  unfold cm_activate in H. rewrite Hna in H. unfold cm_active in *. apply Z.ltb_ge in Hna. cbn [fst snd] in *.
  (* a failed start leaves an inactive element with some budget t *)
  assert (Hfail : forall t, 0 <= t <= cfg_ttl cfg ->
            elem_ok cfg (k, mkElem (e_inst e) t (e_chan e)) /\ false = (t <? 0)).
  { intros t Ht. split; [|symmetry; apply Z.ltb_ge; lia].
    repeat split; cbn [fst snd e_inst e_ttl e_chan]; try assumption; try lia. intros Ho. apply Hc in Ho. lia. }
  assert (Hone : forall oo x, In x [CStart (e_inst e) oo] -> call_inst x = e_inst e).
  { intros oo x [<-|[]]. reflexivity. }
  unfold sfold.
  destruct ((e_ttl e =? 0) && negb perm); [|destruct o]; injection H as <- <- <- <-;
    cbn [e_inst e_ttl fold_left cm_started_step]; rewrite ?Nat.eqb_refl; (split; [reflexivity|]).
  - assert (Hf : false = (e_ttl e <? 0)) by (symmetry; apply Z.ltb_ge; lia).
    split; [exact Hek|]. split; [exact Hf|]. split; [intros x []|exact Hf].
  - repeat split; cbn [fst snd e_inst e_ttl e_chan]; try assumption; try lia; eauto.
  - destruct (Hfail (if 0 <? e_ttl e then e_ttl e - 1 else e_ttl e)) as [Hok Hf]; [destruct (Z.ltb_spec 0 (e_ttl e)); lia|].
    eauto.
  - destruct (Hfail 0) as [Hok Hf]; [lia|]. eauto.
Qed.

Lemma deactivate_spec cfg k e :
  elem_ok cfg (k, e) ->
  cm_deactivate (cfg_ttl cfg) e
  = Some (if cm_active e then mkElem (e_inst e) (cfg_ttl cfg) CClosed else e, if cm_active e then [CClose (e_inst e)] else []).
Proof.
  intros (_ & Hc & _). unfold cm_deactivate. cbn [snd] in Hc.
  destruct (cm_active e) eqn:Ha; [|reflexivity].
  unfold cm_active in Ha. apply Z.ltb_lt, Hc in Ha. now rewrite Ha.
Qed.

Lemma stop_calls e :
  let cs := if cm_active e then [CClose (e_inst e)] else [] in
  (forall x, In x cs -> call_inst x = e_inst e) /\ sfold (e_inst e) cs (cm_active e) = false.
Proof.
  unfold sfold. destruct (cm_active e); cbn [fold_left cm_started_step]; rewrite ?Nat.eqb_refl.
  - split; [intros x [<-|[]]|]; reflexivity.
  - split; [intros x []|reflexivity].
Qed.

Definition reg_ok (cfg : cm_cfg) (r : cm_reg) : Prop := NoDup (keys r) /\ Forall (elem_ok cfg) r.

Lemma reg_del_id : forall k r, ~ In k (keys r) -> reg_del k r = r.
Proof.
  induction r as [|[k' e'] r IH]; cbn [reg_del keys map fst]; intros H; [reflexivity|].
  destruct (N.eqb_spec k k') as [->|Hne]; [exfalso; apply H; now left|].
  f_equal. apply IH. intros Hin. apply H. now right.
Qed.

Lemma reg_ok_del cfg k r : reg_ok cfg r -> reg_ok cfg (reg_del k r).
Proof. intros [H1 H2]. split; [now apply NoDup_reg_del|now apply Forall_reg_del]. Qed.

Lemma reg_ok_set cfg k e r : reg_ok cfg r -> elem_ok cfg (k, e) -> reg_ok cfg (reg_set k e r).
Proof. intros [H1 H2] He. split; [now apply NoDup_reg_set|now apply Forall_reg_set]. Qed.

Lemma reg_ok_In cfg r k e : reg_ok cfg r -> In (k, e) r -> elem_ok cfg (k, e).
Proof. intros [_ H] Hin. rewrite Forall_forall in H. now apply H. Qed.

Lemma reg_ok_cons cfg k e r :
  reg_ok cfg ((k, e) :: r) ->
  elem_ok cfg (k, e) /\ reg_ok cfg r /\ reg_has r (e_inst e) = false /\ ~ In k (keys r).
Proof.
  intros [Hnd Hall]. cbn [keys map fst] in Hnd.
  inversion Hnd as [|? ? Hnotin Hnd']; subst. inversion Hall as [|? ? He Hall']; subst.
  split; [exact He|]. split; [split; assumption|]. split; [|exact Hnotin].
  apply (reg_has_key cfg); auto. destruct He as (Hk & _). cbn [fst snd] in Hk. now rewrite <- Hk.
Qed.

Lemma del_no_inst cfg r i :
  reg_ok cfg r ->
  reg_act (reg_del (ad_addr (cm_ad cfg i)) r) i = false.
Proof.
  intros [Hnd Hall]. apply reg_has_false_act, (reg_has_key cfg).
  - now apply Forall_reg_del.
  - now apply reg_del_notin.
Qed.

Lemma find_none_has r : forall id, cm_find r id = None <-> reg_has r id = false.
Proof.
  induction r as [|[k e] r IH]; intros id; cbn [cm_find]; [unfold reg_has; cbn; tauto|].
  rewrite reg_has_cons. destruct (Nat.eqb (e_inst e) id); cbn [orb]; [split; discriminate|apply IH].
Qed.

Lemma find_elem_ok cfg r : forall id e, reg_ok cfg r -> cm_find r id = Some e ->
  e_inst e = id /\ exists k, elem_ok cfg (k, e).
Proof.
  induction r as [|[k e0] r IH]; intros id e Hok H; [discriminate|].
  destruct (reg_ok_cons _ _ _ _ Hok) as (He & Hokr & _). cbn [cm_find] in H.
  destruct (Nat.eqb_spec (e_inst e0) id) as [Heq|Hne].
  - injection H as <-. eauto.
  - eapply IH; eauto.
Qed.

Lemma reg_act_find cfg r : forall id, reg_ok cfg r ->
  reg_act r id = match cm_find r id with Some e => cm_active e | None => false end.
Proof.
  induction r as [|[k e] r IH]; intros id Hok; [reflexivity|].
  destruct (reg_ok_cons _ _ _ _ Hok) as (_ & Hokr & Hnone & _). rewrite reg_act_cons. cbn [cm_find].
  destruct (Nat.eqb_spec (e_inst e) id) as [<-|Hne]; cbn [andb orb]; [|now apply IH].
  rewrite (reg_has_false_act _ _ Hnone). apply orb_false_r.
Qed.

Lemma reg_act_split k r id :
  reg_act r id = (match reg_get k r with
                  | Some e => Nat.eqb (e_inst e) id && cm_active e | None => false end)
                 || reg_act (reg_del k r) id.
Proof.
  unfold reg_act. rewrite (existsb_reg_split _ k). destruct (reg_get k r); reflexivity.
Qed.

Lemma reg_act_set k e r id :
  reg_act (reg_set k e r) id = (Nat.eqb (e_inst e) id && cm_active e) || reg_act (reg_del k r) id.
Proof. unfold reg_act. now rewrite existsb_reg_set. Qed.

Lemma reg_act_addr cfg r id :
  reg_ok cfg r ->
  reg_act r id = match reg_get (ad_addr (cm_ad cfg id)) r with
                 | Some e => Nat.eqb (e_inst e) id && cm_active e | None => false end.
Proof.
  intros Hok. rewrite (reg_act_split (ad_addr (cm_ad cfg id))), (del_no_inst cfg r id Hok).
  apply orb_false_r.
Qed.

Lemma start_stored cfg perm o r k e e' s rt c :
  0 <= cfg_ttl cfg -> reg_ok cfg r -> elem_ok cfg (k, e) -> cm_active e = false ->
  reg_get k r = None \/ reg_get k r = Some e ->
  cm_activate perm o e = (e', (s, rt), c) ->
  reg_ok cfg (reg_set k e' r) /\ sync r c (reg_set k e' r).
Proof.
  intros Hq Hok Hek Hna Hget Hact.
  destruct (activate_spec _ _ _ _ _ Hq Hek Hna _ _ _ _ Hact) as (Hi & Hok' & _ & Hc & Hs).
  split; [now apply reg_ok_set|]. intros id. rewrite reg_act_set, (reg_act_split k r id), Hi.
  assert (Hslot : (match reg_get k r with
                   | Some e0 => Nat.eqb (e_inst e0) id && cm_active e0 | None => false end) = false).
  { destruct Hget as [->| ->]; [reflexivity|]. rewrite Hna. apply andb_false_r. }
  rewrite Hslot. cbn [orb].
  destruct (Nat.eqb_spec (e_inst e) id) as [<-|Hne]; cbn [andb orb].
  - destruct Hek as (Hk & _). cbn [fst snd] in Hk. rewrite Hk, (del_no_inst cfg r _ Hok), Hs.
    now rewrite orb_false_r.
  - now apply (sfold_other (e_inst e)).
Qed.

Lemma nth_error_ad cfg id a : nth_error (cfg_ads cfg) id = Some a -> cm_ad cfg id = a.
Proof. intros H. unfold cm_ad. now apply nth_error_nth. Qed.

Lemma register_spec cfg o r id :
  0 <= cfg_ttl cfg -> reg_ok cfg r ->
  forall r' c, cm_register cfg o r id = (r', c) -> reg_ok cfg r' /\ sync r c r'.
Proof.
  intros Hq Hok r' c H. unfold cm_register in H.
  assert (Hsame : reg_ok cfg r /\ sync r [] r) by (split; [exact Hok|apply sync_refl]).
  destruct (nth_error (cfg_ads cfg) id) as [a|] eqn:Hnth; [|now injection H as <- <-].
  pose proof (nth_error_ad _ _ _ Hnth) as Had.
  destruct (reg_get (ad_addr a) r) as [e|] eqn:Hget.
  - assert (Hek : elem_ok cfg (ad_addr a, e)) by (eapply reg_ok_In; eauto using reg_get_In).
    destruct (cm_active e) eqn:Hact; [now injection H as <- <-|].
    destruct (cm_is_sender _ && cm_recv_conflict cfg r _); [now injection H as <- <-|].
    destruct (cm_activate _ _ e) as [[e' [s rt]] c0] eqn:Hactv. cbn [orb] in H. injection H as <- <-.
    eapply start_stored; eauto.
  - set (e0 := mkElem id (cfg_ttl cfg) CNil) in *.
    assert (Hek : elem_ok cfg (ad_addr a, e0)).
    { unfold elem_ok, e0; cbn [fst snd e_inst e_ttl e_chan]. rewrite Had.
      repeat split; try lia; try reflexivity; intros; try lia; discriminate. }
    assert (Hact : cm_active e0 = false) by (apply Z.ltb_ge; exact Hq).
    destruct (cm_is_sender _ && cm_recv_conflict cfg r _); [now injection H as <- <-|].
    destruct (cm_activate _ _ e0) as [[e' [s rt]] c0] eqn:Hactv.
    cbn [orb] in H. destruct (s || rt) eqn:Hsr; injection H as <- <-; [eapply start_stored; eauto|].
    (* the failed new element is not stored: instance id still has no element *)
    destruct (activate_spec _ _ _ _ _ Hq Hek Hact _ _ _ _ Hactv) as (_ & _ & Hs' & Hc & Hs).
    unfold e0 in Hs, Hc. cbn [e_inst] in Hs, Hc. apply orb_false_iff in Hsr as [-> _]. split; [exact Hok|]. intros id0.
    destruct (Nat.eq_dec id id0) as [<-|Hne]; [|now apply (sfold_other id)].
    now rewrite (reg_act_addr cfg r id Hok), Had, Hget, Hs.
Qed.

Lemma unregister_spec cfg r id :
  reg_ok cfg r ->
  exists r' c, cm_unregister cfg r id = Some (r', c) /\ reg_ok cfg r' /\ sync r c r' /\ (r = [] -> r' = []).
Proof.
  intros Hok. unfold cm_unregister.
  assert (Hsame : exists r' c, Some (r, @nil cm_call) = Some (r', c) /\ reg_ok cfg r' /\ sync r c r' /\ (r = [] -> r' = [])).
  { exists r, []. split; [reflexivity|]. split; [exact Hok|]. split; [apply sync_refl|auto]. }
  destruct (nth_error (cfg_ads cfg) id) as [a|] eqn:Hnth; [|exact Hsame].
  pose proof (nth_error_ad _ _ _ Hnth) as Had.
  destruct (reg_get (ad_addr a) r) as [e|] eqn:Hget; [|exact Hsame].
  assert (Hek : elem_ok cfg (ad_addr a, e)) by (eapply reg_ok_In; eauto using reg_get_In).
  destruct (Nat.eqb_spec (e_inst e) id) as [<-|Hne]; [|exact Hsame].
  rewrite (deactivate_spec _ _ _ Hek). eexists _, _. split; [reflexivity|]. split; [now apply reg_ok_del|].
  split; [|intros ->; discriminate Hget].
  pose proof (del_no_inst cfg r (e_inst e) Hok) as Hno. rewrite Had in Hno.
  intros id0. rewrite (reg_act_split (ad_addr a) r id0), Hget. destruct (stop_calls e) as [Hc Hs].
  destruct (Nat.eqb_spec (e_inst e) id0) as [<-|Hne0]; cbn [andb orb]; [|now apply (sfold_other (e_inst e))].
  now rewrite Hno, orb_false_r.
Qed.

(* The retry pass and the shutdown treat every element on its own: [f e] is the element afterwards (None = dropped)
   and the calls made. *)
Fixpoint reg_pass (f : cm_elem -> option cm_elem * list cm_call) (r : cm_reg) : cm_reg * list cm_call :=
  match r with
  | [] => ([], [])
  | (k, e) :: r =>
    let (r', cs) := reg_pass f r in
    (match fst (f e) with Some e' => (k, e') :: r' | None => r' end, snd (f e) ++ cs)
  end.

Definition pass_ok (cfg : cm_cfg) (f : cm_elem -> option cm_elem * list cm_call) : Prop :=
  forall k e, elem_ok cfg (k, e) ->
  (forall x, In x (snd (f e)) -> call_inst x = e_inst e)
  /\ sfold (e_inst e) (snd (f e)) (cm_active e) = match fst (f e) with Some e' => cm_active e' | None => false end
  /\ (forall e', fst (f e) = Some e' -> e_inst e' = e_inst e /\ elem_ok cfg (k, e')).

Lemma reg_pass_keys f r : forall x, In x (keys (fst (reg_pass f r))) -> In x (keys r).
Proof.
  induction r as [|[k e] r IH]; intros x; cbn [reg_pass]; [auto|].
  destruct (reg_pass f r) as [r' cs]. cbn [fst keys map] in *.
  destruct (fst (f e)); cbn [map fst]; [intros [H|H]; [now left|]|intros H]; right; now apply IH.
Qed.

Definition on_find (f : cm_elem -> option cm_elem * list cm_call) (oe : option cm_elem) : option cm_elem * list cm_call :=
  match oe with Some e => f e | None => (None, []) end.

(* seen from one instance, a pass is the step of its element *)
Lemma reg_pass_proj cfg f r :
  pass_ok cfg f -> reg_ok cfg r ->
  reg_ok cfg (fst (reg_pass f r))
  /\ forall id, cm_find (fst (reg_pass f r)) id = fst (on_find f (cm_find r id))
             /\ calls_of id (snd (reg_pass f r)) = snd (on_find f (cm_find r id)).
Proof.
  intros Hf. induction r as [|[k e] r IH]; intros Hok; [split; [exact Hok|split; reflexivity]|].
  destruct (reg_ok_cons _ _ _ _ Hok) as (He & Hokr & Hnone & Hknot).
  destruct (IH Hokr) as [Hok1 Hp]. destruct (Hf k e He) as (Hc & _ & Hkeep).
  pose proof (reg_pass_keys f r k) as Hkeys. cbn [reg_pass]. destruct (reg_pass f r) as [r1 cs1]. cbn [fst snd] in *.
  split.
  - destruct (fst (f e)) as [e'|]; [|exact Hok1]. destruct (Hkeep e' eq_refl) as [_ He'].
    destruct Hok1 as [Hnd1 Hall1]. split; [|now constructor]. cbn [keys map fst]. constructor; auto.
  - intros id. destruct (Hp id) as [Hfind Hcalls]. unfold calls_of in *. rewrite filter_app. fold (calls_of id (snd (f e))).
    rewrite (calls_of_inst _ id _ Hc), Hcalls. cbn [cm_find].
    destruct (Nat.eqb_spec (e_inst e) id) as [<-|Hne].
    + apply find_none_has in Hnone. rewrite Hnone in *. cbn [on_find fst snd] in *. rewrite app_nil_r. split; [|reflexivity].
      destruct (fst (f e)) as [e'|]; [|exact Hfind]. destruct (Hkeep e' eq_refl) as [Hi _].
      cbn [cm_find]. now rewrite Hi, Nat.eqb_refl.
    + split; [|reflexivity]. destruct (fst (f e)) as [e'|]; [|exact Hfind]. destruct (Hkeep e' eq_refl) as [Hi _].
      cbn [cm_find]. apply Nat.eqb_neq in Hne. now rewrite Hi, Hne.
Qed.

Lemma reg_pass_sync cfg f r :
  pass_ok cfg f -> reg_ok cfg r ->
  sync r (snd (reg_pass f r)) (fst (reg_pass f r)).
Proof.
  intros Hf Hok id. destruct (reg_pass_proj cfg f r Hf Hok) as [Hok' Hp]. destruct (Hp id) as [Hfind Hcalls].
  rewrite sfold_calls_of, Hcalls, (reg_act_find cfg r), (reg_act_find cfg _ id Hok'), Hfind by exact Hok.
  destruct (cm_find r id) as [e|] eqn:E; [|reflexivity].
  destruct (find_elem_ok _ _ _ _ Hok E) as [<- (k & Hek)]. apply (Hf k e Hek).
Qed.

Definition tick_one (cfg : cm_cfg) (o : list cm_outcome) (e : cm_elem) : option cm_elem * list cm_call :=
  if cm_active e then (Some e, [])
  else let '(e', (s, rt), c) := cm_activate (ad_perm (cm_ad cfg (e_inst e))) (cm_orc o (e_inst e)) e in
       (if negb s && negb rt then None else Some e', c).

Lemma tick_pass_eq cfg o r : cm_tick_pass cfg o r = reg_pass (tick_one cfg o) r.
Proof.
  induction r as [|[k e] r IH]; [reflexivity|]. cbn [cm_tick_pass reg_pass]. rewrite <- IH.
  destruct (cm_tick_pass cfg o r) as [r' cs]. unfold tick_one. destruct (cm_active e); [reflexivity|].
  destruct (cm_activate _ _ e) as [[e' [s rt]] c]. now destruct (negb s && negb rt).
Qed.

Lemma tick_one_pass_ok cfg o : 0 <= cfg_ttl cfg -> pass_ok cfg (tick_one cfg o).
Proof.
  intros Hq k e He. unfold tick_one. destruct (cm_active e) eqn:Ha.
  { cbn [fst snd]. split; [intros x []|]. split; [now symmetry|]. intros e' [= <-]. auto. }
  destruct (cm_activate _ _ e) as [[e' [s rt]] c] eqn:Hactv.
  destruct (activate_spec _ _ _ _ _ Hq He Ha _ _ _ _ Hactv) as (Hi & Hok' & Hs' & Hc & Hs).
  cbn [fst snd]. split; [exact Hc|]. split.
  - rewrite Hs. destruct (negb s && negb rt) eqn:Hdrop; [|reflexivity].
    apply andb_true_iff in Hdrop as [Hs0 _]. apply negb_true_iff in Hs0. congruence.
  - intros e2 H2. destruct (negb s && negb rt); [discriminate|]. injection H2 as <-. auto.
Qed.

Definition close_one (e : cm_elem) : option cm_elem * list cm_call :=
  (None, if cm_active e then [CClose (e_inst e)] else []).

Lemma close_all_eq cfg r :
  Forall (elem_ok cfg) r ->
  cm_close_all (cfg_ttl cfg) r = Some (snd (reg_pass close_one r)).
Proof.
  induction r as [|[k e] r IH]; intros Hall; [reflexivity|].
  inversion Hall as [|? ? He Hall']; subst.
  cbn [cm_close_all reg_pass]. rewrite (deactivate_spec _ _ _ He), (IH Hall'). now destruct (reg_pass close_one r).
Qed.

Lemma close_one_pass_ok cfg : pass_ok cfg close_one.
Proof.
  intros k e _. destruct (stop_calls e) as [Hc Hs]. split; [exact Hc|]. split; [exact Hs|discriminate].
Qed.

Lemma close_all_spec cfg r :
  reg_ok cfg r ->
  exists cs, cm_close_all (cfg_ttl cfg) r = Some cs
    /\ forall id, calls_of id cs = if reg_act r id then [CClose id] else [].
Proof.
  intros Hok. exists (snd (reg_pass close_one r)). split; [apply close_all_eq, Hok|]. intros id.
  destruct (reg_pass_proj cfg close_one r (close_one_pass_ok cfg) Hok) as [_ Hp]. destruct (Hp id) as [_ ->].
  rewrite (reg_act_find cfg) by exact Hok. destruct (cm_find r id) as [e|] eqn:E; [|reflexivity].
  destruct (find_elem_ok _ _ _ _ Hok E) as [<- _]. reflexivity.
Qed.

Lemma start_calls_of id cs : cm_count (cm_is_start_of id) cs = cm_count (cm_is_start_of id) (calls_of id cs).
Proof. apply count_calls_of. intros [i oo|i] Hx; [|discriminate]. now apply Nat.eqb_eq. Qed.

Lemma close_calls_of id cs : cm_count (cm_is_close_of id) cs = cm_count (cm_is_close_of id) (calls_of id cs).
Proof. apply count_calls_of. intros [i oo|i] Hx; [discriminate|]. now apply Nat.eqb_eq. Qed.

Lemma close_calls id cs (b : bool) :
  calls_of id cs = (if b then [CClose id] else []) ->
  sfold id cs b = false
  /\ cm_count (cm_is_close_of id) cs = (if b then 1 else 0)%nat
  /\ cm_count (cm_is_start_of id) cs = 0%nat.
Proof.
  intros H. rewrite sfold_calls_of, close_calls_of, start_calls_of, H.
  destruct b; unfold sfold, cm_count; cbn; rewrite ?Nat.eqb_refl; auto.
Qed.

Record cm_inv (cfg : cm_cfg) (st : cm_state) : Prop := mk_cm_inv {
  inv_ok : reg_ok cfg (st_reg st);
  inv_sync : forall id, cm_started (st_log st) id = reg_act (st_reg st) id;
  inv_closed : st_closed st = true -> st_reg st = [];
  inv_panic : st_panic st = true -> st_closed st = true
}.

Lemma cm_inv_init cfg : cm_inv cfg cm_init.
Proof.
  constructor; cbn; try discriminate; auto.
  split; constructor.
Qed.

Lemma upd_same st : cm_upd st (st_reg st) [] = st.
Proof. unfold cm_upd. rewrite app_nil_r. now destruct st. Qed.

Definition updates (cfg : cm_cfg) (st st' : cm_state) : Prop :=
  exists r c, st' = cm_upd st r c /\ reg_ok cfg r /\ sync (st_reg st) c r /\ (st_closed st = true -> r = []).

Lemma updates_refl cfg st : cm_inv cfg st -> updates cfg st st.
Proof.
  intros HI. exists (st_reg st), []. split; [symmetry; apply upd_same|].
  split; [apply (inv_ok _ _ HI)|]. split; [apply sync_refl|apply (inv_closed _ _ HI)].
Qed.

Lemma updates_inv cfg st st' : cm_inv cfg st -> updates cfg st st' -> cm_inv cfg st'.
Proof.
  intros [H1 H2 H3 H4] (r & c & -> & Hok & Hsy & Hnil).
  constructor; cbn [cm_upd st_reg st_log st_closed st_panic]; auto.
  intros id. rewrite cm_started_app, H2. apply Hsy.
Qed.

(* Unregister works after Close as well, on the empty registry; the Register half of a Restart does not *)
Lemma restart_updates cfg o st id : 0 <= cfg_ttl cfg -> cm_inv cfg st -> updates cfg st (cm_restart cfg o st id).
Proof.
  intros Hq HI. unfold cm_restart.
  destruct (unregister_spec cfg _ id (inv_ok _ _ HI)) as (r1 & c1 & -> & Hok1 & Hs1 & Hnil1).
  destruct (st_closed st) eqn:Hcl.
  - exists r1, c1. split; [reflexivity|]. split; [exact Hok1|]. split; [exact Hs1|]. intros _. apply Hnil1, (inv_closed _ _ HI Hcl).
  - destruct (cm_register cfg o r1 id) as [r2 c2] eqn:Hr. destruct (register_spec _ _ _ _ Hq Hok1 _ _ Hr) as [Hok2 Hs2].
    exists r2, (c1 ++ c2). split; [reflexivity|]. split; [exact Hok2|]. split; [eapply sync_trans; eauto|now rewrite Hcl].
Qed.

Lemma cm_step_cases cfg st ev o :
  0 <= cfg_ttl cfg -> cm_inv cfg st ->
  updates cfg st (cm_step cfg st ev o) \/ (ev = EClose /\ st_panic st = false).
Proof.
  intros Hq HI. pose proof (updates_refl _ _ HI) as Hkeep. pose proof (inv_ok _ _ HI) as Hok.
  unfold cm_step. destruct (st_panic st) eqn:Hp; [now left|].
  destruct ev; [left|left|left|left|left|now right].
  - destruct (st_closed st) eqn:Hcl; [exact Hkeep|].
    destruct (cm_register cfg o (st_reg st) id) as [r c] eqn:Hr. destruct (register_spec _ _ _ _ Hq Hok _ _ Hr).
    exists r, c. split; [reflexivity|]. split; [assumption|]. split; [assumption|now rewrite Hcl].
  - destruct (unregister_spec cfg _ id Hok) as (r & c & -> & Hok1 & Hs1 & Hnil1).
    exists r, c. split; [reflexivity|]. split; [exact Hok1|]. split; [exact Hs1|]. intros Hcl. apply Hnil1, (inv_closed _ _ HI Hcl).
  - now apply restart_updates.
  - destruct (st_closed st) eqn:Hcl; [exact Hkeep|]. rewrite tick_pass_eq.
    pose proof (tick_one_pass_ok cfg o Hq) as Hf. destruct (reg_pass_proj cfg _ _ Hf Hok) as [Hok' _].
    pose proof (reg_pass_sync cfg _ _ Hf Hok) as Hs. destruct (reg_pass (tick_one cfg o) (st_reg st)) as [r c].
    exists r, c. split; [reflexivity|]. split; [exact Hok'|]. split; [exact Hs|now rewrite Hcl].
  - destruct (st_closed st); [exact Hkeep|].
    destruct (cm_handler_running (st_reg st) id); [now apply restart_updates|exact Hkeep].
Qed.

Lemma close_step cfg st o :
  cm_inv cfg st -> st_panic st = false -> st_closed st = false ->
  exists cs, cm_step cfg st EClose o = mkSt [] true false (st_log st ++ cs)
    /\ forall id, calls_of id cs = if cm_started (st_log st) id then [CClose id] else [].
Proof.
  intros HI Hp Hcl. destruct (close_all_spec cfg _ (inv_ok _ _ HI)) as (cs & Hc & Hcalls).
  exists cs. split; [unfold cm_step; now rewrite Hp, Hcl, Hc|]. intros id. rewrite (inv_sync _ _ HI). apply Hcalls.
Qed.

Lemma step_inv cfg st ev o : 0 <= cfg_ttl cfg -> cm_inv cfg st -> cm_inv cfg (cm_step cfg st ev o).
Proof.
  intros Hq HI.
  destruct (cm_step_cases cfg st ev o Hq HI) as [Hu|[-> Hp]]; [now apply (updates_inv cfg st)|].
  destruct (st_closed st) eqn:Hcl.
  - (* a second Close panics *)
    unfold cm_step. rewrite Hp, Hcl. destruct HI as [H1 H2 H3 H4].
    constructor; cbn [cm_set_panic st_reg st_log st_closed st_panic]; auto.
  - destruct (close_step cfg st o HI Hp Hcl) as (cs & -> & Hcalls).
    constructor; cbn [st_reg st_log st_closed st_panic]; auto; [split; constructor|].
    intros id. rewrite cm_started_app. apply close_calls, Hcalls.
Qed.

Lemma run_from_inv cfg st tr : 0 <= cfg_ttl cfg -> cm_inv cfg st -> cm_inv cfg (cm_run_from cfg st tr).
Proof.
  intros Hq. revert st. induction tr as [|x tr IH]; intros st HI; [exact HI|].
  cbn [cm_run_from fold_left]. apply IH. now apply step_inv.
Qed.

Lemma run_inv cfg tr : 0 <= cfg_ttl cfg -> cm_inv cfg (cm_run cfg tr).
Proof. intros. apply run_from_inv; auto using cm_inv_init. Qed.

(* Sender() and Receiver() (role = cm_is_sender, cm_is_receiver) list the instances with an active element *)
Lemma role_list_spec (cfg : cm_cfg) (role : cm_adapter -> bool) r id :
  In id (map (fun ke : N * cm_elem => e_inst (snd ke))
             (filter (fun ke => cm_active (snd ke) && role (cm_ad cfg (e_inst (snd ke)))) r))
  <-> reg_act r id = true /\ role (cm_ad cfg id) = true.
Proof.
  unfold reg_act. rewrite in_map_iff, existsb_exists. split.
  - intros (x & <- & Hf). apply filter_In in Hf as [Hin Hp]. apply andb_true_iff in Hp as [Ha Hr].
    split; [exists x; now rewrite Nat.eqb_refl, Ha|exact Hr].
  - intros ((x & Hin & Hp) & Hr). apply andb_true_iff in Hp as [Hi Ha]. apply Nat.eqb_eq in Hi. subst id.
    exists x. split; [reflexivity|]. apply filter_In. now rewrite Ha, Hr.
Qed.

Lemma started_get cfg st id :
  cm_inv cfg st -> cm_started (st_log st) id = true ->
  exists e, reg_get (ad_addr (cm_ad cfg id)) (st_reg st) = Some e /\ e_inst e = id /\ cm_active e = true.
Proof.
  intros HI H. rewrite (inv_sync _ _ HI), (reg_act_addr cfg _ id (inv_ok _ _ HI)) in H.
  destruct (reg_get _ (st_reg st)) as [e|]; [|discriminate].
  apply andb_true_iff in H as [Hid Ha]. apply Nat.eqb_eq in Hid. eauto.
Qed.

Lemma register_active cfg st id o e :
  reg_get (ad_addr (cm_ad cfg id)) (st_reg st) = Some e -> cm_active e = true ->
  cm_step cfg st (ERegister id) o = st.
Proof.
  intros Hg Ha. unfold cm_step. destruct (st_panic st); [reflexivity|]. destruct (st_closed st); [reflexivity|].
  unfold cm_register. destruct (nth_error (cfg_ads cfg) id) as [a|] eqn:Hnth; [|apply upd_same].
  rewrite <- (nth_error_ad _ _ _ Hnth), Hg, Ha. apply upd_same.
Qed.

Lemma run_snoc cfg tr x : cm_run cfg (tr ++ [x]) = cm_step cfg (cm_run cfg tr) (fst x) (snd x).
Proof. unfold cm_run, cm_run_from. now rewrite fold_left_app. Qed.

Lemma nclose_app a b : cm_nclose (a ++ b) = (cm_nclose a + cm_nclose b)%nat.
Proof. unfold cm_nclose. now rewrite filter_app, app_length. Qed.

Lemma nclose_map {A} (f : A -> cm_event * list cm_outcome) l :
  (forall x, fst (f x) <> EClose) -> cm_nclose (map f l) = 0%nat.
Proof.
  intros Hf. unfold cm_nclose. induction l as [|x l IH]; [reflexivity|]. cbn [map filter].
  specialize (Hf x). destruct (fst (f x)); try exact IH. congruence.
Qed.

Lemma run_from_app cfg st a b : cm_run_from cfg st (a ++ b) = cm_run_from cfg (cm_run_from cfg st a) b.
Proof. unfold cm_run_from. apply fold_left_app. Qed.

Lemma run_flags cfg tr :
  0 <= cfg_ttl cfg ->
  (cm_nclose tr = 0%nat -> st_closed (cm_run cfg tr) = false)
  /\ ((cm_nclose tr <= 1)%nat -> st_panic (cm_run cfg tr) = false).
Proof.
  intros Hq. induction tr as [|[ev o] tr [IHc IHp]] using rev_ind; [split; reflexivity|].
  rewrite run_snoc, nclose_app. cbn [fst snd].
  destruct (cm_step_cases cfg (cm_run cfg tr) ev o Hq (run_inv cfg tr Hq)) as [(r & c & -> & _)|[-> Hp]].
  - cbn [cm_upd st_closed st_panic]. split; intros Hn; [apply IHc|apply IHp]; lia.
  - change (cm_nclose [(EClose, o)]) with 1%nat. split; intros Hn; [lia|].
    destruct (close_step cfg _ o (run_inv cfg tr Hq) Hp) as (cs & -> & _); [apply IHc; lia|reflexivity].
Qed.

Lemma first_close cfg tr o :
  0 <= cfg_ttl cfg -> cm_nclose tr = 0%nat ->
  let st := cm_run cfg tr in
  exists cs, cm_step cfg st EClose o = mkSt [] true false (st_log st ++ cs)
    /\ forall id, cm_started (st_log st ++ cs) id = false
                  /\ cm_count (cm_is_close_of id) cs = (if cm_started (st_log st) id then 1 else 0)%nat
                  /\ cm_count (cm_is_start_of id) cs = 0%nat.
Proof.
  intros Hq Hn st. destruct (run_flags cfg tr Hq) as [Hcl Hp].
  destruct (close_step cfg st o (run_inv cfg tr Hq)) as (cs & Hst & Hcalls); [apply Hp; lia|now apply Hcl|].
  exists cs. split; [exact Hst|]. intros id. rewrite cm_started_app. apply close_calls, Hcalls.
Qed.

Definition start_count (st : cm_state) (id : nat) : nat := cm_count (cm_is_start_of id) (st_log st).

(* a retry pass after Close finds the registry empty and does nothing, like the pass the handler no longer makes *)
Lemma tick_step_eq cfg st o :
  cm_inv cfg st ->
  let p := reg_pass (tick_one cfg o) (st_reg st) in cm_step cfg st ETick o = cm_upd st (fst p) (snd p).
Proof.
  intros HI p. unfold cm_step.
  assert (Hnil : st_closed st = true -> st = cm_upd st (fst p) (snd p)).
  { intros Hcl. unfold p. rewrite (inv_closed _ _ HI Hcl). cbn [reg_pass fst snd].
    rewrite <- (inv_closed _ _ HI Hcl). symmetry. apply upd_same. }
  destruct (st_panic st) eqn:Hp; [apply Hnil, (inv_panic _ _ HI Hp)|]. destruct (st_closed st); [now apply Hnil|].
  rewrite tick_pass_eq. fold p. now destruct p.
Qed.

Lemma tick_step_find cfg st o id :
  0 <= cfg_ttl cfg -> cm_inv cfg st ->
  let st' := cm_step cfg st ETick o in
  let res := on_find (tick_one cfg o) (cm_find (st_reg st) id) in
  cm_find (st_reg st') id = fst res
  /\ start_count st' id = (start_count st id + cm_count (cm_is_start_of id) (snd res))%nat.
Proof.
  intros Hq HI st' res. unfold st', start_count. rewrite (tick_step_eq cfg st o HI). cbn [cm_upd st_reg st_log].
  destruct (reg_pass_proj cfg _ _ (tick_one_pass_ok cfg o Hq) (inv_ok _ _ HI)) as [_ Hp]. destruct (Hp id) as [H1 H2].
  rewrite count_app, (start_calls_of id (snd _)), H2. now split.
Qed.

Lemma count_start_one id o : cm_count (cm_is_start_of id) [CStart id o] = 1%nat.
Proof. unfold cm_count. cbn [filter cm_is_start_of]. now rewrite Nat.eqb_refl. Qed.

Lemma waiting_find cfg st id :
  cm_inv cfg st -> cm_waiting st id = true ->
  exists e, cm_find (st_reg st) id = Some e /\ e_inst e = id /\ cm_active e = false.
Proof.
  intros HI Hw. unfold cm_waiting in Hw. destruct (cm_find (st_reg st) id) as [e|] eqn:Hfind; [|discriminate].
  exists e. destruct (find_elem_ok _ _ _ _ (inv_ok _ _ HI) Hfind) as [Hid _]. now apply negb_true_iff in Hw.
Qed.

Lemma ticks_perm cfg id os st :
  0 <= cfg_ttl cfg -> ad_perm (cm_ad cfg id) = true -> cm_inv cfg st ->
  cm_waiting st id = true -> Forall (fun o => cm_orc o id = SFailRetry) os ->
  let st' := cm_run_from cfg st (cm_ticks os) in
  cm_waiting st' id = true /\ start_count st' id = (start_count st id + length os)%nat.
Proof.
  intros Hq Hperm. revert st. induction os as [|o os IH]; intros st HI Hw Hall st'.
  - unfold st'. cbn. split; [exact Hw|lia].
  - inversion Hall as [|? ? Ho Hall']; subst.
    unfold st'. cbn [cm_ticks map cm_run_from fold_left fst snd].
    pose proof (tick_step_find cfg st o id Hq HI) as [Hf Hc]. cbn zeta in Hf, Hc.
    destruct (waiting_find _ _ _ HI Hw) as (e & Hfind & Hid & Ha). rewrite Hfind in Hf, Hc.
    unfold on_find, tick_one, cm_activate in Hf, Hc. rewrite Ha, Hid, Hperm, Ho, andb_false_r in Hf, Hc.
    cbn [fst snd negb andb] in Hf, Hc. rewrite count_start_one in Hc.
    assert (Hw' : cm_waiting (cm_step cfg st ETick o) id = true).
    { unfold cm_waiting. rewrite Hf. unfold cm_active in *. cbn [e_ttl]. apply negb_true_iff.
      apply Z.ltb_ge in Ha. apply Z.ltb_ge. destruct (Z.ltb_spec 0 (e_ttl e)); lia. }
    destruct (IH (cm_step cfg st ETick o) (step_inv _ _ _ _ Hq HI) Hw' Hall') as [H1 H2].
    split; [exact H1|]. unfold cm_run_from, cm_ticks in H2. rewrite H2, Hc. cbn [length]. lia.
Qed.

Lemma tick_perm_starts cfg id o st :
  0 <= cfg_ttl cfg -> ad_perm (cm_ad cfg id) = true -> cm_inv cfg st ->
  cm_waiting st id = true -> cm_orc o id = SOk ->
  cm_started (st_log (cm_step cfg st ETick o)) id = true.
Proof.
  intros Hq Hperm HI Hw Ho.
  pose proof (tick_step_find cfg st o id Hq HI) as [Hf _]. cbn zeta in Hf.
  destruct (waiting_find _ _ _ HI Hw) as (e & Hfind & Hid & Ha). rewrite Hfind in Hf.
  unfold on_find, tick_one, cm_activate in Hf. rewrite Ha, Hid, Hperm, Ho, andb_false_r in Hf. cbn [fst negb andb] in Hf.
  pose proof (step_inv _ _ ETick o Hq HI) as HI'.
  now rewrite (inv_sync _ _ HI'), (reg_act_find cfg _ _ (inv_ok _ _ HI')), Hf.
Qed.

(* non-permanent: the failing starts its budget still allows, and the retry passes until it is forgotten:
   one more, since the pass that finds the budget used up drops the element without a Start *)
Definition starts_left (st : cm_state) (id : nat) : nat :=
  match cm_find (st_reg st) id with
  | Some e => if cm_active e then 0%nat else Z.to_nat (e_ttl e)
  | None => 0%nat
  end.
Definition passes_left (st : cm_state) (id : nat) : nat :=
  match cm_find (st_reg st) id with
  | Some e => if cm_active e then 0%nat else S (Z.to_nat (e_ttl e))
  | None => 0%nat
  end.

Lemma tick_nonperm cfg st o id :
  0 <= cfg_ttl cfg -> cm_inv cfg st ->
  ad_perm (cm_ad cfg id) = false -> cm_orc o id <> SOk ->
  let st' := cm_step cfg st ETick o in
  (start_count st' id + starts_left st' id <= start_count st id + starts_left st id)%nat
  /\ (passes_left st' id <= pred (passes_left st id))%nat.
Proof.
  intros Hq HI Hperm Ho st'.
  pose proof (tick_step_find cfg st o id Hq HI) as [Hf Hc]. cbn zeta in Hf, Hc. fold st' in Hf, Hc.
  unfold starts_left, passes_left. rewrite Hf, Hc.
  destruct (cm_find (st_reg st) id) as [e|] eqn:Hfind; cbn [on_find fst snd]; [|split; cbn; lia].
  destruct (find_elem_ok _ _ _ _ (inv_ok _ _ HI) Hfind) as [Hid _].
  unfold tick_one. destruct (cm_active e) eqn:Ha.
  { cbn [fst snd]. rewrite Ha. cbn. split; lia. }
  rewrite Hid, Hperm. unfold cm_activate. rewrite Ha. cbn [negb]. rewrite andb_true_r.
  unfold cm_active in Ha. apply Z.ltb_ge in Ha.
  destruct (Z.eqb_spec (e_ttl e) 0) as [Hz|Hnz].
  { cbn. split; lia. }
  destruct (cm_orc o id); [congruence| |]; cbn [fst snd negb andb]; rewrite Hid, count_start_one.
  - unfold cm_active. cbn [e_ttl].
    destruct (Z.ltb_spec 0 (e_ttl e)); [|lia].
    destruct (Z.ltb_spec (e_ttl e - 1) 0); [lia|]. split; lia.
  - split; lia.
Qed.

Lemma ticks_nonperm cfg id :
  0 <= cfg_ttl cfg -> ad_perm (cm_ad cfg id) = false ->
  forall os st0, cm_inv cfg st0 -> Forall (fun o => cm_orc o id <> SOk) os ->
  let st1 := cm_run_from cfg st0 (cm_ticks os) in
  (start_count st1 id + starts_left st1 id <= start_count st0 id + starts_left st0 id)%nat
  /\ (passes_left st1 id <= passes_left st0 id - length os)%nat.
Proof.
  intros Hq Hperm os. induction os as [|o os IH]; intros st0 HI0 Hall0 st1.
  - unfold st1. cbn. split; lia.
  - inversion Hall0 as [|? ? Ho Hall0']; subst.
    destruct (tick_nonperm cfg st0 o id Hq HI0 Hperm Ho) as [H1 H2].
    destruct (IH (cm_step cfg st0 ETick o) (step_inv _ _ _ _ Hq HI0) Hall0') as [H3 H4].
    unfold st1.
    change (cm_run_from cfg st0 (cm_ticks (o :: os)))
      with (cm_run_from cfg (cm_step cfg st0 ETick o) (cm_ticks os)).
    cbn [length]. split; lia.
Qed.

Lemma budget_bound cfg st id :
  cm_inv cfg st ->
  (starts_left st id <= Z.to_nat (cfg_ttl cfg))%nat /\ (passes_left st id <= S (Z.to_nat (cfg_ttl cfg)))%nat.
Proof.
  intros HI. unfold starts_left, passes_left. destruct (cm_find (st_reg st) id) as [e|] eqn:Hfind; [|split; lia].
  destruct (find_elem_ok _ _ _ _ (inv_ok _ _ HI) Hfind) as [_ (k & _ & _ & Hle)]. cbn [snd] in Hle.
  destruct (cm_active e); split; lia.
Qed.

Lemma passes_left_zero cfg st id :
  cm_inv cfg st -> passes_left st id = 0%nat ->
  cm_waiting st id = false /\ (cm_started (st_log st) id = false -> cm_in_registry st id = false).
Proof.
  intros HI Hz. unfold passes_left in Hz. unfold cm_waiting, cm_in_registry.
  rewrite (inv_sync _ _ HI), (reg_act_find cfg _ _ (inv_ok _ _ HI)).
  destruct (cm_find (st_reg st) id) as [e|] eqn:Hfind.
  - destruct (cm_active e); [|discriminate]. split; [reflexivity|discriminate].
  - split; [reflexivity|]. intros _. fold (reg_has (st_reg st) id). now apply find_none_has.
Qed.
