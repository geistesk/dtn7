(* ScfProofs.v - invariants of the store-carry-forward model (Model/Scf.v) behind C05.
   The central one is [scf_holds s b rx outs], for a bundle [b] accepted at time [rx] and the outputs [outs]
   produced since.  Every event preserves it as long as the bundle is alive, was not refused for cause, and
   no *final* successful transmission happened (any successful one; under the epidemic selection only one to
   the destination node ends the obligation). *)
From DTN Require Import Base ListFacts Scf.

Lemma scf_mem_In : forall x l, scf_mem x l = true <-> In x l.
Proof.
  induction l as [|y r IH]; cbn [scf_mem In].
  - split; [discriminate | tauto].
  - rewrite orb_true_iff, IH, N.eqb_eq. split; intros [H|H]; auto.
Qed.

Lemma scf_mem_false : forall x l, scf_mem x l = false <-> ~ In x l.
Proof. intros x l. rewrite <- scf_mem_In. destruct (scf_mem x l); split; congruence. Qed.

Lemma scf_incl_spec : forall a b, scf_incl a b = true -> forall x, In x a -> In x b.
Proof.
  unfold scf_incl. intros a b H x Hx. rewrite forallb_forall in H.
  apply scf_mem_In. auto.
Qed.

Lemma scf_same_set_spec : forall a b, scf_same_set a b = true -> forall x, In x a <-> In x b.
Proof.
  unfold scf_same_set. intros a b H x. apply andb_true_iff in H as [H1 H2].
  split; apply scf_incl_spec; assumption.
Qed.

Lemma scf_fresh_In : forall p peers sent, In p (scf_fresh peers sent) <-> In p peers /\ ~ In p sent.
Proof.
  intros. unfold scf_fresh. rewrite filter_In, negb_true_iff, scf_mem_false. tauto.
Qed.

Lemma scf_direct_In : forall p peers b, In p (scf_direct peers b) <-> In p peers /\ p = sb_dst b.
Proof.
  intros. unfold scf_direct. rewrite filter_In, N.eqb_eq. intuition congruence.
Qed.

Lemma scf_add_peer_In : forall p q l, In q (scf_add_peer p l) <-> q = p \/ In q l.
Proof.
  intros. unfold scf_add_peer. destruct (scf_mem p l) eqn:E.
  - apply scf_mem_In in E. split; [tauto|]. intros [->|H]; auto.
  - rewrite in_app_iff. cbn [In]. intuition.
Qed.

Lemma scf_outs_In : forall id a p ok,
  In (ScfSent p id ok) (scf_outs id a) <-> In (p, ok) (at_sends a).
Proof.
  intros. unfold scf_outs. rewrite in_map_iff. split.
  - intros [[p' ok'] [[= -> ->] H]]. exact H.
  - intros H. exists (p, ok). split; auto.
Qed.

Lemma scf_chosen_In : forall a p, In p (map fst (at_sends a)) <-> exists ok, In (p, ok) (at_sends a).
Proof.
  intros a p. rewrite in_map_iff. split.
  - intros [[p' ok] [<- H]]. eauto.
  - intros [ok H]. exists (p, ok). auto.
Qed.

Lemma scf_failed_In : forall a p, In p (scf_failed a) <-> In (p, false) (at_sends a).
Proof.
  intros. unfold scf_failed. rewrite in_map_iff. split.
  - intros [[p' ok] [<- H]]. apply filter_In in H as [H Hok]. cbn in *. now destruct ok.
  - intros H. exists (p, false). split; auto. apply filter_In. auto.
Qed.

Lemma scf_existsb_ok : forall l : list (N * bool), existsb snd l = true <-> exists p, In (p, true) l.
Proof.
  intros. rewrite existsb_exists. split.
  - intros [[p ok] [H1 H2]]. cbn in H2. subst. eauto.
  - intros [p H]. exists (p, true). auto.
Qed.

Lemma scf_sel_ok_final : forall alg peers it a p,
  scf_sel_ok alg peers it a = true -> In (p, true) (at_sends a) -> at_del a = true ->
  sa_exact alg = false \/ p = sb_dst (si_b it).
Proof.
  intros alg peers it a p Hsel Hp Hdel. unfold scf_sel_ok in Hsel. apply andb_true_iff in Hsel as [_ Hsel].
  assert (Hany : existsb snd (at_sends a) = true) by (apply scf_existsb_ok; eauto).
  rewrite Hany, Hdel in Hsel.
  destruct (scf_direct peers (si_b it)) eqn:Hd.
  - destruct (sa_exact alg); [|now left]. rewrite andb_false_r in Hsel. discriminate.
  - right. apply andb_true_iff in Hsel as [Hsame _]. rewrite <- Hd in Hsame.
    assert (Hpc : In p (map fst (at_sends a))) by (apply scf_chosen_In; eauto).
    apply (scf_same_set_spec _ _ Hsame), scf_direct_In in Hpc. tauto.
Qed.

Lemma scf_sel_ok_chosen : forall alg peers it a p,
  scf_sel_ok alg peers it a = true -> In p (scf_fresh peers (si_sent it)) ->
  p = sb_dst (si_b it) \/ (sa_exact alg = true /\ ~ In (sb_dst (si_b it)) peers) ->
  In p (map fst (at_sends a)).
Proof.
  intros alg peers it a p Hsel Hfresh Hwhy. unfold scf_sel_ok in Hsel. apply andb_true_iff in Hsel as [_ Hsel].
  destruct Hwhy as [Hpd | [Hex Hnd]].
  - assert (Hin : In p (scf_direct peers (si_b it))).
    { apply scf_direct_In. apply scf_fresh_In in Hfresh. tauto. }
    destruct (scf_direct peers (si_b it)) eqn:Hdir; [destruct Hin|]. rewrite <- Hdir in Hsel.
    apply andb_true_iff in Hsel as [Hsame _]. apply (scf_same_set_spec _ _ Hsame). rewrite Hdir. exact Hin.
  - destruct (scf_direct peers (si_b it)) as [|d l] eqn:Hdir.
    + rewrite Hex in Hsel. apply andb_true_iff in Hsel as [Hsame _].
      apply (scf_same_set_spec _ _ Hsame). exact Hfresh.
    + exfalso. apply Hnd. assert (Hin : In d (scf_direct peers (si_b it))) by (rewrite Hdir; now left).
      apply scf_direct_In in Hin as [Hin <-]. exact Hin.
Qed.

(* [b], accepted at [rx], has not come to the end of its life at [now]: not by creation time + lifetime, not by
   its age block (the age grows by [k] for every millisecond since [rx], as [scf_age_exceeded] reckons it),
   and not by the store's own expiry instant, by which SeTickClean sweeps *)
Definition scf_alive (k : N) (b : scf_bundle) (rx now : N) : Prop :=
  rx <= now /\
  scf_life_exceeded b now = false /\
  match sb_age b with Some a => a + k * (now - rx) < sb_life b | None => True end /\
  now <= scf_expiry b rx.

Definition scf_no_final (alg : salg) (b : scf_bundle) (outs : list soutput) : Prop :=
  forall p, sa_exact alg = false \/ p = sb_dst b -> ~ In (ScfSent p (sb_id b) true) outs.

Lemma scf_no_final_incl : forall alg b o1 o2, incl o1 o2 -> scf_no_final alg b o2 -> scf_no_final alg b o1.
Proof. unfold scf_no_final. intros alg b o1 o2 Hi H p Hf Hin. apply (H p Hf). apply Hi. exact Hin. Qed.

Lemma scf_no_final_app : forall alg b o1 o2,
  scf_no_final alg b (o1 ++ o2) -> scf_no_final alg b o1 /\ scf_no_final alg b o2.
Proof.
  intros alg b o1 o2 H. split; (eapply scf_no_final_incl; [|exact H]); [apply incl_appl|apply incl_appr]; apply incl_refl.
Qed.

Definition scf_no_ok (b : scf_bundle) (outs : list soutput) : Prop :=
  forall p, ~ In (ScfSent p (sb_id b) true) outs.

Lemma scf_no_ok_no_final : forall alg b outs, scf_no_ok b outs -> scf_no_final alg b outs.
Proof. unfold scf_no_ok, scf_no_final. auto. Qed.

Lemma scf_exact_no_final : forall alg b outs,
  sa_exact alg = true -> ~ In (ScfSent (sb_dst b) (sb_id b) true) outs -> scf_no_final alg b outs.
Proof. intros alg b outs Hex Hno p [Hf | ->]; [congruence | exact Hno]. Qed.

(* The item that holds [b].  It may be younger than the acceptance at [rx]: a reception that finds the item
   without a stored constraint deletes it and files the bundle anew (SeReceive; the lemmas hold from any state,
   so they cover that branch).  Hence [rx <= si_rx it] and an expiry reckoned from [si_rx it]; that it is not
   before the expiry of an item created at [rx] is scf_expiry_mono. *)
Definition scf_item_ok (b : scf_bundle) (rx : N) (outs : list soutput) (it : scf_item) : Prop :=
  si_b it = b /\ rx <= si_rx it /\ si_expires it = scf_expiry b (si_rx it) /\ si_pending it = true /\
  si_le it = false /\
  (forall q, In q (si_sent it) -> sb_prev b = Some q \/ In (ScfSent q (sb_id b) true) outs).

Definition scf_holds (s : scf_state) (b : scf_bundle) (rx : N) (outs : list soutput) : Prop :=
  exists it, In it (ss_items s) /\ scf_item_ok b rx outs it.

(* the statement of the property: in the store, marked for retry *)
Definition scf_retained (s : scf_state) (b : scf_bundle) : Prop :=
  exists it, In it (ss_items s) /\ si_b it = b /\ si_pending it = true.

(* equal bundle IDs mean equal bundles: what a peer delivers under the ID of [b] is [b] *)
Definition scf_same_id_same_bundle (b : scf_bundle) (e : scf_event) : Prop :=
  match e with
  | SeReceive b0 _ => sb_id b0 = sb_id b -> b0 = b
  | _ => True
  end.

Definition scf_accepts (s : scf_state) (e : scf_event) (b : scf_bundle) : Prop :=
  scf_find_item (sb_id b) (ss_items s) = None /\
  ((e = SeSubmit b /\ sb_local b = true) \/ (exists from, e = SeReceive b from)).

Definition scf_ev_ok (k : N) (b : scf_bundle) (rx : N) (eo : scf_event * soracle) : Prop :=
  scf_alive k b rx (or_now (snd eo)) /\ scf_same_id_same_bundle b (fst eo).

Lemma scf_holds_retained : forall s b rx outs, scf_holds s b rx outs -> scf_retained s b.
Proof. intros s b rx outs [it [Hin [Hb [_ [_ [Hp _]]]]]]. exists it. auto. Qed.

Lemma scf_item_ok_mono : forall b rx outs outs' it,
  incl outs outs' -> scf_item_ok b rx outs it -> scf_item_ok b rx outs' it.
Proof.
  intros b rx outs outs' it Hi (H1 & H2 & H3 & H4 & H5 & H6). repeat split; auto.
  intros q Hq. destruct (H6 q Hq); auto.
Qed.

Lemma scf_set_ok : forall b rx outs outs' it dp fp ci sent,
  scf_item_ok b rx outs it ->
  (forall q, In q sent -> sb_prev b = Some q \/ In (ScfSent q (sb_id b) true) outs') ->
  scf_item_ok b rx outs' (scf_set it true dp fp ci (si_le it) sent).
Proof.
  intros b rx outs outs' it dp fp ci sent (H1 & H2 & H3 & _ & H5 & _) Hj.
  unfold scf_item_ok. cbn. auto 6.
Qed.

Lemma scf_sync_ok : forall b rx outs it,
  scf_item_ok b rx outs it -> scf_unpersisted it = false -> scf_item_ok b rx outs (scf_sync it).
Proof.
  intros b rx outs it Hok Hu.
  (* LocalEndpoint is not set, so one of the constraints from which Sync computes Pending is *)
  assert (Hp : si_fp it || si_ci it || si_dp it = true).
  { destruct Hok as (_ & _ & _ & _ & H5 & _). unfold scf_unpersisted in Hu.
    rewrite H5, orb_false_r in Hu. apply negb_false_iff in Hu.
    destruct (si_dp it), (si_fp it), (si_ci it); auto. }
  unfold scf_sync. rewrite Hp. apply (scf_set_ok b rx outs); [exact Hok | apply Hok].
Qed.

(* the item an accepted bundle is filed as (NotifyNewBundle has put the previous node into `sent`) *)
Lemma scf_new_item_ok : forall b rx now outs, rx <= now ->
  let it0 := scf_new_item b now in
  scf_item_ok b rx outs (scf_sync (scf_set it0 false true false false false (si_sent it0))).
Proof.
  intros b rx now outs Hle. unfold scf_item_ok. cbn. repeat split; auto.
  intros q Hq. left. destruct (sb_prev b); cbn in Hq; intuition congruence.
Qed.

Lemma scf_sent_after_just : forall peers it a b rx outs,
  scf_item_ok b rx outs it ->
  forall q, In q (scf_sent_after peers it a) ->
    sb_prev b = Some q \/ In (ScfSent q (sb_id b) true) (outs ++ scf_outs (sb_id b) a).
Proof.
  intros peers it a b rx outs (_ & _ & _ & _ & _ & Hj) q Hq.
  unfold scf_sent_after in Hq. apply filter_In in Hq as [Hq Hnf].
  apply negb_true_iff, scf_mem_false in Hnf.
  assert (Hcases : In q (si_sent it) \/ In q (map fst (at_sends a))).
  { destruct (scf_direct peers (si_b it)); [apply in_app_or in Hq|]; tauto. }
  destruct Hcases as [Hs | Hc].
  - destruct (Hj q Hs); auto. right. apply in_or_app. auto.
  - apply scf_chosen_In in Hc as [[|] Hok].
    + right. apply in_or_app. right. apply scf_outs_In. exact Hok.
    + exfalso. apply Hnf. apply scf_failed_In. exact Hok.
Qed.

Lemma scf_expiry_mono : forall b rx rx', rx <= rx' -> scf_expiry b rx <= scf_expiry b rx'.
Proof. intros b rx rx' H. unfold scf_expiry. destruct (sb_ts b =? 0); [destruct (sb_age b)|]; lia. Qed.

Lemma scf_alive_again : forall k b rx now, scf_alive k b rx now -> scf_alive k b now now.
Proof.
  intros k b rx now (Hle & Hl & Ha & He). unfold scf_alive. repeat split; auto; try lia.
  - destruct (sb_age b) as [a|]; auto. rewrite N.sub_diag, N.mul_0_r. lia.
  - pose proof (scf_expiry_mono b rx now Hle). lia.
Qed.

Lemma scf_check_pending_item : forall alg k o peers items items' outs it,
  scf_check_pending alg k o peers items = Some (items', outs) -> In it items -> si_pending it = true ->
  exists res o1,
    scf_dispatch alg k (or_now o) true peers it (scf_find_att (sb_id (si_b it)) (or_att o)) = Some (res, o1)
    /\ incl o1 outs /\ (forall it', res = Some it' -> In it' items').
Proof.
  induction items as [|x r IH]; intros items' outs it Hc Hin Hp; [destruct Hin|].
  cbn [scf_check_pending] in Hc.
  destruct (scf_check_pending alg k o peers r) as [[r' outs']|] eqn:Hr; [|discriminate].
  destruct Hin as [-> | Hin].
  - rewrite Hp in Hc.
    destruct (scf_dispatch alg k (or_now o) true peers it (scf_find_att (sb_id (si_b it)) (or_att o)))
      as [[res o1]|]; [|discriminate].
    exists res, o1. split; [reflexivity|].
    destruct res; injection Hc as <- <-; (split; [apply incl_appl, incl_refl|]); intros it' [= <-]. now left.
  - destruct (IH r' outs' it eq_refl Hin Hp) as (res & o1 & Hd & Hincl & Hres).
    exists res, o1. split; [exact Hd|].
    (* what the head item adds comes in front of [outs'], and [r'] is a tail of [items'] *)
    assert (Hrest : incl outs' outs /\ incl r' items').
    { destruct (si_pending x).
      - destruct (scf_dispatch alg k (or_now o) true peers x (scf_find_att (sb_id (si_b x)) (or_att o)))
          as [[[x'|] ox]|]; [| |discriminate]; injection Hc as <- <-;
          auto using incl_appr, incl_tl, incl_refl.
      - destruct (at_sends (scf_find_att (sb_id (si_b x)) (or_att o))); [|discriminate].
        injection Hc as <- <-. auto using incl_tl, incl_refl. }
    destruct Hrest as [Ho Hi]. split; [exact (incl_tran Hincl Ho)|]. intros it' E. apply Hi, Hres, E.
Qed.

Lemma scf_resync_In : forall id items it,
  In it items -> In (if scf_has_id id it then scf_sync it else it) (scf_resync id items).
Proof.
  induction items as [|x r IH]; intros it Hin; [destruct Hin|].
  cbn [scf_resync]. destruct Hin as [-> | Hin].
  - destruct (scf_has_id id it); left; reflexivity.
  - destruct (scf_has_id id x); right; auto.
Qed.

Lemma scf_accept_items : forall alg k o s b0 sub st s' outs it,
  scf_accept alg k o s b0 sub st = Some (s', outs) -> In it (ss_items s) -> In it (ss_items s').
Proof.
  intros alg k o s b0 sub st s' outs it Ha Hin. unfold scf_accept in Ha.
  destruct (if sub then negb (sb_local b0) else sb_del b0).
  - destruct (at_sends (scf_find_att (sb_id b0) (or_att o))); [|discriminate]. injection Ha as <- _. exact Hin.
  - destruct (scf_dispatch _ _ _ _ _ _ _) as [[oit o1]|]; [|discriminate].
    injection Ha as <- _. cbn. destruct oit; cbn; auto.
Qed.

Section Kept.
Variables (alg : salg) (k : N) (b : scf_bundle).
Hypotheses (Hdst : sb_dst b <> 0) (Hhop : scf_hop_exceeded b = false).

Lemma scf_alive_not_refused : forall rx now outs it,
  scf_item_ok b rx outs it -> scf_alive k b rx now -> scf_refused k it now = false.
Proof.
  intros rx now outs it (Hb & Hrx & _) (_ & Hl & Ha & _).
  unfold scf_refused. rewrite Hb, Hhop, Hl. cbn [orb].
  unfold scf_age_exceeded. rewrite Hb. destruct (sb_age b) as [a|]; auto.
  apply N.leb_gt.
  assert (k * (now - si_rx it) <= k * (now - rx)) by (apply N.mul_le_mono_l; lia).
  lia.
Qed.

Section Dispatch.
Variables (now : N) (loaded : bool) (peers : list N) (it : scf_item) (a : sattempt).
Variables (rx : N) (outs : list soutput) (res : option scf_item) (o1 : list soutput).
Hypotheses (Hok : scf_item_ok b rx outs it) (Hal : scf_alive k b rx now).
Hypothesis Hd : scf_dispatch alg k now loaded peers it a = Some (res, o1).

Lemma scf_dispatch_live :
  (scf_fresh peers (si_sent it) = [] /\ o1 = [] /\
   res = Some (scf_set it true (si_dp it) (si_fp it) (si_ci it) (si_le it) (si_sent it)))
  \/ (scf_sel_ok alg peers it a = true /\ o1 = scf_outs (sb_id b) a /\
      (existsb snd (at_sends a) && at_del a = false ->
       res = Some (scf_set it true false true true (si_le it) (scf_sent_after peers it a)))).
Proof.
  pose proof (scf_alive_not_refused _ _ _ _ Hok Hal) as Hnr.
  pose proof Hok as (Hb & _). pose proof Hal as (_ & Hl & _). pose proof Hd as Hd'.
  unfold scf_dispatch in Hd'. rewrite Hb, Hl, (proj2 (N.eqb_neq _ _) Hdst), andb_false_r in Hd'.
  destruct (sa_gate alg && negb false && match scf_fresh peers (si_sent it) with [] => true | _ => false end) eqn:Hg.
  - left. destruct (scf_fresh peers (si_sent it)); [|rewrite andb_false_r in Hg; discriminate].
    destruct (at_sends a); [|discriminate]. injection Hd' as <- <-. auto.
  - right. unfold scf_forward in Hd'. rewrite Hnr, Hb in Hd'.
    destruct (scf_sel_ok alg peers it a); [|discriminate].
    destruct (existsb snd (at_sends a) && at_del a); injection Hd' as <- <-; repeat split; auto; discriminate.
Qed.

Lemma scf_dispatch_keeps :
  scf_no_final alg b o1 -> exists it', res = Some it' /\ scf_item_ok b rx (outs ++ o1) it'.
Proof.
  intros Hnofin. destruct scf_dispatch_live as [(_ & -> & ->) | (Hsel & -> & Hres)].
  - eexists. split; [reflexivity|]. rewrite app_nil_r. eapply scf_set_ok; [exact Hok | apply Hok].
  - destruct (existsb snd (at_sends a) && at_del a) eqn:Hfin.
    + exfalso. apply andb_true_iff in Hfin as [Hany Hdel]. apply scf_existsb_ok in Hany as [p Hp].
      apply (Hnofin p); [|apply scf_outs_In; exact Hp].
      rewrite <- (proj1 Hok). exact (scf_sel_ok_final _ _ _ _ _ Hsel Hp Hdel).
    + rewrite (Hres eq_refl). eexists. split; [reflexivity|].
      eapply scf_set_ok; [exact Hok | exact (scf_sent_after_just peers it a b rx outs Hok)].
Qed.

Lemma scf_dispatch_sends : forall p, In p peers -> ~ In p (si_sent it) ->
  (p = sb_dst b \/ (sa_exact alg = true /\ ~ In (sb_dst b) peers)) ->
  exists ok, In (ScfSent p (sb_id b) ok) o1.
Proof.
  intros p Hp Hns Hwhy.
  assert (Hfresh : In p (scf_fresh peers (si_sent it))) by (apply scf_fresh_In; auto).
  destruct scf_dispatch_live as [(Hnone & _) | (Hsel & -> & _)].
  - rewrite Hnone in Hfresh. destruct Hfresh.
  - rewrite <- (proj1 Hok) in Hwhy.
    apply (scf_sel_ok_chosen _ _ _ _ _ Hsel Hfresh), scf_chosen_In in Hwhy as [ok Hsent].
    exists ok. apply scf_outs_In. exact Hsent.
Qed.
End Dispatch.

Lemma scf_check_pending_keeps : forall o peers items items' outs rx outs0 it,
  scf_check_pending alg k o peers items = Some (items', outs) ->
  In it items -> scf_item_ok b rx outs0 it -> scf_alive k b rx (or_now o) -> scf_no_final alg b outs ->
  exists it', In it' items' /\ scf_item_ok b rx (outs0 ++ outs) it'.
Proof.
  intros o peers items items' outs rx outs0 it Hc Hin Hok Hal Hnf.
  destruct (scf_check_pending_item _ _ _ _ _ _ _ it Hc Hin) as (res & o1 & Hd & Hincl & Hres); [apply Hok|].
  destruct (scf_dispatch_keeps _ _ _ _ _ _ _ _ _ Hok Hal Hd) as (it' & -> & Hok').
  { eapply scf_no_final_incl; eauto. }
  exists it'. split; [auto|]. eapply scf_item_ok_mono; [|exact Hok'].
  apply incl_app; [apply incl_appl, incl_refl|apply incl_appr, Hincl].
Qed.

(* the acceptance of [b] itself (for the first time, or anew after the handler's Sync deleted the item) *)
Lemma scf_accept_holds : forall o s (sub : bool) s' outs rx outs0,
  (if sub then negb (sb_local b) else sb_del b) = false ->
  scf_accept alg k o s b sub true = Some (s', outs) ->
  scf_alive k b rx (or_now o) -> scf_no_final alg b outs ->
  scf_holds s' b rx (outs0 ++ outs).
Proof.
  intros o s sub s' outs rx outs0 Hcond Ha Hal Hnf.
  unfold scf_accept in Ha. rewrite Hcond in Ha.
  destruct (scf_dispatch _ _ _ _ _ _ _) as [[oit o1]|] eqn:Hd; [|discriminate]. injection Ha as <- <-.
  destruct (scf_dispatch_keeps _ _ _ _ _ _ _ _ _ (scf_new_item_ok b rx _ outs0 (proj1 Hal)) Hal Hd Hnf)
    as (it' & -> & Hok').
  exists it'. split; [now left|exact Hok'].
Qed.

Lemma scf_step_keeps : forall s e o s' outs rx outs0,
  scf_step alg k s e o = Some (s', outs) ->
  scf_holds s b rx outs0 -> sb_del b = false ->
  scf_alive k b rx (or_now o) -> scf_same_id_same_bundle b e -> scf_no_final alg b outs ->
  scf_holds s' b rx (outs0 ++ outs).
Proof.
  intros s e o s' outs rx outs0 Hs [it [Hin Hok]] Hdel Hal Hsame Hnf.
  pose proof (scf_item_ok_mono b rx outs0 (outs0 ++ outs) it (incl_appl _ (incl_refl _)) Hok) as Hok'.
  assert (Hother : forall s0 b0 sub, scf_accept alg k o s0 b0 sub true = Some (s', outs) ->
                     In it (ss_items s0) -> scf_holds s' b rx (outs0 ++ outs)).
  { intros s0 b0 sub Ha Hin0. exists it. split; [exact (scf_accept_items _ _ _ _ _ _ _ _ _ _ Ha Hin0)|exact Hok']. }
  assert (Hpending : forall peers items', scf_check_pending alg k o peers (ss_items s) = Some (items', outs) ->
                       exists it', In it' items' /\ scf_item_ok b rx (outs0 ++ outs) it').
  { intros peers items' Hc. exact (scf_check_pending_keeps _ _ _ _ _ _ _ _ Hc Hin Hok Hal Hnf). }
  destruct e as [b0 | b0 from | p | p | | | ]; cbn [scf_step] in Hs.
  - (* SeSubmit *) destruct (scf_find_item (sb_id b0) (ss_items s)); [discriminate|eauto].
  - (* SeReceive *) destruct (scf_find_item (sb_id b0) (ss_items s)); [|eauto].
    destruct (existsb (fun it0 => scf_has_id (sb_id b0) it0 && scf_unpersisted it0) (ss_items s)) eqn:Hex.
    + (* no stored constraint: deleted by the descriptor's Sync and processed as new *)
      destruct (scf_has_id (sb_id b0) it) eqn:Hid.
      * apply N.eqb_eq in Hid.
        assert (Hb0 : b0 = b) by (apply Hsame; rewrite Hid, (proj1 Hok); reflexivity).
        subst b0. exact (scf_accept_holds o _ false s' outs rx outs0 Hdel Hs Hal Hnf).
      * apply (Hother _ _ _ Hs). cbn. apply filter_In. rewrite Hid. auto.
    + injection Hs as <- <-. cbn.
      eexists. split; [apply scf_resync_In; exact Hin|].
      destruct (scf_has_id (sb_id b0) it) eqn:Hid; [|exact Hok'].
      apply scf_sync_ok; [exact Hok'|].
      destruct (scf_unpersisted it) eqn:Hu; [|reflexivity].
      rewrite <- Hex. symmetry. apply existsb_exists. exists it. rewrite Hid, Hu. auto.
  - (* ScPeerUp *)
    destruct (scf_check_pending _ _ _ _ _) as [[items' outs']|] eqn:Hc; [|discriminate].
    injection Hs as <- <-. exact (Hpending _ _ Hc).
  - (* ScPeerDown *) injection Hs as <- <-. exists it. auto.
  - (* SeTickPending *)
    destruct (scf_check_pending _ _ _ _ _) as [[items' outs']|] eqn:Hc; [|discriminate].
    injection Hs as <- <-. exact (Hpending _ _ Hc).
  - (* SeTickClean: the item's expiry is not before that of an item created at [rx] *)
    injection Hs as <- <-. exists it. split; [|exact Hok'].
    apply filter_In. split; [exact Hin|].
    destruct Hok as (_ & Hrx & Hex & _). destruct Hal as (_ & _ & _ & Hlive).
    rewrite Hex. apply negb_true_iff, N.ltb_ge. pose proof (scf_expiry_mono b rx _ Hrx). lia.
  - (* SeRestart *) injection Hs as <- <-. exists it. auto.
Qed.

Lemma scf_step_accepts : forall s e o s' outs,
  scf_step alg k s e o = Some (s', outs) -> scf_accepts s e b -> sb_del b = false ->
  scf_alive k b (or_now o) (or_now o) -> scf_no_final alg b outs ->
  scf_holds s' b (or_now o) outs.
Proof.
  intros s e o s' outs Hs [Hnew Hacc] Hdel Hal Hnf.
  destruct Hacc as [[-> Hloc] | [from ->]]; cbn [scf_step] in Hs; rewrite Hnew in Hs.
  - apply (scf_accept_holds o s true s' outs (or_now o) []); auto. rewrite Hloc. reflexivity.
  - apply (scf_accept_holds o s false s' outs (or_now o) []); auto.
Qed.

Lemma scf_run_keeps : forall post s s' outs rx outs0,
  scf_run alg k s post = Some (s', outs) ->
  scf_holds s b rx outs0 -> sb_del b = false -> Forall (scf_ev_ok k b rx) post -> scf_no_final alg b outs ->
  scf_holds s' b rx (outs0 ++ outs).
Proof.
  induction post as [|[e o] r IH]; intros s s' outs rx outs0 Hr Hh Hdel Hal Hnf.
  - injection Hr as <- <-. rewrite app_nil_r. exact Hh.
  - cbn [scf_run] in Hr.
    destruct (scf_step alg k s e o) as [[s1 o1]|] eqn:Hs; [|discriminate].
    destruct (scf_run alg k s1 r) as [[s2 o2]|] eqn:Hr2; [|discriminate].
    injection Hr as <- <-.
    inversion Hal as [|? ? [Ha1 Ha1'] Ha2]; subst. destruct (scf_no_final_app _ _ _ _ Hnf) as [Hn1 Hn2].
    rewrite app_assoc. eapply IH; eauto. eapply scf_step_keeps; eauto.
Qed.

Lemma scf_peer_up_sends : forall s p o s' outs rx outs0,
  scf_step alg k s (ScPeerUp p) o = Some (s', outs) ->
  scf_holds s b rx outs0 -> scf_alive k b rx (or_now o) ->
  sb_prev b <> Some p -> ~ In (ScfSent p (sb_id b) true) outs0 ->
  (p = sb_dst b \/ (sa_exact alg = true /\ sb_dst b <> p /\ ~ In (sb_dst b) (scs_peers s))) ->
  exists ok, In (ScfSent p (sb_id b) ok) outs.
Proof.
  intros s p o s' outs rx outs0 Hs [it [Hin Hok]] Hal Hprev Hnosent Hwhy.
  cbn [scf_step] in Hs.
  destruct (scf_check_pending alg k o (scf_add_peer p (scs_peers s)) (ss_items s)) as [[items' outs']|] eqn:Hc;
    [|discriminate]. injection Hs as _ <-.
  destruct (scf_check_pending_item _ _ _ _ _ _ _ it Hc Hin) as (res & o1 & Hd & Hincl & _); [apply Hok|].
  assert (Hns : ~ In p (si_sent it)).
  { intros Hq. destruct Hok as (_ & _ & _ & _ & _ & Hj). destruct (Hj p Hq); auto. }
  destruct (scf_dispatch_sends _ _ _ _ _ _ _ _ _ Hok Hal Hd p) as [ok Hsent]; auto.
  - apply scf_add_peer_In. auto.
  - destruct Hwhy as [Hpd | (Hex & Hne & Hnp)]; [left; exact Hpd | right].
    split; [exact Hex|]. intros Hq. apply scf_add_peer_In in Hq. destruct Hq; auto.
  - exists ok. apply Hincl. exact Hsent.
Qed.
End Kept.

(* the context shared by the theorems: a history up to the acceptance of [b], the accepting event, any
   continuation; the bundle is for another node, within its hop limit, alive at every event since.
   [pre] says only that the state before the acceptance is reachable, and no proof looks at it: the statements
   from an arbitrary state are scf_step_accepts, scf_run_keeps and scf_peer_up_sends. *)
Definition scf_carried (alg : salg) (k : N) (pre : list (scf_event * soracle)) (e : scf_event) (o : soracle)
  (post : list (scf_event * soracle)) (b : scf_bundle) (s3 : scf_state) (outs : list soutput) : Prop :=
  exists s1 o1 s2 o2 o3,
    scf_run alg k scf_init pre = Some (s1, o1) /\
    scf_step alg k s1 e o = Some (s2, o2) /\
    scf_run alg k s2 post = Some (s3, o3) /\
    outs = o2 ++ o3 /\
    scf_accepts s1 e b /\ sb_dst b <> 0 /\ scf_hop_exceeded b = false /\ sb_del b = false /\
    Forall (scf_ev_ok k b (or_now o)) ((e, o) :: post).

Section Carried.
Variables (alg : salg) (k : N) (pre : list (scf_event * soracle)) (e : scf_event) (o : soracle).
Variables (post : list (scf_event * soracle)) (b : scf_bundle) (s3 : scf_state) (outs : list soutput).
Variables (p : N) (o4 : soracle) (s4 : scf_state) (o5 : list soutput).
Hypothesis Hc : scf_carried alg k pre e o post b s3 outs.

Lemma scf_carried_holds : scf_no_final alg b outs -> scf_holds s3 b (or_now o) outs.
Proof.
  intros Hnf. destruct Hc as (s1 & o1 & s2 & o2 & o3 & _ & Hs & Hr & -> & Hacc & Hdst & Hhop & Hdel & Hal).
  inversion Hal as [|? ? [Ha1 _] Ha2]; subst. destruct (scf_no_final_app _ _ _ _ Hnf) as [Hn2 Hn3].
  eapply scf_run_keeps; eauto. eapply scf_step_accepts; eauto.
Qed.

Lemma scf_carried_offers :
  scf_no_final alg b outs ->
  scf_step alg k s3 (ScPeerUp p) o4 = Some (s4, o5) ->
  scf_alive k b (or_now o) (or_now o4) ->
  sb_prev b <> Some p -> ~ In (ScfSent p (sb_id b) true) outs ->
  (p = sb_dst b \/ (sa_exact alg = true /\ sb_dst b <> p /\ ~ In (sb_dst b) (scs_peers s3))) ->
  exists ok, In (ScfSent p (sb_id b) ok) o5.
Proof.
  intros Hnf Hs Hal Hprev Hnop Hwhy. pose proof (scf_carried_holds Hnf) as Hh.
  destruct Hc as (s1 & o1 & s2 & o2 & o3 & _ & _ & _ & _ & _ & Hdst & Hhop & _).
  eapply scf_peer_up_sends; eauto.
Qed.

End Carried.

Lemma scf_remove_first_filter : forall x l, NoDup l ->
  scf_remove_first x l = filter (fun y => negb (N.eqb x y)) l.
Proof.
  induction l as [|z r IH]; cbn [scf_remove_first filter]; intros H; [reflexivity|].
  inversion H; subst. destruct (N.eqb x z) eqn:E; cbn [negb].
  - apply N.eqb_eq in E. subst. symmetry. apply filter_all_true.
    intros y Hy. apply negb_true_iff, N.eqb_neq. intros ->. contradiction.
  - f_equal. auto.
Qed.

Lemma scf_remove_first_twice : forall x y l, NoDup l ->
  scf_remove_first y (scf_remove_first x l) = filter (fun z => negb (scf_mem z [x; y])) l.
Proof.
  intros x y l Hl.
  rewrite (scf_remove_first_filter x l Hl), (scf_remove_first_filter y _ (NoDup_filter _ Hl)).
  clear Hl. induction l as [|z r IH]; cbn [filter scf_mem]; [reflexivity|].
  rewrite (N.eqb_sym z x), (N.eqb_sym z y), orb_false_r.
  destruct (N.eqb x z); cbn [negb orb filter]; [exact IH|].
  destruct (N.eqb y z); cbn [negb]; [exact IH | f_equal; exact IH].
Qed.

(* the atomic outcome is the one the main model uses: everything failed is filtered out *)
Lemma scf_race_locked_filter : forall sent p q sched,
  NoDup sent -> In sched scf_race_locked ->
  scf_race_run p q sent sched = filter (fun x => negb (scf_mem x [p; q])) sent.
Proof.
  intros sent p q sched Hnd Hin.
  destruct Hin as [<- | [<- | []]]; cbn -[scf_mem filter]; rewrite scf_remove_first_twice by exact Hnd.
  - reflexivity.
  - apply filter_ext. intros z. cbn [scf_mem]. rewrite !orb_false_r. f_equal. apply orb_comm.
Qed.

Lemma scf_remove_at_mid : forall pre x post, scf_remove_at (length pre) (pre ++ x :: post) = pre ++ post.
Proof. induction pre as [|y r IH]; intros; cbn [length app scf_remove_at]; [reflexivity | rewrite IH; reflexivity]. Qed.

Lemma scf_rx_scan_spec : forall pre post,
  scf_rx_scan (length pre) (pre ++ post) =
  if existsb scf_blk_demands_deletion pre then None else Some (filter scf_blk_stays pre ++ post).
Proof.
  intros pre. induction pre as [|x pre IH] using rev_ind; intros post.
  - reflexivity.
  - rewrite app_length, Nat.add_1_r, <- app_assoc. cbn [app scf_rx_scan].
    rewrite nth_error_app2, Nat.sub_diag, existsb_app, filter_app by apply Nat.le_refl. cbn [nth_error existsb filter].
    unfold scf_blk_demands_deletion at 2, scf_blk_stays at 2.
    (* with the scans of [pre] rewritten, both sides are the same function of four truth values *)
    rewrite scf_remove_at_mid, !IH.
    destruct (existsb scf_blk_demands_deletion pre), (bk_known x), (scf_blk_has scf_fl_delete x),
      (scf_blk_has scf_fl_remove x); cbn [negb andb orb app]; rewrite <- ?app_assoc, ?app_nil_r; reflexivity.
Qed.

Lemma scf_rx_blocks_spec : forall bl,
  scf_rx_blocks bl = if existsb scf_blk_demands_deletion bl then None else Some (filter scf_blk_stays bl).
Proof.
  intros bl. unfold scf_rx_blocks. rewrite <- (app_nil_r bl) at 2. rewrite scf_rx_scan_spec, app_nil_r. reflexivity.
Qed.

Lemma scf_rx_del_iff : forall bl,
  scf_rx_del bl = true <-> exists b, In b bl /\ bk_known b = false /\ scf_blk_has scf_fl_delete b = true.
Proof.
  intros bl. unfold scf_rx_del. rewrite scf_rx_blocks_spec.
  transitivity (existsb scf_blk_demands_deletion bl = true).
  { destruct (existsb scf_blk_demands_deletion bl); intuition discriminate. }
  rewrite existsb_exists. unfold scf_blk_demands_deletion.
  split; intros (b & Hb & H); exists b; rewrite andb_true_iff, negb_true_iff in *; tauto.
Qed.

Lemma scf_rx_known_harmless : forall bl,
  (forall b, In b bl -> bk_known b = true \/ scf_blk_has scf_fl_delete b = false) -> scf_rx_del bl = false.
Proof.
  intros bl H. destruct (scf_rx_del bl) eqn:E; [|reflexivity]. apply scf_rx_del_iff in E.
  destruct E as [b [Hb [Hk Hd]]]. destruct (H b Hb); congruence.
Qed.

(* A clock-less bundle (zero creation time, age 1000 ms, lifetime 24 h) for node 1 is submitted while
   nobody is connected; peer 2 appears and the send to it fails; the store is swept; the node restarts; the
   pending bundles are retried.  (C05_example_delivery then lets node 1 appear.) *)
Definition scf_ex_b : scf_bundle :=
  {| sb_id := 7; sb_local := true; sb_dst := 1; sb_prev := None; sb_ts := 0; sb_life := 86400000;
     sb_age := Some 1000; sb_hop := Some (5, 1); sb_del := false |}.
Definition scf_ex_or (now : N) (sends : list (N * bool)) (del : bool) : soracle :=
  {| or_now := now; or_att := match sends with [] => [] | _ => [(7, {| at_sends := sends; at_del := del |})] end |}.
Definition scf_ex_post : list (scf_event * soracle) :=
  [ (ScPeerUp 2, scf_ex_or 8434540001200 [(2, false)] false);
    (SeTickClean, scf_ex_or 8434540001300 [] false);
    (SeRestart, scf_ex_or 8434540001400 [] false);
    (SeTickPending, scf_ex_or 8434540001500 [] false) ].
