(* TcpclMsgProofs.v - the TCPCLv4 message codec: round trip with exact consumption, stream alignment,
   code-field acceptance, no panic, allocation bounded by the bytes that arrived. *)
From DTN Require Import Base ListFacts CborProofs TcpclMsg.
Open Scope N_scope.

Lemma tm_u_app w x r : length x = w -> tm_u w (x ++ r) = (TmOk (be_decode x) r, 0).
Proof. intros <-. unfold tm_u. rewrite take_exact_app. reflexivity. Qed.

Lemma tm_u_enc w n r : n < 256 ^ N.of_nat w -> tm_u w (be_encode w n ++ r) = (TmOk n r, 0).
Proof. intros H. rewrite tm_u_app by apply be_encode_length. rewrite be_decode_encode by exact H. reflexivity. Qed.

Lemma tm_split_app d r : tm_split (nlen d) (d ++ r) = Some (d, r).
Proof.
  unfold tm_split, nlen. rewrite app_length.
  replace (N.of_nat (length d + length r) <? N.of_nat (length d)) with false by lia.
  rewrite Nat2N.id, firstn_length_app, skipn_length_app. reflexivity.
Qed.

Lemma tm_make_full_app d r : nlen d <= tm_max_alloc -> tm_make_full (nlen d) (d ++ r) = (TmOk d r, nlen d).
Proof.
  intros H. unfold tm_make_full. replace (tm_max_alloc <? nlen d) with false by lia.
  rewrite tm_split_app. reflexivity.
Qed.

Lemma tm_make_str_app d r : nlen d <= tm_max_alloc -> tm_make_str (nlen d) (d ++ r) = (TmOk d r, nlen d + nlen d).
Proof. intros H. unfold tm_make_str. rewrite tm_make_full_app by exact H. reflexivity. Qed.

Lemma tm_read_grow_app d r : nlen d < tm_i63 -> tm_read_grow (nlen d) (d ++ r) = (TmOk d r, tm_grow (nlen d)).
Proof.
  intros H. unfold tm_read_grow. replace (tm_i63 <=? nlen d) with false by lia.
  rewrite tm_split_app. reflexivity.
Qed.

Lemma tm_bind_ok {A B} (p : tm_reader A) (f : A -> tm_reader B) bs a r n :
  p bs = (TmOk a r, n) -> tm_bind p f bs = (fst (f a r), n + snd (f a r)).
Proof. intros H. unfold tm_bind. rewrite H. reflexivity. Qed.

Lemma tm_bind_err {A B} (p : tm_reader A) (f : A -> tm_reader B) bs n :
  p bs = (TmErr, n) -> tm_bind p f bs = (TmErr, n).
Proof. intros H. unfold tm_bind. rewrite H. reflexivity. Qed.

(* all readers but those of the node id and the data allocate nothing: the sequence just goes on *)
Lemma tm_bind_ok0 {A B} (p : tm_reader A) (f : A -> tm_reader B) bs a r :
  p bs = (TmOk a r, 0) -> tm_bind p f bs = f a r.
Proof. intros H. unfold tm_bind. rewrite H. destruct (f a r). reflexivity. Qed.

Lemma tm_bind_ret {A B} (a : A) (f : A -> tm_reader B) bs : tm_bind (tm_ret a) f bs = f a bs.
Proof. apply tm_bind_ok0. reflexivity. Qed.
Lemma tm_bind_u {B} w n r (f : N -> tm_reader B) :
  n < 256 ^ N.of_nat w -> tm_bind (tm_u w) f (be_encode w n ++ r) = f n r.
Proof. intros H. apply tm_bind_ok0, tm_u_enc, H. Qed.
Lemma tm_bind_u1 {B} b r (f : N -> tm_reader B) : tm_bind (tm_u 1) f (b :: r) = f b r.
Proof. apply tm_bind_ok0. reflexivity. Qed.

Lemma tm_expect_hit t r : tm_expect t (t :: r) = (TmOk tt r, 0).
Proof. unfold tm_expect. rewrite tm_bind_u1, N.eqb_refl. reflexivity. Qed.
Lemma tm_expect_miss t b r : b <> t -> tm_expect t (b :: r) = (TmErr, 0).
Proof. intros H. apply N.eqb_neq in H. unfold tm_expect. rewrite tm_bind_u1, H. reflexivity. Qed.
Lemma tm_bind_expect {B} t r (f : unit -> tm_reader B) : tm_bind (tm_expect t) f (t :: r) = f tt r.
Proof. apply tm_bind_ok0, tm_expect_hit. Qed.

Lemma tm_contact_code a b c d e f r :
  tm_dec_contact (a :: b :: c :: d :: e :: f :: r)
  = if (a =? 100) && (b =? 116) && (c =? 110) && (d =? 33) && (e =? 4)
    then (TmOk (TmContact f) r, 0) else (TmErr, 0).
Proof.
  unfold tm_dec_contact, take_exact. cbn [length Nat.leb firstn skipn tm_head bytes_eqb list_eqb].
  unfold bytes_eqb. cbn [list_eqb]. unfold be_decode. cbn [be_decode_acc].
  rewrite andb_true_r, !andb_assoc. reflexivity.
Qed.

Definition tm_cost (m : tm_msg) : N :=
  match m with
  | TmSessInit _ _ _ n => 2 * nlen n
  | TmXferSegment _ _ d => if nlen d =? 0 then 0 else tm_grow (nlen d)
  | _ => 0
  end.

(* On an encoding ReadMessage reduces to the Unmarshal of its type by computation, so the
   statements about the single Unmarshal functions are the instances of this one. *)
Theorem tm_read_roundtrip m r : tm_wf m = true -> tm_read (tm_enc m ++ r) = (TmOk m r, tm_cost m).
Proof.
  intros H. destruct m as [f|k s t n|f c|f t d|f t l|c t| |c h]; cbn [tm_wf tm_cost tm_enc] in *;
    (* the bounds as propositions: lia on the boolean conjunction is slow to check at Qed *)
    rewrite ?andb_true_iff, ?N.ltb_lt in H; unfold tm_u8, tm_u16, tm_u64, tm_i63 in H;
    rewrite <- ?app_assoc; cbn [app].
  - change (tm_read ?bs) with (tm_dec_contact bs). cbn [tm_head app be_encode].
    rewrite tm_contact_code, N.div_1_r, N.mod_small by lia. reflexivity.
  - change (tm_read ?bs) with (tm_dec_sess_init bs). unfold tm_dec_sess_init, tm_dec_sess_init_gen.
    rewrite tm_bind_expect, !tm_bind_u by lia.
    erewrite tm_bind_ok by (apply tm_make_str_app; unfold tm_max_alloc; lia).
    rewrite tm_bind_u by lia. rewrite N.eqb_refl, tm_bind_ret. cbn [tm_ret fst snd]. f_equal. lia.
  - change (tm_read ?bs) with (tm_dec_sess_term bs). unfold tm_dec_sess_term. destruct H as [Hf Hc].
    rewrite tm_bind_expect, !tm_bind_u by (unfold tm_term_valid, tm_term_max in Hc; lia). rewrite Hc. reflexivity.
  - change (tm_read ?bs) with (tm_dec_xfer_segment bs). unfold tm_dec_xfer_segment, tm_dec_xfer_segment_gen.
    rewrite tm_bind_expect, !tm_bind_u by lia.
    rewrite N.eqb_refl, tm_bind_ret, tm_bind_u by lia.
    destruct (nlen d =? 0) eqn:E.
    + assert (d = []) as -> by (destruct d; [reflexivity|cbn in E; lia]). reflexivity.
    + erewrite tm_bind_ok by (apply tm_read_grow_app; unfold tm_i63; lia). cbn [tm_ret fst snd]. f_equal. lia.
  - change (tm_read ?bs) with (tm_dec_xfer_ack bs). unfold tm_dec_xfer_ack.
    rewrite tm_bind_expect, !tm_bind_u by lia. reflexivity.
  - change (tm_read ?bs) with (tm_dec_xfer_refuse bs). unfold tm_dec_xfer_refuse. destruct H as [Hc Ht].
    rewrite tm_bind_expect, !tm_bind_u by (unfold tm_refuse_valid, tm_refuse_max in Hc; lia). rewrite Hc. reflexivity.
  - reflexivity.
  - change (tm_read ?bs) with (tm_dec_msg_reject bs). unfold tm_dec_msg_reject. destruct H as [Hc Hh].
    rewrite tm_bind_expect, !tm_bind_u by (unfold tm_reject_valid, tm_reject_max in Hc; lia). rewrite Hc. reflexivity.
Qed.

Lemma tm_make_full_zero bs : tm_make_full 0 bs = (TmOk [] bs, 0).
Proof.
  unfold tm_make_full, tm_split. change (tm_max_alloc <? 0) with false. cbv iota.
  replace (nlen bs <? 0) with false by lia. reflexivity.
Qed.

(* beyond the encoder's silent limit: a node id of 65536 bytes is written with length field 0 and all
   its bytes (uint16(len) wraps), so the decoder sees an empty node id and goes on to read the first
   four id bytes as the extension length: the value does not come back *)
Theorem tm_sess_init_overlong k s t n r : k < tm_u16 -> s < tm_u64 -> t < tm_u64 -> nlen n = 65536 ->
  be_encode 2 (nlen n) = [0; 0]
  /\ forall r' a, tm_read (tm_enc (TmSessInit k s t n) ++ r) <> (TmOk (TmSessInit k s t n) r', a).
Proof.
  unfold tm_u16, tm_u64. intros Hk Hs Ht Hn. split; [rewrite Hn; reflexivity|]. intros r' a.
  change (tm_read ?bs) with (tm_dec_sess_init bs).
  unfold tm_dec_sess_init, tm_dec_sess_init_gen, tm_enc. rewrite <- !app_assoc. cbn [app].
  rewrite tm_bind_expect, !tm_bind_u by lia.
  rewrite Hn. change (be_encode 2 65536) with (be_encode 2 0). rewrite tm_bind_u by lia.
  rewrite (tm_bind_ok0 _ _ _ [] _) by (unfold tm_make_str; rewrite tm_make_full_zero; reflexivity).
  unfold tm_bind at 1.
  destruct (tm_u 4 _) as [[el r1| |] n1]; try discriminate.
  unfold tm_bind at 1.
  destruct (el =? 0).
  - cbn. intros Heq. inversion Heq; subst. cbn in Hn. lia.
  - destruct (tm_skip true el r1) as [[u r2| |] n2]; cbn; try discriminate.
    intros Heq. inversion Heq; subst. cbn in Hn. lia.
Qed.

Definition tm_enc_all (ms : list tm_msg) : list N := concat (map tm_enc ms).
Definition tm_cost_all (ms : list tm_msg) : N := fold_right (fun m a => tm_cost m + a) 0 ms.

Lemma tm_enc_cons m : exists b tl, tm_enc m = b :: tl.
Proof. destruct m; cbn [tm_enc tm_head app]; eauto. Qed.

Lemma tm_enc_all_length ms : (length ms <= length (tm_enc_all ms))%nat.
Proof.
  induction ms as [|m ms IH]; [cbn; lia|].
  unfold tm_enc_all in *. cbn [map concat]. rewrite app_length.
  destruct (tm_enc_cons m) as (b & tl & ->). cbn [length]. lia.
Qed.

Lemma tm_stream_fuel_roundtrip ms : forall fuel, Forall (fun m => tm_wf m = true) ms ->
  (length ms <= fuel)%nat ->
  tm_stream_fuel true fuel (tm_enc_all ms) = (ms, TmEof, tm_cost_all ms).
Proof.
  induction ms as [|m ms IH]; intros fuel Hwf Hf.
  - destruct fuel; reflexivity.
  - inversion Hwf as [|? ? Hm Hms]; subst.
    pose proof (tm_read_roundtrip m (tm_enc_all ms) Hm) as R.
    unfold tm_enc_all. cbn [map concat]. fold (tm_enc_all ms).
    destruct (tm_enc_cons m) as (b & tl & E). rewrite E in *.
    destruct fuel as [|fuel]; [cbn in Hf; lia|].
    cbn [app tm_stream_fuel] in *. fold tm_read.
    rewrite R, (IH fuel Hms) by (cbn in Hf; lia). reflexivity.
Qed.

Lemma tm_type_reject b r : tm_type_known b = false -> tm_read (b :: r) = (TmErr, 0).
Proof.
  unfold tm_type_known, tm_contact. intros H. unfold tm_read, tm_read_gen.
  unfold tm_xfer_segment, tm_xfer_ack, tm_xfer_refuse, tm_keepalive, tm_sess_term, tm_msg_reject, tm_sess_init, tm_contact.
  rewrite !(proj2 (N.eqb_neq b _)) by lia. reflexivity.
Qed.

Lemma tm_type_accept b : tm_type_known b = true -> exists r, tm_is_ok (tm_read (b :: r)) = true.
Proof.
  unfold tm_type_known, tm_contact. intros H.
  assert (b = 1 \/ b = 2 \/ b = 3 \/ b = 4 \/ b = 5 \/ b = 6 \/ b = 7 \/ b = 100) as
    [-> | [-> | [-> | [-> | [-> | [-> | [-> | -> ]]]]]]] by lia.
  - exists (tl (tm_enc (TmXferSegment 0 0 []))). reflexivity.
  - exists (tl (tm_enc (TmXferAck 0 0 0))). reflexivity.
  - exists (tl (tm_enc (TmXferRefuse 0 0))). reflexivity.
  - exists []. reflexivity.
  - exists (tl (tm_enc (TmSessTerm 0 0))). reflexivity.
  - exists (tl (tm_enc (TmMsgReject 1 0))). reflexivity.
  - exists (tl (tm_enc (TmSessInit 0 0 0 []))). reflexivity.
  - exists (tl (tm_enc (TmContact 0))). reflexivity.
Qed.

Lemma tm_sess_term_code f c r :
  tm_read (5 :: f :: c :: r) = if tm_term_valid c then (TmOk (TmSessTerm f c) r, 0) else (TmErr, 0).
Proof.
  change (tm_read (5 :: f :: c :: r)) with (tm_dec_sess_term (tm_sess_term :: f :: c :: r)).
  unfold tm_dec_sess_term. rewrite tm_bind_expect, !tm_bind_u1. destruct (tm_term_valid c); reflexivity.
Qed.

Lemma tm_msg_reject_code c h r :
  tm_read (6 :: c :: h :: r) = if tm_reject_valid c then (TmOk (TmMsgReject c h) r, 0) else (TmErr, 0).
Proof.
  change (tm_read (6 :: c :: h :: r)) with (tm_dec_msg_reject (tm_msg_reject :: c :: h :: r)).
  unfold tm_dec_msg_reject. rewrite tm_bind_expect, !tm_bind_u1. destruct (tm_reject_valid c); reflexivity.
Qed.

Lemma tm_xfer_refuse_code c t8 r : length t8 = 8%nat ->
  tm_read (3 :: c :: t8 ++ r)
  = if tm_refuse_valid c then (TmOk (TmXferRefuse c (be_decode t8)) r, 0) else (TmErr, 0).
Proof.
  intros Hl.
  change (tm_read (3 :: c :: t8 ++ r)) with (tm_dec_xfer_refuse (tm_xfer_refuse :: c :: t8 ++ r)).
  unfold tm_dec_xfer_refuse. rewrite tm_bind_expect, tm_bind_u1, (tm_bind_ok0 _ _ _ _ _ (tm_u_app 8 t8 r Hl)).
  destruct (tm_refuse_valid c); reflexivity.
Qed.

Lemma tm_contact_read b c d e f r : tm_read (100 :: b :: c :: d :: e :: f :: r)
  = if (b =? 116) && (c =? 110) && (d =? 33) && (e =? 4) then (TmOk (TmContact f) r, 0) else (TmErr, 0).
Proof. exact (tm_contact_code 100 b c d e f r). Qed.

Lemma tm_term_valid_enum c : tm_term_valid c = true <-> In c [0; 1; 2; 3; 4; 5].
Proof. unfold tm_term_valid, tm_term_max. cbn [In]. lia. Qed.
Lemma tm_refuse_valid_enum c : tm_refuse_valid c = true <-> In c [0; 1; 2; 3; 4; 5; 6].
Proof. unfold tm_refuse_valid, tm_refuse_max. cbn [In]. lia. Qed.
Lemma tm_reject_valid_enum c : tm_reject_valid c = true <-> In c [1; 2; 3].
Proof. unfold tm_reject_valid, tm_reject_min, tm_reject_max. cbn [In]. lia. Qed.
Lemma tm_type_known_enum b : tm_type_known b = true <-> In b [1; 2; 3; 4; 5; 6; 7; 100].
Proof. unfold tm_type_known, tm_contact. cbn [In]. lia. Qed.

(* the same once more as a finite sweep over all 256 octet values of every code field, the other fields
   fixed (C17_tcpcl_reject_sweep); it says nothing that the lemmas above do not say for all values *)
Definition tm_mem (b : N) (l : list N) : bool := existsb (N.eqb b) l.
Definition tm_put (pos : nat) (b : N) (l : list N) : list N := firstn pos l ++ b :: skipn (S pos) l.
Definition tm_ok_all (o : tm_out tm_msg) : bool := match fst o with TmOk _ [] => true | _ => false end.
Definition tm_sweep_code (b : N) : bool :=
  Bool.eqb (tm_is_ok (tm_read [5; 1; b])) (tm_mem b [0; 1; 2; 3; 4; 5])
  && Bool.eqb (tm_is_ok (tm_read [3; b; 0; 0; 0; 0; 0; 0; 0; 9])) (tm_mem b [0; 1; 2; 3; 4; 5; 6])
  && Bool.eqb (tm_is_ok (tm_read [6; b; 7])) (tm_mem b [1; 2; 3])
  && Bool.eqb (tm_ok_all (tm_read (b :: tl (tm_enc (TmXferAck 1 2 3))))) (b =? 2)
  && Bool.eqb (tm_is_ok (tm_read (b :: repeat 0 40))) (tm_mem b [1; 2; 3; 4; 5; 7])
  && (tm_mem b [1; 2; 3; 4; 5; 6; 7; 100] || negb (tm_is_ok (tm_read (b :: repeat 1 40))))
  && Bool.eqb (tm_ok_all (tm_read (tm_put 0 b (tm_enc (TmContact 1))))) (b =? 100)
  && Bool.eqb (tm_is_ok (tm_read (tm_put 1 b (tm_enc (TmContact 1))))) (b =? 116)
  && Bool.eqb (tm_is_ok (tm_read (tm_put 2 b (tm_enc (TmContact 1))))) (b =? 110)
  && Bool.eqb (tm_is_ok (tm_read (tm_put 3 b (tm_enc (TmContact 1))))) (b =? 33)
  && Bool.eqb (tm_is_ok (tm_read (tm_put 4 b (tm_enc (TmContact 1))))) (b =? 4)
  && tm_is_ok (tm_read (tm_put 5 b (tm_enc (TmContact 1)))).

Lemma tm_sweep_all : forallb tm_sweep_code (nrange 256) = true.
Proof. vm_compute. reflexivity. Qed.

Definition tm_top {A} : A -> Prop := fun _ => True.

(* C04 as a triple (hence the name) for a reader [p] with postcondition [Q]; [co] / [ce] are the
   constants when it succeeds / fails *)
Definition tm_tri {A} (p : tm_reader A) (co ce : N) (Q : A -> Prop) : Prop :=
  forall bs, bytes_ok bs = true ->
  match p bs with
  | (TmOk a r, n) => Q a /\ bytes_ok r = true /\ n + 8 * nlen r <= 8 * nlen bs + co
  | (TmErr, n) => n <= 8 * nlen bs + ce
  | (TmPanic, _) => False
  end.

Lemma tm_tri_bind {A B} (p : tm_reader A) (f : A -> tm_reader B) co1 ce1 co2 ce2 Q R :
  tm_tri p co1 ce1 Q -> (forall a, Q a -> tm_tri (f a) co2 ce2 R) ->
  tm_tri (tm_bind p f) (co1 + co2) (N.max ce1 (co1 + ce2)) R.
Proof.
  intros Hp Hf bs Hb. unfold tm_bind. specialize (Hp bs Hb). destruct (p bs) as [[a r| |] n].
  - destruct Hp as (HQ & Hr & Hn). specialize (Hf a HQ r Hr).
    destruct (f a r) as [[b r'| |] n']; cbn [fst snd].
    + destruct Hf as (HR & Hr' & Hn'). repeat split; auto; lia.
    + lia.
    + exact Hf.
  - lia.
  - exact Hp.
Qed.

Lemma tm_tri_weaken {A} (p : tm_reader A) co ce co' ce' (Q : A -> Prop) :
  tm_tri p co ce Q -> co <= co' -> ce <= ce' -> tm_tri p co' ce' Q.
Proof.
  intros Hp H1 H2 bs Hb. specialize (Hp bs Hb). destruct (p bs) as [[a r| |] n].
  - destruct Hp as (Ha & Hr & Hn). repeat split; auto; lia.
  - lia.
  - exact Hp.
Qed.

Lemma tm_tri_if {A} (c : bool) (p q : tm_reader A) co1 ce1 co2 ce2 Q :
  tm_tri p co1 ce1 Q -> tm_tri q co2 ce2 Q -> tm_tri (if c then p else q) (N.max co1 co2) (N.max ce1 ce2) Q.
Proof.
  intros Hp Hq. destruct c.
  - eapply tm_tri_weaken; [exact Hp|lia|lia].
  - eapply tm_tri_weaken; [exact Hq|lia|lia].
Qed.

Lemma tm_tri_ret {A} (a : A) : tm_tri (tm_ret a) 0 0 tm_top.
Proof. intros bs Hb. cbn. repeat split; auto; lia. Qed.

Lemma tm_tri_fail {A} (Q : A -> Prop) : tm_tri tm_fail 0 0 Q.
Proof. intros bs Hb. cbn. lia. Qed.

Lemma tm_tri_u w : tm_tri (tm_u w) 0 0 (fun v => v < 256 ^ N.of_nat w).
Proof.
  intros bs Hb. unfold tm_u, take_exact. destruct (Nat.leb w (length bs)) eqn:E.
  - apply Nat.leb_le in E. cbn [tm_ret].
    pose proof (nlen_skipn w bs E) as Hs.
    repeat split.
    + pose proof (be_decode_acc_bound (firstn w bs) 0 (bytes_ok_firstn w bs Hb)) as Hbd.
      rewrite firstn_length, Nat.min_l in Hbd by lia. unfold be_decode. lia.
    + apply bytes_ok_skipn, Hb.
    + lia.
  - cbn. lia.
Qed.

Lemma tm_split_some n bs d r : tm_split n bs = Some (d, r) ->
  nlen r + n = nlen bs /\ (bytes_ok bs = true -> bytes_ok r = true).
Proof.
  unfold tm_split. destruct (nlen bs <? n) eqn:E; [discriminate|]. intros [= _ <-].
  split; [unfold nlen in *; rewrite skipn_length; lia|apply bytes_ok_skipn].
Qed.

(* the node id costs 2 x n, yet ce = 65535 = tm_alloc_c0 is enough: the copy into a string is charged only
   when the n bytes arrived, and then 2 x n is within 8 x the bytes consumed; when they did not, only the
   one allocation of n < 2^16 was made *)
Lemma tm_tri_make_str n : n < tm_u16 -> tm_tri (tm_make_str n) 0 65535 tm_top.
Proof.
  intros Hn bs Hb. unfold tm_make_str, tm_make_full, tm_u16, tm_max_alloc in *.
  replace (281474976710656 <? n) with false by lia.
  destruct (tm_split n bs) as [[d r]|] eqn:E.
  - destruct (tm_split_some _ _ _ _ E) as [Hl Hr]. repeat split; [apply Hr, Hb|lia].
  - lia.
Qed.

Lemma tm_tri_discard n : tm_tri (tm_discard n) 0 0 tm_top.
Proof.
  intros bs Hb. unfold tm_discard.
  destruct (tm_split n bs) as [[d r]|] eqn:E.
  - destruct (tm_split_some _ _ _ _ E) as [Hl Hr]. cbn [tm_ret]. repeat split; [apply Hr, Hb|lia].
  - cbn. lia.
Qed.

(* the data: tm_grow k = 8 x k + 1024 for the k bytes that arrived *)
Lemma tm_tri_read_grow n : tm_tri (tm_read_grow n) 1024 1024 tm_top.
Proof.
  intros bs Hb. unfold tm_read_grow, tm_grow.
  destruct (tm_i63 <=? n); [lia|].
  destruct (tm_split n bs) as [[d r]|] eqn:E.
  - destruct (tm_split_some _ _ _ _ E) as [Hl Hr]. repeat split; [apply Hr, Hb|lia].
  - lia.
Qed.

(* follows the syntax of a decoder with the constants left open: tm_tri_bind and tm_tri_if build them as
   sums and maxima of those of the readers above; the length of the node id is bounded by what [tm_u 2]
   says of its value *)
Ltac tm_tri_go :=
  lazymatch goal with
  | |- tm_tri (tm_bind _ _) _ _ _ => eapply tm_tri_bind; [tm_tri_go | intros ? ?; tm_tri_go]
  | |- tm_tri (if _ then _ else _) _ _ _ => eapply tm_tri_if; tm_tri_go
  | |- tm_tri (tm_ret _) _ _ _ => apply tm_tri_ret
  | |- tm_tri tm_fail _ _ _ => apply tm_tri_fail
  | |- tm_tri (tm_u _) _ _ _ => apply tm_tri_u
  | |- tm_tri (tm_discard _) _ _ _ => apply tm_tri_discard
  | |- tm_tri (tm_read_grow _) _ _ _ => apply tm_tri_read_grow
  | |- tm_tri (tm_make_str _) _ _ _ => apply tm_tri_make_str; assumption
  end.

(* ... and the constants it collected compute to the ones stated *)
Ltac tm_tri_dec :=
  eapply tm_tri_weaken; [tm_tri_go | apply N.le_refl | apply N.le_refl].

Lemma tm_tri_sess_init : tm_tri tm_dec_sess_init 0 65535 tm_top.
Proof. unfold tm_dec_sess_init, tm_dec_sess_init_gen, tm_expect, tm_skip. tm_tri_dec. Qed.
Lemma tm_tri_xfer_segment : tm_tri tm_dec_xfer_segment 1024 1024 tm_top.
Proof. unfold tm_dec_xfer_segment, tm_dec_xfer_segment_gen, tm_expect, tm_skip, tm_data. tm_tri_dec. Qed.
Lemma tm_tri_sess_term : tm_tri tm_dec_sess_term 0 0 tm_top.
Proof. unfold tm_dec_sess_term, tm_expect. tm_tri_dec. Qed.
Lemma tm_tri_xfer_ack : tm_tri tm_dec_xfer_ack 0 0 tm_top.
Proof. unfold tm_dec_xfer_ack, tm_expect. tm_tri_dec. Qed.
Lemma tm_tri_xfer_refuse : tm_tri tm_dec_xfer_refuse 0 0 tm_top.
Proof. unfold tm_dec_xfer_refuse, tm_expect. tm_tri_dec. Qed.
Lemma tm_tri_keepalive : tm_tri tm_dec_keepalive 0 0 tm_top.
Proof. unfold tm_dec_keepalive, tm_expect. tm_tri_dec. Qed.
Lemma tm_tri_msg_reject : tm_tri tm_dec_msg_reject 0 0 tm_top.
Proof. unfold tm_dec_msg_reject, tm_expect. tm_tri_dec. Qed.

Lemma tm_tri_contact : tm_tri tm_dec_contact 0 0 tm_top.
Proof.
  intros bs Hb. unfold tm_dec_contact, take_exact. destruct (Nat.leb 6 (length bs)) eqn:E.
  - apply Nat.leb_le in E. pose proof (nlen_skipn 6 bs E) as Hs.
    destruct (bytes_eqb (firstn 5 (firstn 6 bs)) tm_head); cbn [tm_ret tm_fail].
    + repeat split; [apply bytes_ok_skipn, Hb|lia].
    + lia.
  - cbn. lia.
Qed.

(* ReadMessage: the larger of each pair of constants *)
Lemma tm_tri_read : tm_tri tm_read 1024 65535 tm_top.
Proof.
  assert (W : forall co ce (p : tm_reader tm_msg), tm_tri p co ce tm_top -> (co <=? 1024) = true -> (ce <=? 65535) = true ->
              tm_tri p 1024 65535 tm_top).
  { intros co ce p Hp Ho He. apply (tm_tri_weaken p co ce); [exact Hp|lia|lia]. }
  intros bs Hb. unfold tm_read, tm_read_gen. destruct bs as [|b bs']; [cbn; lia|].
  fold tm_dec_xfer_segment. fold tm_dec_sess_init.
  destruct (b =? tm_xfer_segment); [exact (W _ _ _ tm_tri_xfer_segment eq_refl eq_refl _ Hb)|].
  destruct (b =? tm_xfer_ack); [exact (W _ _ _ tm_tri_xfer_ack eq_refl eq_refl _ Hb)|].
  destruct (b =? tm_xfer_refuse); [exact (W _ _ _ tm_tri_xfer_refuse eq_refl eq_refl _ Hb)|].
  destruct (b =? tm_keepalive); [exact (W _ _ _ tm_tri_keepalive eq_refl eq_refl _ Hb)|].
  destruct (b =? tm_sess_term); [exact (W _ _ _ tm_tri_sess_term eq_refl eq_refl _ Hb)|].
  destruct (b =? tm_msg_reject); [exact (W _ _ _ tm_tri_msg_reject eq_refl eq_refl _ Hb)|].
  destruct (b =? tm_sess_init); [exact (W _ _ _ tm_tri_sess_init eq_refl eq_refl _ Hb)|].
  destruct (b =? tm_contact); [exact (W _ _ _ tm_tri_contact eq_refl eq_refl _ Hb)|].
  cbn. lia.
Qed.

Definition tm_eats {A} (d : nat) (p : tm_reader A) : Prop :=
  forall bs a r n, p bs = (TmOk a r, n) -> (length r + d <= length bs)%nat.

Lemma tm_eats_bind {A B} d (p : tm_reader A) (f : A -> tm_reader B) :
  tm_eats d p -> (forall a, tm_eats 0 (f a)) -> tm_eats d (tm_bind p f).
Proof.
  intros Hp Hf bs b r n H. unfold tm_bind in H. destruct (p bs) as [[a r1| |] n1] eqn:E; try discriminate.
  specialize (Hp _ _ _ _ E). destruct (f a r1) as [[b' r2| |] n2] eqn:E2; cbn [fst snd] in H; try discriminate.
  inversion H; subst. specialize (Hf a _ _ _ _ E2). lia.
Qed.
Lemma tm_eats_ret {A} (a : A) : tm_eats 0 (tm_ret a).
Proof. intros bs a' r n H. inversion H; subst. lia. Qed.
Lemma tm_eats_fail {A} d : tm_eats d (@tm_fail A).
Proof. intros bs a' r n H. discriminate. Qed.
Lemma tm_eats_u d w : (d <= w)%nat -> tm_eats d (tm_u w).
Proof.
  intros Hd bs v r n. unfold tm_u, take_exact. destruct (Nat.leb w (length bs)) eqn:E; [|discriminate].
  apply Nat.leb_le in E. intros H. inversion H; subst. rewrite skipn_length. lia.
Qed.
Lemma tm_split_len n bs d r : tm_split n bs = Some (d, r) -> (length r <= length bs)%nat.
Proof. intros H. apply tm_split_some in H. unfold nlen in H. lia. Qed.
Lemma tm_eats_make_full k : tm_eats 0 (tm_make_full k).
Proof.
  intros bs d r n H. unfold tm_make_full in H. destruct (tm_max_alloc <? k); [discriminate|].
  destruct (tm_split k bs) as [[d' r']|] eqn:E; [|discriminate]. inversion H; subst. apply tm_split_len in E. lia.
Qed.
Lemma tm_eats_make_str k : tm_eats 0 (tm_make_str k).
Proof.
  intros bs d r n H. unfold tm_make_str in H.
  destruct (tm_make_full k bs) as [[d' r'| |] a] eqn:E; try discriminate. inversion H; subst.
  eapply tm_eats_make_full; eauto.
Qed.
Lemma tm_eats_discard k : tm_eats 0 (tm_discard k).
Proof.
  intros bs d r n H. unfold tm_discard in H.
  destruct (tm_split k bs) as [[d' r']|] eqn:E; [|discriminate]. inversion H; subst. apply tm_split_len in E. lia.
Qed.
Lemma tm_eats_read_grow k : tm_eats 0 (tm_read_grow k).
Proof.
  intros bs d r n H. unfold tm_read_grow in H. destruct (tm_i63 <=? k); [discriminate|].
  destruct (tm_split k bs) as [[d' r']|] eqn:E; [|discriminate]. inversion H; subst. apply tm_split_len in E. lia.
Qed.

Ltac tm_eats_go :=
  lazymatch goal with
  | |- tm_eats _ (tm_bind _ _) => apply tm_eats_bind; [tm_eats_go | intros ?; tm_eats_go]
  | |- tm_eats _ (if ?c then _ else _) => destruct c; tm_eats_go
  | |- tm_eats _ (tm_ret _) => apply tm_eats_ret
  | |- tm_eats _ tm_fail => apply tm_eats_fail
  | |- tm_eats _ (tm_u _) => apply tm_eats_u; lia
  | |- tm_eats _ (tm_make_full _) => apply tm_eats_make_full
  | |- tm_eats _ (tm_make_str _) => apply tm_eats_make_str
  | |- tm_eats _ (tm_discard _) => apply tm_eats_discard
  | |- tm_eats _ (tm_read_grow _) => apply tm_eats_read_grow
  end.

(* every Unmarshal starts by reading the type octet again *)
Lemma tm_eats_expect {B} t (f : unit -> tm_reader B) : (forall u, tm_eats 0 (f u)) -> tm_eats 1 (tm_bind (tm_expect t) f).
Proof. intros Hf. apply tm_eats_bind; [unfold tm_expect; tm_eats_go|exact Hf]. Qed.

Lemma tm_eats_read fx : tm_eats 1 (tm_read_gen fx).
Proof.
  intros [|b bs']; [discriminate|]. unfold tm_read_gen.
  destruct (b =? tm_xfer_segment).
  { unfold tm_dec_xfer_segment_gen, tm_skip, tm_data. apply tm_eats_expect. intros ?. destruct fx; tm_eats_go. }
  destruct (b =? tm_xfer_ack); [apply tm_eats_expect; intros ?; tm_eats_go|].
  destruct (b =? tm_xfer_refuse); [apply tm_eats_expect; intros ?; tm_eats_go|].
  destruct (b =? tm_keepalive); [apply tm_eats_expect; intros ?; tm_eats_go|].
  destruct (b =? tm_sess_term); [apply tm_eats_expect; intros ?; tm_eats_go|].
  destruct (b =? tm_msg_reject); [apply tm_eats_expect; intros ?; tm_eats_go|].
  destruct (b =? tm_sess_init).
  { unfold tm_dec_sess_init_gen, tm_skip. apply tm_eats_expect. intros ?. destruct fx; tm_eats_go. }
  destruct (b =? tm_contact); [|discriminate].
  unfold tm_dec_contact, take_exact. intros m r n H. destruct (Nat.leb 6 (length (b :: bs'))) eqn:E; [|discriminate].
  apply Nat.leb_le in E. destruct (bytes_eqb _ _); [|discriminate].
  assert (Hr : r = skipn 6 (b :: bs')) by (inversion H; reflexivity).
  rewrite Hr, skipn_length. lia.
Qed.

(* every message read takes at least one byte (tm_eats_read), so fuel exhaustion is unreachable, for
   the repaired and the original code *)
Lemma tm_stream_fuel_any fx : forall f1 f2 bs, (length bs <= f1)%nat -> (length bs <= f2)%nat ->
  tm_stream_fuel fx f1 bs = tm_stream_fuel fx f2 bs.
Proof.
  induction f1 as [|f1 IH]; intros f2 bs H1 H2.
  - destruct bs; [|cbn in H1; lia]. destruct f2; reflexivity.
  - destruct bs as [|b bs']; [destruct f2; reflexivity|].
    destruct f2 as [|f2]; [cbn in H2; lia|].
    cbn [tm_stream_fuel]. destruct (tm_read_gen fx (b :: bs')) as [[m r| |] a] eqn:E; try reflexivity.
    pose proof (tm_eats_read fx _ _ _ _ E) as Hd. cbn [length] in *.
    rewrite (IH f2 r) by lia. reflexivity.
Qed.

(* the whole receive loop: no crash, allocation linear in the bytes that arrived *)
Lemma tm_stream_fuel_safe : forall fuel bs, bytes_ok bs = true -> (length bs <= fuel)%nat ->
  snd (fst (tm_stream_fuel true fuel bs)) <> TmCrash /\ snd (tm_stream_fuel true fuel bs) <= tm_stream_bound (nlen bs).
Proof.
  unfold tm_stream_bound, tm_stream_c1, tm_alloc_c0.
  induction fuel as [|fuel IH]; intros bs Hb Hf.
  - destruct bs; [|cbn in Hf; lia]. cbn. split; [discriminate|lia].
  - destruct bs as [|b bs']; [cbn; split; [discriminate|lia]|].
    cbn [tm_stream_fuel]. fold tm_read.
    pose proof (tm_tri_read _ Hb) as Ht.
    destruct (tm_read (b :: bs')) as [[m r| |] a] eqn:E.
    + destruct Ht as (_ & Hr & Ha).
      pose proof (tm_eats_read true _ _ _ _ E) as Hd.
      specialize (IH r Hr ltac:(cbn [length] in *; lia)).
      destruct (tm_stream_fuel true fuel r) as [[ms e] a']. cbn [fst snd] in *.
      destruct IH as (He & Ha'). split; [exact He|].
      unfold nlen in *. cbn [length] in *. lia.
    + split; [discriminate|]. cbn [snd]. lia.
    + contradiction.
Qed.

(* the code before the repairs: a 22-byte XFER_SEGMENT and a 25-byte SESS_INIT that make the node panic
   or allocate gigabytes that never arrive *)

(* XFER_SEGMENT, no extension items, data length 2^64-1: make panics *)
Definition tm_wit_segment_panic : list N := [1; 0] ++ be_encode 8 7 ++ be_encode 4 0 ++ be_encode 8 (tm_u64 - 1).
(* XFER_SEGMENT, data length 2^40: one tebibyte is allocated for bytes that never come *)
Definition tm_wit_segment_data : list N := [1; 0] ++ be_encode 8 7 ++ be_encode 4 0 ++ be_encode 8 (2 ^ 40).
(* XFER_SEGMENT, transfer extension length 2^32-1 *)
Definition tm_wit_segment_ext : list N := [1; 0] ++ be_encode 8 7 ++ be_encode 4 (tm_u32 - 1).
(* SESS_INIT, empty node id, session extension length 2^32-1 *)
Definition tm_wit_init_ext : list N :=
  [7] ++ be_encode 2 30 ++ be_encode 8 1000 ++ be_encode 8 1000 ++ be_encode 2 0 ++ be_encode 4 (tm_u32 - 1).

Example tm_orig_segment_panics : tm_read_orig tm_wit_segment_panic = (TmPanic, 0).
Proof. vm_compute. reflexivity. Qed.
Example tm_orig_segment_data_balloons :
  tm_read_orig tm_wit_segment_data = (TmErr, 2 ^ 40) /\ nlen tm_wit_segment_data = 22.
Proof. vm_compute. split; reflexivity. Qed.
Example tm_orig_segment_ext_balloons :
  tm_read_orig tm_wit_segment_ext = (TmErr, 4294967295) /\ nlen tm_wit_segment_ext = 14.
Proof. vm_compute. split; reflexivity. Qed.
Example tm_orig_init_ext_balloons :
  tm_read_orig tm_wit_init_ext = (TmErr, 4294967295) /\ nlen tm_wit_init_ext = 25.
Proof. vm_compute. split; reflexivity. Qed.

(* the property as stated is false for the original code *)
Theorem tm_orig_refuted :
  (exists bs, bytes_ok bs = true /\ fst (tm_read_orig bs) = TmPanic)
  /\ (exists bs, bytes_ok bs = true /\ tm_alloc_bound (nlen bs) < snd (tm_read_orig bs)).
Proof.
  split.
  - exists tm_wit_segment_panic. vm_compute. split; reflexivity.
  - exists tm_wit_init_ext. vm_compute. split; reflexivity.
Qed.

Example tm_fixed_witnesses :
  tm_read tm_wit_segment_panic = (TmErr, 1024) /\ tm_read tm_wit_segment_data = (TmErr, 1024)
  /\ tm_read tm_wit_segment_ext = (TmErr, 0) /\ tm_read tm_wit_init_ext = (TmErr, 0).
Proof. vm_compute. repeat split; reflexivity. Qed.
