(* MuxConcProofs.v - invariants of the sub-step multiplexer model Model/MuxConc.v (code as it is:
   drain loop present, Endpoints iterates under the lock), delivery, Endpoints completeness, deadlock-freedom
   for every interleaving and any number of children / callers / bundles (induction over reachability);
   for the sharpness witnesses of Properties/C07_conc.v: a run is a reachable state, [mxc_stuck] is complete. *)
From DTN Require Import Base ListFacts MuxConc.
Open Scope nat_scope.

(* what the theorems of Properties/C07_conc.v are stated with, besides the model *)
Inductive mxc_reach (cfg : mxc_cfg) (s0 : mxc_state) : mxc_state -> Prop :=
| mxc_reach0 : mxc_reach cfg s0 s0
| mxc_reachS : forall s t s', mxc_reach cfg s0 s -> mxc_step cfg s t = Some s' -> mxc_reach cfg s0 s'.

(* between the append in Register and the removal in unregister *)
Definition mxc_regd (ch : mxc_child) : bool :=
  match mxh_kid ch with MxKrecv | MxKfwd _ | MxKlock | MxKclose | MxKrm => true | _ => false end.
(* an answer of a query that misses none of the endpoints it must see *)
Definition mxc_res_ok (r : mxc_res) : Prop :=
  match r with
  | MxHas e r must => In e must -> r = true
  | MxNoAgent b must => ~ In (mxb_dst b) must
  | MxSent _ => True
  end.

(* mxc_upd is ListFacts.list_upd by computation: the facts about list_upd apply to it as they stand *)
Lemma mxc_upd_length : forall A i (v : A) l, length (mxc_upd i v l) = length l.
Proof. exact @list_upd_length. Qed.

Lemma mxc_nth_default : forall A (d : A) l j, length l <= j -> nth j l d = d.
Proof. intros; apply nth_overflow; auto. Qed.

Lemma mxc_mem_In : forall c l, mxc_mem c l = true <-> In c l.
Proof.
  intros c l; unfold mxc_mem; rewrite existsb_exists; split.
  - intros [x [H1 H2]]. apply Nat.eqb_eq in H2; subst; auto.
  - intros H; exists c; split; auto. apply Nat.eqb_refl.
Qed.
Lemma mxc_mem_nIn : forall c l, mxc_mem c l = false <-> ~ In c l.
Proof. intros c l. rewrite <- mxc_mem_In. destruct (mxc_mem c l); split; congruence. Qed.

Lemma mxc_has_In : forall e l, mxc_has e l = true <-> In e l.
Proof. exact existsb_eqb_in. Qed.

Lemma mxc_remove_In : forall c l x, NoDup l -> (In x (mxc_remove c l) <-> x <> c /\ In x l).
Proof.
  intros c l x; induction l as [|a l IH]; intros ND; cbn; [tauto|].
  inversion ND as [|? ? Ha ND']; subst.
  destruct (Nat.eqb_spec a c) as [->|Hne]; cbn.
  - split; [intros H; split; auto; intros ->; contradiction | intros [H1 [H2|H2]]; congruence].
  - rewrite (IH ND'). split; [intros [H|[H1 H2]]; [subst; auto | auto] | intros [H1 [H2|H2]]; auto].
Qed.
Lemma mxc_remove_NoDup : forall c l, NoDup l -> NoDup (mxc_remove c l).
Proof.
  intros c l; induction l as [|a l IH]; intros ND; cbn; auto.
  inversion ND as [|? ? Ha ND']; subst.
  destruct (Nat.eqb_spec a c); auto. constructor; auto. rewrite mxc_remove_In by auto. tauto.
Qed.

(* the bodies of the model's [mxc_getc] and [mxc_getl], which the step lemmas unfold first: the facts about
   [nth] and [list_upd] then apply as they stand *)
Notation gc s c := (nth c (mxs_chs s) mxc_dch).
Notation gl s i := (nth i (mxs_cls s) mxc_dcl).

(* the model's [mxc_pend], [mxc_cur], [mxc_owed], [mxc_started] as functions of handle's program counter and
   history, not of a state: the invariant is stated of the components, so that it can be said of a successor
   of which only these have changed *)
Definition mxc_hpend (h : mxc_hpc) (c : nat) : bool :=
  match h with
  | MxHrecv => false
  | MxHlock _ => true
  | MxHloop _ rest => mxc_mem c rest
  | MxHsend _ c' rest => Nat.eqb c c' || mxc_mem c rest
  end.
Definition mxc_hcur (h : mxc_hpc) : list mxc_bundle :=
  match h with MxHrecv => [] | MxHlock m | MxHloop m _ | MxHsend m _ _ => [m] end.
Definition mxc_howed (h : mxc_hpc) (c : nat) : list mxc_bundle := if mxc_hpend h c then mxc_hcur h else [].
Definition mxc_hstarted (h : mxc_hpc) (acc : list mxc_bundle) (c : nat) : nat :=
  length acc - (if mxc_hpend h c then 1 else 0).

Lemma mxc_owed_hd : forall s c, mxc_owed s c = mxc_howed (mxs_hd s) c.
Proof. reflexivity. Qed.
Lemma mxc_started_hd : forall s c, mxc_started s c = mxc_hstarted (mxs_hd s) (mxs_acc s) c.
Proof. reflexivity. Qed.

Definition mxc_holds (h : mxc_hpc) (chs : list mxc_child) (cls : list mxc_caller) (o : mxc_owner) : bool :=
  match o with
  | MxOH => match h with MxHloop _ _ | MxHsend _ _ _ => true | _ => false end
  | MxOC i => match mxl_pc (nth i cls mxc_dcl) with MxCearly _ | MxCiter _ _ _ _ => true | _ => false end
  | MxOG c => match mxh_reg (nth c chs mxc_dch) with MxG1 | MxG2 => true | _ => false end
  | MxOK c => match mxh_kid (nth c chs mxc_dch) with MxKclose | MxKrm | MxKunl => true | _ => false end
  end.

(* its three tests on a cell, by name: a step that writes one cell changes [mxc_holds] through these only *)
Definition mxc_g_holds g := match g with MxG1 | MxG2 => true | _ => false end.
Definition mxc_k_holds k := match k with MxKclose | MxKrm | MxKunl => true | _ => false end.
Definition mxc_c_holds p := match p with MxCearly _ | MxCiter _ _ _ _ => true | _ => false end.
Lemma mxc_holds_C : forall h chs cls i, mxc_holds h chs cls (MxOC i) = mxc_c_holds (mxl_pc (nth i cls mxc_dcl)).
Proof. reflexivity. Qed.
Lemma mxc_holds_G : forall h chs cls c, mxc_holds h chs cls (MxOG c) = mxc_g_holds (mxh_reg (nth c chs mxc_dch)).
Proof. reflexivity. Qed.
Lemma mxc_holds_K : forall h chs cls c, mxc_holds h chs cls (MxOK c) = mxc_k_holds (mxh_kid (nth c chs mxc_dch)).
Proof. reflexivity. Qed.

Definition mxc_g_early g := match g with MxG0 | MxG1 => true | _ => false end.
Definition mxc_g_done g := match g with MxG4 => true | _ => false end.
Definition mxc_k_late k := match k with MxKrm | MxKunl | MxKdone => true | _ => false end.
Definition mxc_k_closing k := match k with MxKlock | MxKclose | MxKrm | MxKunl | MxKdone => true | _ => false end.
Definition mxc_k_is0 k := match k with MxK0 => true | _ => false end.
Definition mxc_r_is0 r := match r with MxR0 => true | _ => false end.
Definition mxc_n_is0 n := match n with MxN0 => true | _ => false end.
Definition mxc_r_isdone r := match r with MxRdone => true | _ => false end.
Definition mxc_r_isreply r := match r with MxRreply _ => true | _ => false end.
Definition mxc_n_isrun n := match n with MxNrun => true | _ => false end.
Definition mxc_r_aftershut r := match r with MxRdrain | MxRdone => true | _ => false end.

Record mxc_chinv (cfg : mxc_cfg) (ch : mxc_child) : Prop := {
  ci_rclosed : mxh_rclosed ch = mxc_k_late (mxh_kid ch);
  ci_k0 : mxc_k_is0 (mxh_kid ch) = mxc_g_early (mxh_reg ch);
  ci_r0 : mxc_r_is0 (mxh_rd ch) = negb (mxc_g_done (mxh_reg ch));
  ci_n0 : mxc_n_is0 (mxh_cn ch) = negb (mxc_g_done (mxh_reg ch));
  ci_done : mxc_r_isdone (mxh_rd ch) = true -> mxc_drain cfg = true -> mxh_rclosed ch = true;
  ci_reply : mxc_r_isreply (mxh_rd ch) = true -> mxh_reply ch = true;
  ci_sclosed : mxc_k_closing (mxh_kid ch) = true -> mxh_sclosed ch = true;
  ci_since0 : mxh_since ch = None -> mxh_log ch = [];
  ci_since1 : mxh_since ch <> None -> mxh_ep ch <> None;
  ci_since2 : mxc_g_early (mxh_reg ch) = true -> mxh_since ch = None;
  ci_since3 : mxc_g_early (mxh_reg ch) = false -> mxh_ep ch <> None -> mxh_since ch <> None;
  ci_cnrun : mxc_n_isrun (mxh_cn ch) = true -> mxh_reply ch = false;
  ci_rs : mxh_reply ch = true -> mxh_sclosed ch = true -> mxc_r_aftershut (mxh_rd ch) = true
}.

Definition mxc_hdinv (h : mxc_hpc) (acc : list mxc_bundle) (children : list nat) (chs : list mxc_child) : Prop :=
  match h with
  | MxHrecv => True
  | MxHlock m => exists pre, acc = pre ++ [m]
  | MxHloop m rest => (exists pre, acc = pre ++ [m]) /\ NoDup rest /\ incl rest children
  | MxHsend m c rest => (exists pre, acc = pre ++ [m]) /\ NoDup (c :: rest) /\ incl (c :: rest) children
                        /\ mxc_match (mxh_ep (nth c chs mxc_dch)) m = true
  end.

(* a running query: nothing it must see is lost - it has the endpoint, or the child's cell is still to come.
   [MxCearly] and a frozen array [fz] exist only with [mxc_nocopy]: this conjunct is an invariant of the code as
   it is (nocopy = false, the hypothesis of the step lemmas of the callers and of Register), whereas
   [ci_done] holds with and without the drain loop and asks for [mxc_drain] where it is used, and [mxc_upsync]
   matters to progress only *)
Definition mxc_qinv (children : list nat) (chs : list mxc_child) (cl : mxc_caller) : Prop :=
  match mxl_pc cl with
  | MxCearly _ => False
  | MxCiter n j fz acc =>
      fz = None /\ n = length children
      /\ forall e, In e (mxl_must cl) ->
           In e acc \/ exists c, In c (skipn j children) /\ mxh_ep (nth c chs mxc_dch) = Some e
  | _ => True
  end.

(* delivery to child c from the moment it is registered with an endpoint e ([mxh_since] = Some k: k fan-outs
   had passed it then).  What it has taken, followed by some [rest], is what handle took for e from fan-out k on.
   As long as c is in the list and reading, [rest] is what it is still owed of the message in hand; of a
   reader that has stopped nothing more is said, it may leave a message untaken.  [k <= mxc_hstarted], hence
   k <= length acc, lets [skipn k] commute with the growth of the history. *)
Definition mxc_dlv (h : mxc_hpc) (acc : list mxc_bundle) (children : list nat) (c : nat) (ch : mxc_child) : Prop :=
  match mxh_since ch, mxh_ep ch with
  | Some k, Some e =>
      k <= mxc_hstarted h acc c
      /\ exists rest, mxh_log ch ++ rest = filter (mxc_match (Some e)) (skipn k acc)
                      /\ (In c children -> mxc_reading ch = true -> rest = filter (mxc_match (Some e)) (mxc_howed h c))
  | _, _ => True
  end.

(* [iv_lock] below, of a state given by its components: the frames state it of a successor (h', chs', cls', lk) *)
Definition mxc_lockinv h chs cls (lk : option mxc_owner) : Prop :=
  forall o, mxc_holds h chs cls o = true <-> lk = Some o.

Record mxc_inv (cfg : mxc_cfg) (s : mxc_state) : Prop := {
  iv_lock : forall o, mxc_holds (mxs_hd s) (mxs_chs s) (mxs_cls s) o = true <-> mxs_lock s = Some o;
  iv_nodup : NoDup (mxs_children s);
  iv_regd : forall c, In c (mxs_children s) <-> mxc_regd (gc s c) = true;
  iv_ch : forall c, mxc_chinv cfg (gc s c);
  iv_hd : mxc_hdinv (mxs_hd s) (mxs_acc s) (mxs_children s) (mxs_chs s);
  iv_q : forall i, mxc_qinv (mxs_children s) (mxs_chs s) (gl s i);
  iv_res : forall i r, In r (mxl_res (gl s i)) -> mxc_res_ok r;
  iv_dlv : forall c, mxc_dlv (mxs_hd s) (mxs_acc s) (mxs_children s) c (gc s c)
}.

(* the defaults of [gc] and [gl] are a fresh child and a fresh caller, so every cell of the initial state,
   in range or not, is a fresh one *)
Lemma mxc_init_gc : forall chs cls c, gc (mxc_init chs cls) c = mxc_child0 (nth c chs (None, false, [])).
Proof. intros. exact (map_nth mxc_child0 chs (None, false, []) c). Qed.
Lemma mxc_init_gl : forall chs cls i, gl (mxc_init chs cls) i = mxc_caller0 (nth i cls ([], false)).
Proof. intros. exact (map_nth mxc_caller0 cls ([], false) i). Qed.

Lemma mxc_chinv_child0 : forall cfg sp, mxc_chinv cfg (mxc_child0 sp).
Proof. intros cfg [[e r] sc]; constructor; cbn; auto; try discriminate; try congruence. Qed.

Lemma mxc_inv_init : forall cfg chs cls, mxc_inv cfg (mxc_init chs cls).
Proof.
  intros cfg chs cls; constructor.
  - intros o; split; [|discriminate]. destruct o; cbn [mxc_holds]; rewrite ?mxc_init_gl, ?mxc_init_gc; discriminate.
  - constructor.
  - intros c; split; [intros []|]. rewrite mxc_init_gc. discriminate.
  - intros c. rewrite mxc_init_gc. apply mxc_chinv_child0.
  - exact I.
  - intros i. rewrite mxc_init_gl. exact I.
  - intros i r. rewrite mxc_init_gl. intros [].
  - intros c. rewrite mxc_init_gc. exact I.
Qed.

Lemma mxc_owner_dec : forall o o' : mxc_owner, {o = o'} + {o <> o'}.
Proof. repeat decide equality. Qed.

Lemma mxc_lock_acquire : forall cfg s me h' chs' cls',
  mxc_inv cfg s -> mxs_lock s = None ->
  mxc_holds h' chs' cls' me = true ->
  (forall o, o <> me -> mxc_holds h' chs' cls' o = mxc_holds (mxs_hd s) (mxs_chs s) (mxs_cls s) o) ->
  mxc_lockinv h' chs' cls' (Some me).
Proof.
  intros cfg s me h' chs' cls' Iv El Hm Hs o. destruct (mxc_owner_dec o me) as [->|Hne]; [tauto|].
  rewrite (Hs o Hne), (iv_lock _ _ Iv o), El. split; congruence.
Qed.
Lemma mxc_lock_release : forall cfg s me h' chs' cls',
  mxc_inv cfg s -> mxc_holds (mxs_hd s) (mxs_chs s) (mxs_cls s) me = true ->
  mxc_holds h' chs' cls' me = false ->
  (forall o, o <> me -> mxc_holds h' chs' cls' o = mxc_holds (mxs_hd s) (mxs_chs s) (mxs_cls s) o) ->
  mxc_lockinv h' chs' cls' None.
Proof.
  intros cfg s me h' chs' cls' Iv Hm Hm' Hs o. apply (iv_lock _ _ Iv) in Hm.
  destruct (mxc_owner_dec o me) as [->|Hne]; [split; congruence|].
  rewrite (Hs o Hne), (iv_lock _ _ Iv o), Hm. split; congruence.
Qed.
Lemma mxc_lock_keep : forall cfg s h' chs' cls',
  mxc_inv cfg s ->
  (forall o, mxc_holds h' chs' cls' o = mxc_holds (mxs_hd s) (mxs_chs s) (mxs_cls s) o) ->
  mxc_lockinv h' chs' cls' (mxs_lock s).
Proof. intros cfg s h' chs' cls' Iv Hs o. rewrite Hs. apply Iv. Qed.
Lemma mxc_lock_other : forall cfg s o, mxc_inv cfg s -> mxs_lock s <> Some o ->
  mxc_holds (mxs_hd s) (mxs_chs s) (mxs_cls s) o = false.
Proof.
  intros cfg s o Iv H. destruct (mxc_holds (mxs_hd s) (mxs_chs s) (mxs_cls s) o) eqn:E; auto.
  apply (iv_lock _ _ Iv) in E. congruence.
Qed.

Lemma mxc_holds_updc : forall h chs cls c v o,
  (o = MxOG c -> mxc_g_holds (mxh_reg v) = mxc_g_holds (mxh_reg (nth c chs mxc_dch))) ->
  (o = MxOK c -> mxc_k_holds (mxh_kid v) = mxc_k_holds (mxh_kid (nth c chs mxc_dch))) ->
  mxc_holds h (mxc_upd c v chs) cls o = mxc_holds h chs cls o.
Proof.
  intros h chs cls c v [|i|c'|c'] Hg Hk; try reflexivity.
  - rewrite !mxc_holds_G. apply (nth_list_upd_obs _ (fun ch => mxc_g_holds (mxh_reg ch))). intros ->; auto.
  - rewrite !mxc_holds_K. apply (nth_list_upd_obs _ (fun ch => mxc_k_holds (mxh_kid ch))). intros ->; auto.
Qed.
Lemma mxc_holds_updl : forall h chs cls i v o,
  (o = MxOC i -> mxc_c_holds (mxl_pc v) = mxc_c_holds (mxl_pc (nth i cls mxc_dcl))) ->
  mxc_holds h chs (mxc_upd i v cls) o = mxc_holds h chs cls o.
Proof.
  intros h chs cls i v [|i'|c|c] H; try reflexivity.
  rewrite !mxc_holds_C. apply (nth_list_upd_obs _ (fun cl => mxc_c_holds (mxl_pc cl))). intros ->; auto.
Qed.

Lemma mxc_hdinv_ep : forall h acc children chs chs',
  (forall c e, mxh_ep (nth c chs mxc_dch) = Some e -> mxh_ep (nth c chs' mxc_dch) = Some e) ->
  mxc_hdinv h acc children chs -> mxc_hdinv h acc children chs'.
Proof.
  intros h acc children chs chs' E H. destruct h; cbn in *; auto. destruct H as [A [B [C M]]]. repeat split; auto.
  destruct (mxh_ep (nth c chs mxc_dch)) eqn:Ee; [|discriminate]. rewrite (E _ _ Ee). exact M.
Qed.

Lemma mxc_qinv_ep : forall children chs chs' cl,
  (forall c e, mxh_ep (nth c chs mxc_dch) = Some e -> mxh_ep (nth c chs' mxc_dch) = Some e) ->
  mxc_qinv children chs cl -> mxc_qinv children chs' cl.
Proof.
  intros children chs chs' cl E H. unfold mxc_qinv in *. destruct (mxl_pc cl); auto.
  destruct H as [H1 [H2 H3]]. split; auto. split; auto. intros e He.
  destruct (H3 e He) as [Q|[c [Q1 Q2]]]; auto. right. exists c; auto.
Qed.

Lemma mxc_hstarted_le : forall h h' acc c,
  (mxc_hpend h' c = true -> mxc_hpend h c = true) -> mxc_hstarted h acc c <= mxc_hstarted h' acc c.
Proof.
  intros h h' acc c H; unfold mxc_hstarted.
  destruct (mxc_hpend h' c); destruct (mxc_hpend h c); try lia; try discriminate (H eq_refl).
Qed.

Lemma mxc_dlv_step : forall h acc children c ch h' children' ch',
  mxc_dlv h acc children c ch ->
  mxh_since ch' = mxh_since ch -> mxh_ep ch' = mxh_ep ch -> mxh_log ch' = mxh_log ch ->
  (mxc_hpend h' c = true -> mxc_hpend h c = true) ->
  (In c children' -> mxc_reading ch' = true ->
     In c children /\ mxc_reading ch = true
     /\ forall e, mxh_ep ch = Some e ->
          filter (mxc_match (Some e)) (mxc_howed h' c) = filter (mxc_match (Some e)) (mxc_howed h c)) ->
  mxc_dlv h' acc children' c ch'.
Proof.
  intros h acc children c ch h' children' ch' D E1 E2 E3 Hp Hr.
  unfold mxc_dlv in *. rewrite E1, E2, E3.
  destruct (mxh_since ch) as [k|]; auto. destruct (mxh_ep ch) as [e|] eqn:Ee; auto.
  destruct D as [D1 [rest [D2 D3]]]. split.
  - pose proof (mxc_hstarted_le h h' acc c Hp). lia.
  - exists rest; split; auto. intros Hi Hrd. destruct (Hr Hi Hrd) as [A [B C]].
    rewrite (C e eq_refl). auto.
Qed.

Lemma mxc_skipn_started : forall h acc children chs c,
  mxc_hdinv h acc children chs -> skipn (mxc_hstarted h acc c) acc = mxc_howed h c.
Proof.
  intros h acc children chs c H. unfold mxc_hstarted, mxc_howed.
  destruct (mxc_hpend h c) eqn:E.
  - assert (P : exists pre m, acc = pre ++ [m] /\ mxc_hcur h = [m]).
    { destruct h; cbn in *; try discriminate; [destruct H as [pre H] | destruct H as [[pre H] _] | destruct H as [[pre H] _]]; eauto. }
    destruct P as [pre [m [-> ->]]]. rewrite app_length; cbn [length].
    replace (length pre + 1 - 1) with (length pre) by lia.
    rewrite skipn_app, skipn_all, Nat.sub_diag. reflexivity.
  - rewrite Nat.sub_0_r. apply skipn_all.
Qed.

(* a child becomes registered with an endpoint: its delivery obligation starts with the fan-out under way,
   if handle has one and has not passed the child *)
Lemma mxc_dlv_fresh : forall h acc children0 chs children c ch e,
  mxc_hdinv h acc children0 chs ->
  mxh_since ch = Some (mxc_hstarted h acc c) -> mxh_ep ch = Some e -> mxh_log ch = [] ->
  mxc_dlv h acc children c ch.
Proof.
  intros h acc children0 chs children c ch e H Es Ee El. unfold mxc_dlv. rewrite Es, Ee, El. split; [lia|].
  exists (filter (mxc_match (Some e)) (skipn (mxc_hstarted h acc c) acc)).
  split; auto. intros _ _. erewrite mxc_skipn_started; eauto.
Qed.

Definition mxc_chmono (ch ch' : mxc_child) : Prop :=
  mxh_reply ch' = mxh_reply ch
  /\ (forall k, mxh_since ch = Some k -> mxh_since ch' = Some k)
  /\ (forall e, mxh_ep ch = Some e -> mxh_ep ch' = Some e)
  /\ (mxc_reading ch' = true -> mxc_reading ch = true).
Definition mxc_mono (s s' : mxc_state) : Prop :=
  mxs_panic s' = mxs_panic s
  /\ (exists new, mxs_acc s' = mxs_acc s ++ new)
  /\ (exists more, map mxl_up (mxs_cls s') = map mxl_up (mxs_cls s) ++ more)
  /\ forall c, mxc_chmono (gc s c) (gc s' c).

Lemma mxc_chmono_refl : forall ch, mxc_chmono ch ch.
Proof. intros ch; repeat split; auto. Qed.
Lemma mxc_mono_trans : forall a b c, mxc_mono a b -> mxc_mono b c -> mxc_mono a c.
Proof.
  intros a b c [A0 [[n1 A1] [[m1 A2] A3]]] [B0 [[n2 B1] [[m2 B2] B3]]]. split; [congruence|]. split; [|split].
  - exists (n1 ++ n2). rewrite B1, A1, app_assoc. auto.
  - exists (m1 ++ m2). rewrite B2, A2, app_assoc. auto.
  - intros x. destruct (A3 x) as [P0 [P1 [P2 P3]]]. destruct (B3 x) as [Q0 [Q1 [Q2 Q3]]].
    repeat split; auto. congruence.
Qed.

Lemma mxc_mono_child : forall s c v s',
  mxs_panic s' = mxs_panic s -> mxs_acc s' = mxs_acc s -> mxs_cls s' = mxs_cls s ->
  mxs_chs s' = mxc_upd c v (mxs_chs s) -> mxc_chmono (gc s c) v -> mxc_mono s s'.
Proof.
  intros s c v s' E0 E1 E2 E3 H. split; auto. rewrite E1, E2, E3.
  split; [exists []; apply app_nil_end|]. split; [exists []; apply app_nil_end|].
  apply (list_upd_forall _ (fun j => mxc_chmono (gc s j))); auto. intros; apply mxc_chmono_refl.
Qed.

Definition mxc_next (cfg : mxc_cfg) (s s' : mxc_state) : Prop := mxc_inv cfg s' /\ mxc_mono s s'.
Lemma mxc_next_trans : forall cfg a b c, mxc_next cfg a b -> mxc_next cfg b c -> mxc_next cfg a c.
Proof. intros cfg a b c [_ A] [B C]. split; auto. eapply mxc_mono_trans; eauto. Qed.

(* the frames below write the successor as [mk_mxs ...]: the setter terms of the step functions convert to
   that, whether or not they set the lock; stale cells and capacity are in no conjunct *)

Lemma mxc_next_child : forall cfg s c v lk st cap,
  mxc_inv cfg s ->
  mxc_lockinv (mxs_hd s) (mxc_upd c v (mxs_chs s)) (mxs_cls s) lk ->
  mxh_ep v = mxh_ep (gc s c) -> mxh_since v = mxh_since (gc s c) -> mxh_log v = mxh_log (gc s c) ->
  mxh_reply v = mxh_reply (gc s c) -> mxc_regd v = mxc_regd (gc s c) ->
  (mxc_reading v = true -> mxc_reading (gc s c) = true) ->
  mxc_chinv cfg v ->
  mxc_next cfg s (mk_mxs lk (mxs_hd s) (mxs_children s) st cap (mxc_upd c v (mxs_chs s)) (mxs_cls s)
                    (mxs_acc s) (mxs_panic s)).
Proof.
  intros cfg s c v lk st cap Iv L E1 E2 E3 E4 E5 Hr C.
  assert (Ep : forall c' e, mxh_ep (gc s c') = Some e -> mxh_ep (nth c' (mxc_upd c v (mxs_chs s)) mxc_dch) = Some e).
  { intros c' e. rewrite (nth_list_upd_obs _ mxh_ep); auto. }
  split.
  - destruct Iv as [IL IN IR IC IH IQ IS ID]. constructor; cbn; auto.
    + intros c'. rewrite (nth_list_upd_obs _ mxc_regd); auto.
    + apply (list_upd_forall _ (fun _ => mxc_chinv cfg)); auto.
    + eapply mxc_hdinv_ep; eauto.
    + intros i. eapply mxc_qinv_ep; eauto.
    + apply (list_upd_forall _ (fun c' => mxc_dlv (mxs_hd s) (mxs_acc s) (mxs_children s) c')); auto.
      eapply mxc_dlv_step; [apply ID | auto ..].
  - eapply mxc_mono_child with (c := c) (v := v); try reflexivity. repeat split; auto; congruence.
Qed.

Lemma mxc_next_quiet : forall cfg s c v st cap,
  mxc_inv cfg s ->
  mxc_g_holds (mxh_reg v) = mxc_g_holds (mxh_reg (gc s c)) ->
  mxc_k_holds (mxh_kid v) = mxc_k_holds (mxh_kid (gc s c)) ->
  mxh_ep v = mxh_ep (gc s c) -> mxh_since v = mxh_since (gc s c) -> mxh_log v = mxh_log (gc s c) ->
  mxh_reply v = mxh_reply (gc s c) -> mxc_regd v = mxc_regd (gc s c) ->
  (mxc_reading v = true -> mxc_reading (gc s c) = true) ->
  mxc_chinv cfg v ->
  mxc_next cfg s (mk_mxs (mxs_lock s) (mxs_hd s) (mxs_children s) st cap (mxc_upd c v (mxs_chs s)) (mxs_cls s)
                    (mxs_acc s) (mxs_panic s)).
Proof.
  intros cfg s c v st cap Iv; intros. apply mxc_next_child; auto.
  apply (mxc_lock_keep cfg s); auto. intros o. apply mxc_holds_updc; auto.
Qed.

Lemma mxc_next_hd : forall cfg s h' lk st cap,
  mxc_inv cfg s ->
  mxc_lockinv h' (mxs_chs s) (mxs_cls s) lk ->
  mxc_hdinv h' (mxs_acc s) (mxs_children s) (mxs_chs s) ->
  (forall c, mxc_hpend h' c = true -> mxc_hpend (mxs_hd s) c = true) ->
  (forall c e, In c (mxs_children s) -> mxc_reading (gc s c) = true -> mxh_ep (gc s c) = Some e ->
     filter (mxc_match (Some e)) (mxc_howed h' c) = filter (mxc_match (Some e)) (mxc_howed (mxs_hd s) c)) ->
  mxc_next cfg s (mk_mxs lk h' (mxs_children s) st cap (mxs_chs s) (mxs_cls s) (mxs_acc s) (mxs_panic s)).
Proof.
  intros cfg s h' lk st cap [IL IN IR IC IH IQ IS ID] L H Hp Ho. split.
  - constructor; cbn; auto. intros c. eapply mxc_dlv_step; [apply ID | auto ..].
  - repeat split; cbn; auto; try (exists []; apply app_nil_end).
Qed.

Lemma mxc_next_caller : forall cfg s i v lk st cap,
  mxc_inv cfg s ->
  mxc_lockinv (mxs_hd s) (mxs_chs s) (mxc_upd i v (mxs_cls s)) lk ->
  mxl_up v = mxl_up (gl s i) ->
  mxc_qinv (mxs_children s) (mxs_chs s) v ->
  (forall r, In r (mxl_res v) -> mxc_res_ok r) ->
  mxc_next cfg s (mk_mxs lk (mxs_hd s) (mxs_children s) st cap (mxs_chs s) (mxc_upd i v (mxs_cls s))
                    (mxs_acc s) (mxs_panic s)).
Proof.
  intros cfg s i v lk st cap [IL IN IR IC IH IQ IS ID] L U Q R. split.
  - constructor; cbn; auto.
    + apply (list_upd_forall _ (fun _ => mxc_qinv (mxs_children s) (mxs_chs s))); auto.
    + apply (list_upd_forall _ (fun _ cl => forall r, In r (mxl_res cl) -> mxc_res_ok r)); auto.
  - split; auto. split; [exists []; apply app_nil_end|]. split; [|intros; apply mxc_chmono_refl].
    exists []. cbn. rewrite (map_list_upd _ mxc_dcl) by auto. apply app_nil_end.
Qed.

Lemma mxc_res_snoc : forall l x, (forall r, In r l -> mxc_res_ok r) -> mxc_res_ok x ->
  forall r, In r (l ++ [x]) -> mxc_res_ok r.
Proof. intros l x H Hx r Hr. apply in_app_or in Hr. destruct Hr as [Hr|[<-|[]]]; auto. Qed.

(* [mxc_chinv] of a new child from [C], the invariant of the old one, and the equations for the old one's
   program counters: with the old child and [C] taken apart they are facts about constructors.  Where a conjunct
   needs more than its old self, the fact is put into the context before the call. *)
Ltac mxc_ci C :=
  match type of C with mxc_chinv _ ?ch =>
    destruct ch as [ep rp rg rd cn sc kd rc sd lg sn]; destruct C; cbn in *; subst; constructor; cbn; auto;
    try congruence
  end.

Lemma mxc_regd_late : forall cfg ch, mxc_chinv cfg ch -> mxc_regd ch = true -> mxc_g_early (mxh_reg ch) = false.
Proof.
  intros cfg ch C H. pose proof (ci_k0 _ _ C) as K. unfold mxc_regd in H.
  destruct (mxh_reg ch); auto; destruct (mxh_kid ch); discriminate.
Qed.

Lemma mxc_conn_no_reply : forall cfg ch, mxc_chinv cfg ch -> mxh_cn ch = MxNrun -> mxh_reply ch = false.
Proof. intros cfg ch C E. apply (ci_cnrun _ _ C). rewrite E. reflexivity. Qed.

(* MuxAgent.handle sends to registered children only, and unregister closes the receiver under the lock *)
Lemma mxc_send_open : forall cfg s m c rest, mxc_inv cfg s -> mxs_hd s = MxHsend m c rest ->
  In c (mxs_children s) /\ c < length (mxs_chs s) /\ mxh_rclosed (gc s c) = false.
Proof.
  intros cfg s m c rest Iv Eh. pose proof (iv_hd _ _ Iv) as IH. rewrite Eh in IH.
  assert (Hi : In c (mxs_children s)) by (apply IH; left; auto).
  pose proof (proj1 (iv_regd _ _ Iv c) Hi) as Hrg. unfold mxc_regd in Hrg.
  assert (Hk : mxc_holds (mxs_hd s) (mxs_chs s) (mxs_cls s) (MxOK c) = false).
  { apply (mxc_lock_other cfg); auto. rewrite (proj1 (iv_lock _ _ Iv MxOH)); [discriminate|]. rewrite Eh. reflexivity. }
  rewrite mxc_holds_K in Hk. split; auto. split.
  - apply (nth_in_range mxh_kid mxc_dch). intros E. rewrite E in Hrg. discriminate.
  - rewrite (ci_rclosed _ _ (iv_ch _ _ Iv c)). destruct (mxh_kid (gc s c)); try discriminate; reflexivity.
Qed.

Lemma mxc_next_deliver : forall cfg s m c rest st cap,
  mxc_inv cfg s -> mxs_hd s = MxHsend m c rest -> mxh_rd (gc s c) = MxRrun ->
  mxc_next cfg s
    (mk_mxs (mxs_lock s) (MxHloop m rest) (mxs_children s) st cap
       (mxc_upd c (mxh_set_rd (if mxh_reply (gc s c) then MxRreply (mxc_reply m) else MxRrun)
                     (mxh_set_log (mxh_log (gc s c) ++ [m]) (gc s c))) (mxs_chs s))
       (mxs_cls s) (mxs_acc s) (mxs_panic s)).
Proof.
  intros cfg s m c rest st cap Iv Eh Erd.
  destruct (mxc_send_open _ _ _ _ _ Iv Eh) as [Hin [Hc Hrc]].
  pose proof Iv as [_ IN IR IC IH IQ IS ID]. rewrite Eh in *.
  destruct IH as [A [B [C M]]]. inversion B as [|? ? B1 B2]; subst.
  set (v := mxh_set_rd _ _). split.
  - constructor; cbn [mxs_lock mxs_hd mxs_children mxs_chs mxs_cls mxs_acc]; auto.
    + apply (mxc_lock_keep cfg s); auto. intros o. rewrite mxc_holds_updc, Eh by reflexivity. destruct o; reflexivity.
    + intros c'. rewrite (nth_list_upd_obs _ mxc_regd); auto.
    + apply (list_upd_forall _ (fun _ => mxc_chinv cfg)); auto.
      (* it has a log now, so it needs a [mxh_since]: it is registered, and the message matches its endpoint *)
      assert (Hs : mxh_since (gc s c) <> None).
      { apply (ci_since3 _ _ (IC c)); [exact (mxc_regd_late _ _ (IC c) (proj1 (IR c) Hin))|].
        destruct (mxh_ep (gc s c)); discriminate. }
      pose proof (IC c) as Cc. subst v. destruct (mxh_reply (gc s c)) eqn:Erp; mxc_ci Cc.
    + split; auto. split; auto. intros x Hx. apply C. right; auto.
    + intros i. eapply mxc_qinv_ep; [|apply IQ]. intros c' e. rewrite (nth_list_upd_obs _ mxh_ep); auto.
    + intros c'. rewrite nth_list_upd by auto. destruct (Nat.eqb_spec c' c) as [->|Hne].
      * (* what c was owed is the message it takes *)
        specialize (ID c). unfold mxc_dlv in *. subst v; cbn [mxh_since mxh_ep mxh_log mxh_set_rd mxh_set_log].
        destruct (mxh_since (gc s c)) as [k|]; auto. destruct (mxh_ep (gc s c)) as [e|] eqn:Ee; auto.
        destruct ID as [D1 [rest0 [D2 D3]]].
        assert (R : rest0 = [m]).
        { rewrite D3; auto.
          - unfold mxc_howed; cbn [mxc_hpend mxc_hcur]. rewrite Nat.eqb_refl. cbn [orb filter]. rewrite M. reflexivity.
          - unfold mxc_reading. rewrite Erd. reflexivity. }
        subst rest0. split.
        -- pose proof (mxc_hstarted_le (MxHsend m c rest) (MxHloop m rest) (mxs_acc s) c) as L.
           cbn [mxc_hpend] in L. rewrite Nat.eqb_refl in L. specialize (L (fun _ => eq_refl)). lia.
        -- exists []. rewrite app_nil_r. split; auto. intros _ _. unfold mxc_howed; cbn [mxc_hpend mxc_hcur].
           apply mxc_mem_nIn in B1. rewrite B1. reflexivity.
      * eapply mxc_dlv_step; [apply ID | auto ..].
        -- cbn [mxc_hpend]. intros ->. apply orb_true_r.
        -- intros Hi Hr. split; auto. split; auto. intros e Ee. unfold mxc_howed; cbn [mxc_hpend mxc_hcur].
           apply Nat.eqb_neq in Hne. rewrite Hne. reflexivity.
  - eapply mxc_mono_child with (c := c) (v := v); try reflexivity. repeat split; auto.
    intros _. unfold mxc_reading. rewrite Erd. reflexivity.
Qed.

(* the successor as the step functions build it, in the form [mk_mxs ...] of the frames *)
Ltac mxc_unfold_setters :=
  unfold mxc_setc, mxc_setl, mxs_set_lock, mxs_set_hd, mxs_set_arr, mxs_set_chs, mxs_set_cls, mxs_set_acc;
  cbn [mxs_lock mxs_hd mxs_children mxs_stale mxs_cap mxs_chs mxs_cls mxs_acc mxs_panic].

Lemma mxc_step_h_next : forall cfg s s', mxc_inv cfg s -> mxc_step_h s = Some s' -> mxc_next cfg s s'.
Proof.
  intros cfg s s' Iv H. unfold mxc_step_h, mxc_getc in H. pose proof (iv_hd _ _ Iv) as IH.
  destruct (mxs_hd s) as [|m|m [|c rest]|m c rest] eqn:Eh; [discriminate| | | |].
  - destruct (mxs_lock s) eqn:El; [discriminate|]. injection H as <-; mxc_unfold_setters.
    apply mxc_next_hd; auto; rewrite ?Eh.
    + apply (mxc_lock_acquire cfg s MxOH); auto. intros [|i|c|c] Ho; [congruence|reflexivity..].
    + split; auto. split; [apply Iv | apply incl_refl].
    + reflexivity.
    + intros c e Hi _ _. unfold mxc_howed; cbn [mxc_hpend mxc_hcur]. apply mxc_mem_In in Hi. rewrite Hi. reflexivity.
  - injection H as <-; mxc_unfold_setters. apply mxc_next_hd; auto; rewrite ?Eh.
    + apply (mxc_lock_release cfg s MxOH); auto; [rewrite Eh; reflexivity|].
      intros [|i|c|c] Ho; [congruence|reflexivity..].
    + exact I.
    + discriminate.
    + reflexivity.
  - destruct IH as [A [B C]]. inversion B as [|? ? B1 B2]; subst.
    destruct (mxc_match (mxh_ep (gc s c)) m) eqn:Em; injection H as <-; mxc_unfold_setters;
      (apply mxc_next_hd; auto; rewrite ?Eh); try (apply (mxc_lock_keep cfg s); auto; rewrite Eh; reflexivity).
    + repeat split; auto.
    + auto.
    + reflexivity.
    + split; auto. split; auto. intros x Hx. apply C. right; auto.
    + intros c'. cbn [mxc_hpend]. rewrite !mxc_mem_In. intros Hx. right; exact Hx.
    + (* c is passed over because the message is not for it *)
      intros c' e Hi Hr Ee. unfold mxc_howed; cbn [mxc_hpend mxc_hcur].
      change (mxc_mem c' (c :: rest)) with (Nat.eqb c' c || mxc_mem c' rest).
      destruct (Nat.eqb_spec c' c) as [->|Hne]; auto.
      apply mxc_mem_nIn in B1. rewrite B1. cbn [orb filter]. rewrite Ee in Em. rewrite Em. reflexivity.
  - (* send: the receiver is open, this is not the panic branch *)
    destruct (mxc_send_open _ _ _ _ _ Iv Eh) as [Hin [Hc Hrc]]. rewrite Hrc in H.
    destruct IH as [A [B [C M]]]. inversion B as [|? ? B1 B2]; subst.
    destruct (mxh_rd (gc s c)) eqn:Erd; try discriminate; injection H as <-; mxc_unfold_setters.
    + apply mxc_next_deliver; auto.
    + apply mxc_next_hd; auto; rewrite ?Eh.
      * apply (mxc_lock_keep cfg s); auto. rewrite Eh. reflexivity.
      * split; auto. split; auto. intros x Hx. apply C. right; auto.
      * intros c'. cbn [mxc_hpend]. intros ->. apply orb_true_r.
      * intros c' e Hi Hr Ee. unfold mxc_howed; cbn [mxc_hpend mxc_hcur].
        destruct (Nat.eqb_spec c' c) as [->|Hne]; auto.
        unfold mxc_reading in Hr. rewrite Erd in Hr. discriminate.
Qed.

Lemma mxc_next_accept : forall cfg s b st cap,
  mxc_inv cfg s -> mxs_hd s = MxHrecv ->
  mxc_next cfg s (mk_mxs (mxs_lock s) (MxHlock b) (mxs_children s) st cap (mxs_chs s) (mxs_cls s)
                    (mxs_acc s ++ [b]) (mxs_panic s)).
Proof.
  intros cfg s b st cap [IL IN IR IC IH IQ IS ID] Eh. rewrite Eh in *. split.
  - constructor; cbn [mxs_lock mxs_hd mxs_children mxs_chs mxs_cls mxs_acc]; auto.
    + eexists; reflexivity.
    + (* every registered child is owed the new message if it is for its endpoint *)
      intros c. specialize (ID c). unfold mxc_dlv in *.
      destruct (mxh_since (gc s c)) as [k|]; auto. destruct (mxh_ep (gc s c)) as [e|]; auto.
      destruct ID as [D1 [rest [D2 D3]]]. unfold mxc_hstarted in *. cbn [mxc_hpend] in *.
      rewrite app_length. cbn [length]. split; [lia|].
      exists (rest ++ filter (mxc_match (Some e)) [b]). split.
      * rewrite skipn_app. replace (k - length (mxs_acc s)) with 0 by lia. cbn [skipn].
        rewrite filter_app, app_assoc, D2. reflexivity.
      * intros Hi Hr. rewrite (D3 Hi Hr). reflexivity.
  - split; [reflexivity|]. split; [eexists; reflexivity|]. split; [exists []; apply app_nil_end|].
    intros; apply mxc_chmono_refl.
Qed.

Lemma mxc_finish_up : forall cl acc, mxl_up (mxc_finish cl acc) = mxl_up cl.
Proof. intros cl acc. unfold mxc_finish. destruct (mxl_ops cl) as [|[e|b] r]; [| |destruct (mxc_has _ _)]; reflexivity. Qed.

Lemma mxc_finish_released : forall cl acc, mxc_c_holds (mxl_pc (mxc_finish cl acc)) = false.
Proof. intros cl acc. unfold mxc_finish. destruct (mxl_ops cl) as [|[e|b] r]; [| |destruct (mxc_has _ _)]; reflexivity. Qed.

Lemma mxc_finish_res_ok : forall cl acc,
  (forall e, In e (mxl_must cl) -> In e acc) -> (forall r, In r (mxl_res cl) -> mxc_res_ok r) ->
  forall r, In r (mxl_res (mxc_finish cl acc)) -> mxc_res_ok r.
Proof.
  intros cl acc Hacc R. unfold mxc_finish.
  destruct (mxl_ops cl) as [|[e|b] r]; [| |destruct (mxc_has (mxb_dst b) acc) eqn:Eh]; auto;
    apply mxc_res_snoc; auto; intros He.
  - apply mxc_has_In. auto.
  - apply Hacc, mxc_has_In in He. cbn in He. congruence.
Qed.

(* the step functions of the callers and of the children's threads start with a range check *)
Lemma mxc_guard : forall c n (x : option mxc_state) s',
  (if negb (c <? n) then None else x) = Some s' -> c < n /\ x = Some s'.
Proof. intros c n x s' H. destruct (Nat.ltb_spec c n); [auto|discriminate]. Qed.

Lemma mxc_step_c_next : forall cfg s i s', mxc_nocopy cfg = false ->
  mxc_inv cfg s -> mxc_step_c cfg s i = Some s' -> mxc_next cfg s s'.
Proof.
  intros cfg s i s' Hnc Iv H. unfold mxc_step_c, mxc_getl, mxc_getc in H. rewrite Hnc in H.
  apply mxc_guard in H. destruct H as [Ei H].
  pose proof (iv_q _ _ Iv i) as Q. pose proof (iv_res _ _ Iv i) as R. unfold mxc_qinv in Q.
  destruct (mxl_pc (gl s i)) as [|n|n j fz acc|b] eqn:Epc.
  - destruct (mxl_ops (gl s i)) eqn:Eo; [discriminate|]. destruct (mxs_lock s) eqn:El; [discriminate|].
    injection H as <-. mxc_unfold_setters. apply mxc_next_caller; auto.
    + apply (mxc_lock_acquire cfg s (MxOC i)); auto.
      * rewrite mxc_holds_C, nth_list_upd, Nat.eqb_refl by auto. reflexivity.
      * intros o Ho. apply mxc_holds_updl. congruence.
    + (* every endpoint there is now is still to come *)
      split; auto. split; auto. intros e He. right.
      apply in_flat_map in He. destruct He as [c [H1 H2]]. exists c. split; auto.
      unfold mxc_getc, mxc_eps in H2. destruct (mxh_ep (gc s c)); [destruct H2 as [->|[]]; reflexivity | destruct H2].
  - destruct Q. (* no [MxCearly] without nocopy *)
  - destruct Q as [-> [-> Q]]. destruct (Nat.ltb_spec j (length (mxs_children s))) as [Ej|Ej].
    + rewrite nth_error_app1, (nth_error_nth' _ 0) in H by auto. injection H as <-. mxc_unfold_setters.
      apply mxc_next_caller; auto.
      * apply (mxc_lock_keep cfg s); auto. intros o. apply mxc_holds_updl. intros _. rewrite Epc. reflexivity.
      * split; auto. split; auto. intros e He. cbn [mxl_must mxl_set_pc].
        destruct (Q e He) as [Q1|[c [Q1 Q2]]]; [left; apply in_or_app; auto|].
        rewrite (skipn_nth 0) in Q1 by auto. destruct Q1 as [<-|Q1].
        -- left. apply in_or_app. right. unfold mxc_eps. rewrite Q2. left; auto.
        -- right. exists c; auto.
    + injection H as <-. mxc_unfold_setters. pose proof (mxc_finish_released (gl s i) acc) as Fp.
      apply mxc_next_caller; auto using mxc_finish_up.
      * apply (mxc_lock_release cfg s (MxOC i)); rewrite ?mxc_holds_C.
        -- exact Iv.
        -- rewrite Epc. reflexivity.
        -- rewrite nth_list_upd, Nat.eqb_refl by auto. exact Fp.
        -- intros o Ho. apply mxc_holds_updl. congruence.
      * unfold mxc_qinv. destruct (mxl_pc (mxc_finish (gl s i) acc)); try discriminate; exact I.
      * apply mxc_finish_res_ok; auto. intros e He. destruct (Q e He) as [Q1|[c [Q1 Q2]]]; auto.
        rewrite skipn_all2 in Q1 by auto. destruct Q1.
  - destruct (mxs_hd s) eqn:Eh; try discriminate. injection H as <-. mxc_unfold_setters.
    pose (s1 := mxs_set_acc (mxs_acc s ++ [b]) (mxs_set_hd (MxHlock b) s)).
    assert (N1 : mxc_next cfg s s1) by exact (mxc_next_accept cfg s b _ _ Iv Eh).
    eapply mxc_next_trans; [exact N1|]. apply (mxc_next_caller cfg s1 i); auto; try apply N1.
    + apply (mxc_lock_keep cfg s1); [apply N1|]. intros o. apply mxc_holds_updl. intros _. cbn. rewrite Epc. reflexivity.
    + apply mxc_res_snoc; auto.
Qed.

(* Register and unregister change the children list holding the lock: handle is not in its loop, no query
   is running, so what is left to show is about the list and the one child *)
Lemma mxc_next_arr : forall cfg s c v children' st cap o,
  mxc_inv cfg s -> mxc_holds (mxs_hd s) (mxs_chs s) (mxs_cls s) o = true -> o <> MxOH -> (forall i, o <> MxOC i) ->
  mxc_g_holds (mxh_reg v) = mxc_g_holds (mxh_reg (gc s c)) ->
  mxc_k_holds (mxh_kid v) = mxc_k_holds (mxh_kid (gc s c)) ->
  NoDup children' ->
  (forall c', In c' children' <-> mxc_regd (nth c' (mxc_upd c v (mxs_chs s)) mxc_dch) = true) ->
  mxc_chinv cfg v -> mxc_chmono (gc s c) v ->
  (forall c', mxc_dlv (mxs_hd s) (mxs_acc s) children' c' (nth c' (mxc_upd c v (mxs_chs s)) mxc_dch)) ->
  mxc_next cfg s (mk_mxs (mxs_lock s) (mxs_hd s) children' st cap (mxc_upd c v (mxs_chs s)) (mxs_cls s)
                    (mxs_acc s) (mxs_panic s)).
Proof.
  intros cfg s c v children' st cap o Iv Ho Hh Hq Eg Ek ND Rg Cv Mv Dv. apply (iv_lock _ _ Iv) in Ho.
  assert (Hoth : forall o', o <> o' -> mxc_holds (mxs_hd s) (mxs_chs s) (mxs_cls s) o' = false).
  { intros o' Hne. apply (mxc_lock_other cfg); auto. congruence. }
  pose proof Iv as [_ IN IR IC IH IQ IS ID]. split.
  - constructor; cbn [mxs_lock mxs_hd mxs_children mxs_chs mxs_cls mxs_acc]; auto.
    + apply (mxc_lock_keep cfg s); auto. intros o'. apply mxc_holds_updc; auto.
    + apply (list_upd_forall _ (fun _ => mxc_chinv cfg)); auto.
    + specialize (Hoth MxOH Hh). destruct (mxs_hd s); auto; discriminate.
    + intros i. specialize (IQ i). specialize (Hoth (MxOC i) (Hq i)). unfold mxc_qinv in *. rewrite mxc_holds_C in Hoth.
      destruct (mxl_pc (gl s i)); auto; discriminate.
  - eapply mxc_mono_child with (c := c) (v := v); auto.
Qed.

Lemma mxc_step_g_next : forall cfg s c s', mxc_nocopy cfg = false ->
  mxc_inv cfg s -> mxc_step_g cfg s c = Some s' -> mxc_next cfg s s'.
Proof.
  intros cfg s c s' Hnc Iv H. unfold mxc_step_g, mxc_getc in H. rewrite Hnc in H.
  apply mxc_guard in H. destruct H as [Ec H].
  pose proof (iv_ch _ _ Iv c) as C.
  destruct (mxh_reg (gc s c)) eqn:Er.
  - destruct (mxs_lock s) eqn:El; [discriminate|]. injection H as <-. mxc_unfold_setters.
    apply mxc_next_child; auto; [|mxc_ci C].
    apply (mxc_lock_acquire cfg s (MxOG c)); auto.
    + rewrite mxc_holds_G, nth_list_upd, Nat.eqb_refl by auto. reflexivity.
    + intros o Ho. apply mxc_holds_updc; [congruence|reflexivity].
  - assert (Hk : mxh_kid (gc s c) = MxK0).
    { pose proof (ci_k0 _ _ C) as K0. rewrite Er in K0. destruct (mxh_kid (gc s c)); try discriminate K0; reflexivity. }
    (* Register is not past the append: no [mxh_since] yet, so no log *)
    assert (Hs : mxh_since (gc s c) = None) by (apply (ci_since2 _ _ C); rewrite Er; reflexivity).
    pose proof (ci_since0 _ _ C Hs) as Hl.
    assert (Hnin : ~ In c (mxs_children s)).
    { intros Hi. apply (iv_regd _ _ Iv) in Hi. unfold mxc_regd in Hi. rewrite Hk in Hi. discriminate. }
    assert (G : forall st cap, mxc_next cfg s
       (mxc_setc c (mxh_set_since match mxh_ep (gc s c) with Some _ => Some (mxc_started s c) | None => None end
                     (mxh_set_kid MxKrecv (mxh_set_reg MxG2 (gc s c))))
                   (mxs_set_arr (mxs_children s ++ [c]) st cap s))).
    { intros st cap. mxc_unfold_setters. apply mxc_next_arr with (o := MxOG c); auto; try discriminate.
      - cbn. rewrite Er. reflexivity.
      - cbn. rewrite Er. reflexivity.
      - cbn. rewrite Hk. reflexivity.
      - apply NoDup_snoc; [apply Iv|auto].
      - intros c'. rewrite nth_list_upd by auto. rewrite in_app_iff. cbn [In].
        destruct (Nat.eqb_spec c' c) as [->|Hne]; [cbn; tauto|].
        rewrite <- (iv_regd _ _ Iv). split; [intros [?|[?|[]]]; [auto|congruence] | auto].
      - destruct (mxh_ep (gc s c)) eqn:Ee; mxc_ci C.
      - repeat split; auto. cbn. rewrite Hs. discriminate.
      - intros c'. rewrite nth_list_upd by auto. destruct (Nat.eqb_spec c' c) as [->|Hne].
        + destruct (mxh_ep (gc s c)) as [e|] eqn:Ee; [|exact I]. rewrite mxc_started_hd.
          eapply mxc_dlv_fresh with (e := e); [apply Iv|auto ..].
        + eapply mxc_dlv_step; [apply Iv|auto ..]. intros Hi Hr. apply in_app_or in Hi.
          destruct Hi as [Hi|[Hi|[]]]; [auto|congruence]. }
    destruct (length (mxs_children s) <? mxs_cap s); injection H as <-; apply G.
  - injection H as <-. mxc_unfold_setters. apply mxc_next_child; auto; [|mxc_ci C].
    apply (mxc_lock_release cfg s (MxOG c)); rewrite ?mxc_holds_G; auto.
    + rewrite Er. reflexivity.
    + rewrite nth_list_upd, Nat.eqb_refl by auto. reflexivity.
    + intros o Ho. apply mxc_holds_updc; [congruence|reflexivity].
  - (* start: the reader has not run yet *)
    assert (Hrd : mxh_rd (gc s c) = MxR0).
    { pose proof (ci_r0 _ _ C) as R0. rewrite Er in R0. destruct (mxh_rd (gc s c)); try discriminate R0; reflexivity. }
    injection H as <-. mxc_unfold_setters. apply mxc_next_quiet; auto; cbn; rewrite ?Er; auto.
    + intros _. unfold mxc_reading. rewrite Hrd. reflexivity.
    + destruct (mxh_reply (gc s c)) eqn:Erp; mxc_ci C.
  - discriminate.
Qed.

Lemma mxc_step_r_next : forall cfg s c s', mxc_inv cfg s -> mxc_step_r cfg s c = Some s' -> mxc_next cfg s s'.
Proof.
  intros cfg s c s' Iv H. unfold mxc_step_r, mxc_getc in H. apply mxc_guard in H. destruct H as [_ H].
  pose proof (iv_ch _ _ Iv c) as C.
  destruct (mxh_rd (gc s c)) eqn:Erd; try discriminate.
  - destruct (mxh_rclosed (gc s c)) eqn:Erc; [|discriminate]. injection H as <-. mxc_unfold_setters.
    apply mxc_next_quiet; auto; [cbn; discriminate | mxc_ci C].
  - destruct (mxh_kid (gc s c)) eqn:Ek; try discriminate. injection H as <-. mxc_unfold_setters.
    apply mxc_next_quiet; auto; unfold mxc_regd, mxc_reading; rewrite ?Ek, ?Erd; auto. mxc_ci C.
  - injection H as <-. mxc_unfold_setters.
    destruct (mxc_drain cfg) eqn:Ed; (apply mxc_next_quiet; auto; [cbn; discriminate | mxc_ci C]).
  - destruct (mxh_rclosed (gc s c)) eqn:Erc; [|discriminate]. injection H as <-. mxc_unfold_setters.
    apply mxc_next_quiet; auto; [cbn; discriminate | mxc_ci C].
Qed.

Lemma mxc_step_n_next : forall cfg s c s', mxc_inv cfg s -> mxc_step_n s c = Some s' -> mxc_next cfg s s'.
Proof.
  intros cfg s c s' Iv H. unfold mxc_step_n, mxc_getc in H. apply mxc_guard in H. destruct H as [Ec H].
  pose proof (iv_ch _ _ Iv c) as C.
  destruct (mxh_cn (gc s c)) eqn:Ecn; try discriminate.
  destruct (mxh_script (gc s c)) as [|[e|b] r] eqn:Esc; try discriminate.
  - destruct (mxh_ep (gc s c)) as [e0|] eqn:Eep; injection H as <-; mxc_unfold_setters.
    + pose proof (mxc_conn_no_reply _ _ C Ecn) as Hrp. apply mxc_next_quiet; auto. mxc_ci C.
    + (* the connection runs, so Register has returned; without an endpoint there was no [mxh_since], no log *)
      assert (Hg : mxc_g_early (mxh_reg (gc s c)) = false).
      { pose proof (ci_n0 _ _ C) as N0. rewrite Ecn in N0. destruct (mxh_reg (gc s c)); try discriminate N0; reflexivity. }
      assert (Hs : mxh_since (gc s c) = None).
      { destruct (mxh_since (gc s c)) eqn:Es; auto. exfalso. apply (ci_since1 _ _ C); [rewrite Es; discriminate|exact Eep]. }
      pose proof (ci_since0 _ _ C Hs) as Hl.
      pose proof Iv as [_ IN IR IC IH IQ IS ID]. set (v := mxh_set_since _ _).
      assert (Ep : forall c' e', mxh_ep (gc s c') = Some e' ->
                                 mxh_ep (nth c' (mxc_upd c v (mxs_chs s)) mxc_dch) = Some e').
      { intros c' e'. rewrite nth_list_upd by auto. destruct (Nat.eqb_spec c' c) as [->|]; auto. congruence. }
      split.
      * constructor; cbn [mxs_lock mxs_hd mxs_children mxs_chs mxs_cls mxs_acc]; auto.
        -- apply (mxc_lock_keep cfg s); auto. intros o. apply mxc_holds_updc; reflexivity.
        -- intros c'. rewrite (nth_list_upd_obs _ mxc_regd); auto.
        -- apply (list_upd_forall _ (fun _ => mxc_chinv cfg)); auto. subst v. mxc_ci C; discriminate.
        -- eapply mxc_hdinv_ep; eauto.
        -- intros i. eapply mxc_qinv_ep; eauto.
        -- intros c'. rewrite nth_list_upd by auto. destruct (Nat.eqb_spec c' c) as [->|]; auto.
           subst v. rewrite mxc_started_hd. eapply mxc_dlv_fresh with (e := e); [exact IH|auto ..].
      * eapply mxc_mono_child with (c := c); try reflexivity. repeat split; auto; cbn; congruence.
  - destruct (mxh_sclosed (gc s c)) eqn:Esc2.
    + injection H as <-. mxc_unfold_setters. apply mxc_next_quiet; auto. mxc_ci C.
    + destruct (mxh_kid (gc s c)) eqn:Ek; try discriminate. injection H as <-. mxc_unfold_setters.
      apply mxc_next_quiet; auto; unfold mxc_regd; rewrite ?Ek; auto. mxc_ci C.
Qed.

Lemma mxc_find_up_spec : forall cls i, mxc_find_up cls = Some i ->
  i < length cls /\ mxl_up (nth i cls mxc_dcl) = true /\ mxl_pc (nth i cls mxc_dcl) = MxCidle
  /\ mxl_ops (nth i cls mxc_dcl) = [].
Proof.
  induction cls as [|cl r IH]; intros i H; cbn in H; [discriminate|].
  destruct (mxl_up cl) eqn:Eu, (mxl_pc cl) eqn:Ep, (mxl_ops cl) eqn:Eo;
    try (injection H as <-; cbn; auto with arith; fail);
    (destruct (mxc_find_up r) as [k|]; [|discriminate]; injection H as <-;
     destruct (IH k eq_refl) as [A B]; cbn; auto with arith).
Qed.

Lemma mxc_next_spawn : forall cfg s ops up st cap, mxc_inv cfg s ->
  mxc_next cfg s (mk_mxs (mxs_lock s) (mxs_hd s) (mxs_children s) st cap (mxs_chs s)
                    (mxs_cls s ++ [mk_mxcl ops MxCidle up [] []]) (mxs_acc s) (mxs_panic s)).
Proof.
  intros cfg s ops up st cap Iv. pose proof Iv as [_ IN IR IC IH IQ IS ID]. split.
  - constructor; cbn [mxs_lock mxs_hd mxs_children mxs_chs mxs_cls mxs_acc]; auto.
    + apply (mxc_lock_keep cfg s); auto. intros [|i|c|c]; try reflexivity.
      apply (nth_snoc_forall _ (fun i cl => mxc_c_holds (mxl_pc cl) = mxc_c_holds (mxl_pc (gl s i)))); auto.
      rewrite nth_overflow; auto.
    + apply (nth_snoc_forall _ (fun _ => mxc_qinv (mxs_children s) (mxs_chs s))); auto. exact I.
    + apply (nth_snoc_forall _ (fun _ cl => forall r, In r (mxl_res cl) -> mxc_res_ok r)); auto. intros r [].
  - split; auto. split; [exists []; apply app_nil_end|]. split; [|intros; apply mxc_chmono_refl].
    cbn. rewrite map_app. eauto.
Qed.

Lemma mxc_step_k_next : forall cfg s c s', mxc_inv cfg s -> mxc_step_k cfg s c = Some s' -> mxc_next cfg s s'.
Proof.
  intros cfg s c s' Iv H. unfold mxc_step_k, mxc_getc in H. apply mxc_guard in H. destruct H as [Ec H].
  pose proof (iv_ch _ _ Iv c) as C.
  destruct (mxh_kid (gc s c)) eqn:Ek; try discriminate.
  - destruct (mxh_sclosed (gc s c)) eqn:Esc; [|discriminate]. injection H as <-. mxc_unfold_setters.
    apply mxc_next_quiet; auto; unfold mxc_regd; rewrite ?Ek; auto. mxc_ci C.
  - (* mux.sender <- b: the message leaves handleChild, then somebody has it *)
    pose (s1 := mxc_setc c (mxh_set_kid MxKrecv (gc s c)) s).
    assert (N1 : mxc_next cfg s s1).
    { unfold s1; mxc_unfold_setters. apply mxc_next_quiet; auto; unfold mxc_regd; rewrite ?Ek; auto. mxc_ci C. }
    eapply mxc_next_trans; [exact N1|]. destruct N1 as [I1 _].
    destruct (mxc_upsync cfg).
    + destruct (mxc_find_up (mxs_cls s)) as [i|] eqn:Ef; [|discriminate]. injection H as <-. mxc_unfold_setters.
      apply (mxc_next_caller cfg s1 i); auto.
      * apply (mxc_lock_keep cfg s1); auto. intros o. apply mxc_holds_updl. reflexivity.
      * apply (iv_q _ _ I1 i).
      * apply (iv_res _ _ I1 i).
    + injection H as <-. mxc_unfold_setters. apply (mxc_next_spawn cfg s1); auto.
  - destruct (mxs_lock s) eqn:El; [discriminate|]. injection H as <-. mxc_unfold_setters.
    apply mxc_next_child; auto; unfold mxc_regd; rewrite ?Ek; auto; [|mxc_ci C].
    apply (mxc_lock_acquire cfg s (MxOK c)); auto.
    + rewrite mxc_holds_K, nth_list_upd, Nat.eqb_refl by auto. reflexivity.
    + intros o Ho. apply mxc_holds_updc; [reflexivity|congruence].
  - injection H as <-. mxc_unfold_setters.
    apply mxc_next_quiet; auto; unfold mxc_regd; rewrite ?Ek; auto. mxc_ci C.
  - injection H as <-. mxc_unfold_setters. apply mxc_next_arr with (o := MxOK c); auto; try discriminate.
    + cbn. rewrite Ek. reflexivity.
    + cbn. rewrite Ek. reflexivity.
    + apply mxc_remove_NoDup, Iv.
    + intros c'. rewrite nth_list_upd by auto. rewrite mxc_remove_In by apply Iv.
      destruct (Nat.eqb_spec c' c) as [->|Hne]; [split; [tauto|discriminate]|].
      rewrite <- (iv_regd _ _ Iv). tauto.
    + mxc_ci C.
    + repeat split; auto.
    + intros c'. rewrite nth_list_upd by auto.
      destruct (Nat.eqb_spec c' c) as [->|Hne]; (eapply mxc_dlv_step; [apply Iv|auto ..]);
        intros Hi; apply mxc_remove_In in Hi; try apply Iv; tauto.
  - injection H as <-. mxc_unfold_setters.
    apply mxc_next_child; auto; unfold mxc_regd; rewrite ?Ek; auto; [|mxc_ci C].
    apply (mxc_lock_release cfg s (MxOK c)); rewrite ?mxc_holds_K; auto.
    + rewrite Ek. reflexivity.
    + rewrite nth_list_upd, Nat.eqb_refl by auto. reflexivity.
    + intros o Ho. apply mxc_holds_updc; [reflexivity|congruence].
Qed.

(* the two faults of a running reader differ in the program counter they leave *)
Lemma mxc_step_rfault_next : forall cfg s c s', mxc_inv cfg s ->
  mxc_step_rfail s c = Some s' \/ mxc_step_rstall s c = Some s' -> mxc_next cfg s s'.
Proof.
  intros cfg s c s' Iv H. unfold mxc_step_rfail, mxc_step_rstall, mxc_getc in H. pose proof (iv_ch _ _ Iv c) as C.
  destruct H as [H|H].
  all: apply mxc_guard in H; destruct H as [_ H].
  all: destruct (mxh_rd (gc s c)) eqn:Erd; try discriminate.
  all: injection H as <-; mxc_unfold_setters.
  all: apply mxc_next_quiet; auto; [cbn; discriminate | mxc_ci C].
Qed.
Lemma mxc_step_nclose_next : forall cfg s c s', mxc_inv cfg s -> mxc_step_nclose s c = Some s' -> mxc_next cfg s s'.
Proof.
  intros cfg s c s' Iv H. unfold mxc_step_nclose, mxc_getc in H. apply mxc_guard in H. destruct H as [_ H].
  pose proof (iv_ch _ _ Iv c) as C. destruct (mxh_cn (gc s c)) eqn:Ecn; try discriminate. injection H as <-. mxc_unfold_setters.
  pose proof (mxc_conn_no_reply _ _ C Ecn) as Hrp. apply mxc_next_quiet; auto. mxc_ci C.
Qed.

Lemma mxc_step_next : forall cfg s t s', mxc_nocopy cfg = false ->
  mxc_inv cfg s -> mxc_step cfg s t = Some s' -> mxc_next cfg s s'.
Proof.
  intros cfg s t s' Hnc Iv H. unfold mxc_step in H. destruct (mxs_panic s); [discriminate|].
  destruct t.
  - eapply mxc_step_h_next; eauto.
  - eapply mxc_step_c_next; eauto.
  - eapply mxc_step_g_next; eauto.
  - eapply mxc_step_r_next; eauto.
  - eapply mxc_step_n_next; eauto.
  - eapply mxc_step_k_next; eauto.
  - eapply mxc_step_rfault_next; eauto.
  - eapply mxc_step_rfault_next; eauto.
  - eapply mxc_step_nclose_next; eauto.
Qed.

Lemma mxc_reach_next : forall cfg s0 s, mxc_nocopy cfg = false ->
  mxc_inv cfg s0 -> mxc_reach cfg s0 s -> mxc_next cfg s0 s.
Proof.
  intros cfg s0 s Hnc I0 R. induction R as [|s t s' R IH H].
  - split; auto. repeat split; auto; exists []; apply app_nil_end.
  - eapply mxc_next_trans; [exact IH|]. eapply mxc_step_next; eauto. apply IH.
Qed.

Lemma mxc_inv_reached : forall cfg chs cls s, mxc_nocopy cfg = false ->
  mxc_reach cfg (mxc_init chs cls) s -> mxc_inv cfg s.
Proof. intros cfg chs cls s Hnc R. apply (mxc_reach_next cfg _ s Hnc (mxc_inv_init cfg chs cls) R). Qed.

(* the panic flag is never raised ([mxc_mono]): the one step that raises it is handle's send to a child whose
   receiver is closed, and handle finds the receiver open ([mxc_send_open], used in [mxc_step_h_next]) *)
Lemma mxc_no_panic : forall cfg chs cls s, mxc_nocopy cfg = false ->
  mxc_reach cfg (mxc_init chs cls) s -> mxs_panic s = false.
Proof.
  intros cfg chs cls s Hnc R. destruct (mxc_reach_next cfg _ s Hnc (mxc_inv_init cfg chs cls) R) as [_ [Hp _]].
  exact Hp.
Qed.

Lemma mxc_run_reach : forall cfg ts s0 s s', mxc_reach cfg s0 s -> mxc_run cfg s ts = Some s' -> mxc_reach cfg s0 s'.
Proof.
  intros cfg ts s0; induction ts as [|t r IH]; cbn; intros s s' R H.
  - injection H as <-. exact R.
  - destruct (mxc_step cfg s t) as [s1|] eqn:E; [|discriminate]. apply (IH s1); auto. econstructor; eauto.
Qed.

Lemma mxc_inv_panic : forall cfg s, mxc_inv cfg s -> mxc_inv cfg (mxs_set_panic true s).
Proof. intros cfg s [IL IN IR IC IH IQ IS ID]. constructor; auto. Qed.

Lemma mxc_delivers : forall cfg s1 s2 c e,
  mxc_inv cfg s1 -> mxc_next cfg s1 s2 ->
  In c (mxs_children s1) -> mxh_ep (gc s1 c) = Some e ->
  In c (mxs_children s2) -> mxc_reading (gc s2 c) = true ->
  exists new, mxs_acc s2 = mxs_acc s1 ++ new
    /\ mxh_log (gc s2 c) ++ filter (mxc_match (Some e)) (mxc_howed (mxs_hd s2) c)
       = mxh_log (gc s1 c) ++ filter (mxc_match (Some e)) (mxc_howed (mxs_hd s1) c)
         ++ filter (mxc_match (Some e)) new.
Proof.
  intros cfg s1 s2 c e I1 [I2 [_ [[new Hacc] [_ M]]]] In1 Ep1 In2 Rd2. destruct (M c) as [_ [M1 [M2 M3]]].
  exists new. split; auto.
  pose proof (iv_dlv _ _ I1 c) as D1. pose proof (iv_dlv _ _ I2 c) as D2. unfold mxc_dlv in D1, D2.
  destruct (mxh_since (gc s1 c)) as [k|] eqn:Hs.
  - rewrite Ep1 in D1. rewrite (M1 k eq_refl), (M2 e Ep1) in D2.
    destruct D1 as [K1 [r1 [E1 F1]]]. destruct D2 as [K2 [r2 [E2 F2]]].
    rewrite (F1 In1 (M3 Rd2)) in E1. rewrite (F2 In2 Rd2) in E2.
    rewrite E2, Hacc, app_assoc, E1.
    assert (K : k <= length (mxs_acc s1)) by (unfold mxc_hstarted in K1; lia).
    rewrite skipn_app. replace (k - length (mxs_acc s1)) with 0 by lia. cbn [skipn]. apply filter_app.
  - (* registered with an endpoint: the obligation has started *)
    exfalso. apply (ci_since3 _ _ (iv_ch _ _ I1 c)); [|congruence|exact Hs].
    apply (mxc_regd_late cfg); [apply I1|]. apply (iv_regd _ _ I1), In1.
Qed.

(* nobody receives anything that was not handed to the multiplexer for the endpoint it registered *)
Lemma mxc_only_own : forall cfg s c m, mxc_inv cfg s -> In m (mxh_log (gc s c)) ->
  mxh_ep (gc s c) = Some (mxb_dst m) /\ In m (mxs_acc s).
Proof.
  intros cfg s c m Iv Hm. pose proof (iv_dlv _ _ Iv c) as D. pose proof (iv_ch _ _ Iv c) as C.
  unfold mxc_dlv in D. destruct (mxh_since (gc s c)) as [k|] eqn:Es.
  - destruct (mxh_ep (gc s c)) as [e|] eqn:Ee; [|exfalso; apply (ci_since1 _ _ C); congruence].
    destruct D as [_ [rest [D _]]].
    assert (Hin : In m (filter (mxc_match (Some e)) (skipn k (mxs_acc s)))).
    { rewrite <- D. apply in_or_app; auto. }
    apply filter_In in Hin. destruct Hin as [H1 H2]. cbn in H2. apply N.eqb_eq in H2. subst e. split; auto.
    rewrite <- (firstn_skipn k (mxs_acc s)). apply in_or_app; auto.
  - rewrite (ci_since0 _ _ C) in Hm by auto. destruct Hm.
Qed.

(* when a goroutine of the program (not an environment fault) can take its next step, by program counter.
   Handle's send is conditional on an open receiver because with a closed one the step exists as well: it is
   the one that raises the panic flag. *)
Definition mxc_ready (cfg : mxc_cfg) (s : mxc_state) (t : mxc_tid) : Prop :=
  match t with
  | MxTH => match mxs_hd s with
            | MxHrecv => False
            | MxHlock _ => mxs_lock s = None
            | MxHloop _ _ => True
            | MxHsend _ c _ => mxh_rclosed (gc s c) = false ->
                               mxh_rd (gc s c) = MxRrun \/ mxh_rd (gc s c) = MxRdrain
            end
  | MxTC i => i < length (mxs_cls s) /\
              match mxl_pc (gl s i) with
              | MxCidle => mxl_ops (gl s i) <> [] /\ mxs_lock s = None
              | MxCsend _ => mxs_hd s = MxHrecv
              | _ => True
              end
  | MxTG c => c < length (mxs_chs s) /\
              match mxh_reg (gc s c) with MxG0 => mxs_lock s = None | MxG4 => False | _ => True end
  | MxTR c => c < length (mxs_chs s) /\
              match mxh_rd (gc s c) with
              | MxRrun | MxRdrain => mxh_rclosed (gc s c) = true
              | MxRreply _ => mxh_kid (gc s c) = MxKrecv
              | MxRshut => True
              | _ => False
              end
  | MxTN c => c < length (mxs_chs s) /\ mxh_cn (gc s c) = MxNrun /\
              match mxh_script (gc s c) with
              | [] => False
              | MxSetEp _ :: _ => True
              | MxSend _ :: _ => mxh_sclosed (gc s c) = true \/ mxh_kid (gc s c) = MxKrecv
              end
  | MxTK c => c < length (mxs_chs s) /\
              match mxh_kid (gc s c) with
              | MxKrecv => mxh_sclosed (gc s c) = true
              | MxKfwd _ => mxc_upsync cfg = true -> mxc_find_up (mxs_cls s) <> None
              | MxKlock => mxs_lock s = None
              | MxKclose | MxKrm | MxKunl => True
              | _ => False
              end
  | _ => False
  end.

Lemma mxc_ready_step : forall cfg s t, mxs_panic s = false -> mxc_ready cfg s t ->
  mxc_is_env t = false /\ exists s', mxc_step cfg s t = Some s'.
Proof.
  intros cfg s t Hp H. unfold mxc_step. rewrite Hp.
  destruct t as [|i|c|c|c|c|c|c|c]; cbn [mxc_ready] in H; try contradiction; (split; [reflexivity|]).
  2-6: destruct H as [Hc H]; apply Nat.ltb_lt in Hc.
  - unfold mxc_step_h, mxc_getc. destruct (mxs_hd s) as [|m|m [|c rest]|m c rest]; try contradiction; eauto.
    + rewrite H; eauto.
    + destruct (mxc_match (mxh_ep (gc s c)) m); eauto.
    + destruct (mxh_rclosed (gc s c)); eauto. destruct (H eq_refl) as [-> | ->]; eauto.
  - unfold mxc_step_c, mxc_getl. rewrite Hc. cbn [negb].
    destruct (mxl_pc (gl s i)) as [|n|n j fz acc|b]; eauto.
    + destruct H as [Ho ->]. destruct (mxl_ops (gl s i)); [congruence|eauto].
    + destruct (j <? n); eauto.
    + rewrite H; eauto.
  - unfold mxc_step_g, mxc_getc. rewrite Hc. cbn [negb].
    destruct (mxh_reg (gc s c)); try contradiction; eauto.
    + rewrite H; eauto.
    + destruct (length (mxs_children s) <? mxs_cap s); eauto.
  - unfold mxc_step_r, mxc_getc. rewrite Hc. cbn [negb].
    destruct (mxh_rd (gc s c)); try contradiction; rewrite ?H; eauto.
  - unfold mxc_step_n, mxc_getc. rewrite Hc. cbn [negb]. destruct H as [-> H].
    destruct (mxh_script (gc s c)) as [|[e|b] r]; try contradiction.
    + destruct (mxh_ep (gc s c)); eauto.
    + destruct (mxh_sclosed (gc s c)); eauto. destruct H as [H|H]; [discriminate|]. rewrite H; eauto.
  - unfold mxc_step_k, mxc_getc. rewrite Hc. cbn [negb].
    destruct (mxh_kid (gc s c)); try contradiction; rewrite ?H; eauto.
    destruct (mxc_upsync cfg); eauto. destruct (mxc_find_up (mxs_cls s)); eauto. destruct (H eq_refl eq_refl).
Qed.

Lemma mxc_find_up_some : forall cls, In true (map mxl_up cls) -> forallb mxc_caller_settled cls = true ->
  exists i, mxc_find_up cls = Some i.
Proof.
  induction cls as [|cl r IH]; cbn; [intros []|]. intros H1 H2.
  apply andb_prop in H2. destruct H2 as [H2 H3]. unfold mxc_caller_settled in H2.
  destruct (mxl_pc cl); try discriminate. destruct (mxl_ops cl); try discriminate.
  destruct (mxl_up cl); eauto.
  destruct H1 as [H1|H1]; [discriminate|]. destruct (IH H1 H3) as [i ->]. cbn. eauto.
Qed.

Definition mxc_go (cfg : mxc_cfg) (s : mxc_state) : Prop := exists t, mxc_ready cfg s t.

(* where the invariant holds and something is left to do some goroutine of the program can go on, provided the
   readers have the drain loop, no registered reader has stalled and, with the sequential handler, no child
   answers from its reader goroutine and an idle handler exists once the callers have finished *)
Lemma mxc_progress : forall cfg s,
  mxc_inv cfg s -> mxc_drain cfg = true -> mxc_no_stall s = true ->
  (mxc_upsync cfg = true -> forall c, mxh_reply (gc s c) = false) ->
  (mxc_upsync cfg = true -> forallb mxc_caller_settled (mxs_cls s) = true -> mxc_find_up (mxs_cls s) <> None) ->
  mxc_settled s = false -> mxc_go cfg s.
Proof.
  intros cfg s Iv Hdr Hst Hnr Hfu Hns.
  assert (Hnst : forall c, In c (mxs_children s) -> mxh_rd (gc s c) <> MxRstall).
  { intros c Hi E. unfold mxc_no_stall in Hst. rewrite forallb_forall in Hst. specialize (Hst c Hi).
    unfold mxc_rd_stalled, mxc_getc in Hst. rewrite E in Hst. discriminate. }
  (* a child that is sending its answer upstream is not stuck *)
  assert (HRR : forall c b, mxh_rd (gc s c) = MxRreply b -> mxc_go cfg s).
  { intros c b Erd.
    assert (Hc : c < length (mxs_chs s)).
    { apply (nth_in_range mxh_rd mxc_dch). rewrite Erd. discriminate. }
    pose proof (iv_ch _ _ Iv c) as C.
    assert (Hrp : mxh_reply (gc s c) = true) by (apply (ci_reply _ _ C); rewrite Erd; reflexivity).
    (* it has not shut down, so its sender is open and handleChild has not left its loop *)
    assert (Hsc : mxh_sclosed (gc s c) = false).
    { destruct (mxh_sclosed (gc s c)) eqn:E; auto. pose proof (ci_rs _ _ C Hrp E) as A. rewrite Erd in A. discriminate A. }
    destruct (mxh_kid (gc s c)) eqn:Ek;
      try (rewrite (ci_sclosed _ _ C) in Hsc by (rewrite Ek; reflexivity); discriminate Hsc).
    - (* handleChild not started: Register is not past the append, but then the reader has not been started *)
      pose proof (ci_k0 _ _ C) as K0. pose proof (ci_r0 _ _ C) as R0. rewrite Ek in K0. rewrite Erd in R0.
      destruct (mxh_reg (gc s c)); discriminate.
    - exists (MxTR c). cbn. rewrite Erd. auto.
    - exists (MxTK c). cbn. rewrite Ek. split; auto. intros Eu. rewrite (Hnr Eu c) in Hrp. discriminate. }
  destruct (mxs_lock s) as [o|] eqn:El.
  - (* the lock is taken: its owner can go on *)
    pose proof (proj2 (iv_lock _ _ Iv o) El) as Ho.
    destruct o as [|i|c|c]; [cbn [mxc_holds] in Ho | rewrite mxc_holds_C in Ho | rewrite mxc_holds_G in Ho | rewrite mxc_holds_K in Ho].
    + destruct (mxs_hd s) as [|m|m rest|m c rest] eqn:Eh; try discriminate.
      { exists MxTH. cbn. rewrite Eh. auto. }
      destruct (mxc_send_open _ _ _ _ _ Iv Eh) as [Hi [Hc Hrc]].
      pose proof (iv_ch _ _ Iv c) as C.
      destruct (mxh_rd (gc s c)) eqn:Erd.
      * (* the reader has not been started yet, the child is registered: Register is between the append and
           client.start() *)
        exists (MxTG c). split; auto.
        pose proof (mxc_regd_late _ _ C (proj1 (iv_regd _ _ Iv c) Hi)) as Hg.
        pose proof (ci_r0 _ _ C) as R0. rewrite Erd in R0.
        destruct (mxh_reg (gc s c)); auto; discriminate.
      * exists MxTH. cbn. rewrite Eh. auto.
      * eapply HRR; eauto.
      * destruct (Hnst c Hi Erd).
      * exists (MxTR c). cbn. rewrite Erd. auto.
      * exists MxTH. cbn. rewrite Eh. auto.
      * (* with the drain loop a reader is done only after close(receiver) *)
        rewrite (ci_done _ _ C) in Hrc by (rewrite ?Erd; auto). discriminate.
    + exists (MxTC i). split.
      * apply (nth_in_range (fun cl => mxc_c_holds (mxl_pc cl)) mxc_dcl). rewrite Ho. discriminate.
      * destruct (mxl_pc (gl s i)); try discriminate; auto.
    + exists (MxTG c). split.
      * apply (nth_in_range (fun ch => mxc_g_holds (mxh_reg ch)) mxc_dch). rewrite Ho. discriminate.
      * destruct (mxh_reg (gc s c)); try discriminate; auto.
    + exists (MxTK c). split.
      * apply (nth_in_range (fun ch => mxc_k_holds (mxh_kid ch)) mxc_dch). rewrite Ho. discriminate.
      * destruct (mxh_kid (gc s c)); try discriminate; auto.
  - assert (Hno : forall o, mxc_holds (mxs_hd s) (mxs_chs s) (mxs_cls s) o = false).
    { intros o. apply (mxc_lock_other cfg); auto. rewrite El. discriminate. }
    destruct (mxs_hd s) as [|m|m rest|m c rest] eqn:Eh;
      [ | exists MxTH; cbn; rewrite Eh; auto | discriminate (Hno MxOH) ..].
    unfold mxc_settled in Hns. rewrite El, Eh in Hns. cbn [andb] in Hns.
    destruct (forallb mxc_caller_settled (mxs_cls s)) eqn:Ecs; cbn [andb] in Hns.
    + (* all callers have finished: each goroutine of some child is ready or has settled *)
      destruct (forallb_false_nth _ _ mxc_dch Hns) as [c [Hc Hcs]].
      pose proof (iv_ch _ _ Iv c) as C.
      pose proof (Hno (MxOK c)) as Hk. rewrite mxc_holds_K in Hk.
      assert (G : mxc_ready cfg s (MxTG c) \/ mxh_reg (gc s c) = MxG4).
      { cbn [mxc_ready]. destruct (mxh_reg (gc s c)); auto. }
      destruct G as [G|Er]; [exists (MxTG c); exact G|].
      (* Register has returned: handleChild, the reader and the connection have been started *)
      pose proof (ci_k0 _ _ C) as K0. pose proof (ci_r0 _ _ C) as R0. pose proof (ci_n0 _ _ C) as N0.
      rewrite Er in K0, R0, N0. cbn in K0, R0, N0.
      (* [Hsk] is what a connection goroutine that wants to send needs *)
      assert (K : mxc_ready cfg s (MxTK c) \/
                  match mxh_kid (gc s c) with MxKdone => true | MxKrecv => negb (mxh_sclosed (gc s c)) | _ => false end = true
                  /\ (mxh_sclosed (gc s c) = true \/ mxh_kid (gc s c) = MxKrecv)).
      { cbn [mxc_ready]. pose proof (ci_sclosed _ _ C) as Sc.
        destruct (mxh_kid (gc s c)); try discriminate; auto. destruct (mxh_sclosed (gc s c)); auto. }
      destruct K as [K|[Hkid Hsk]]; [exists (MxTK c); exact K|].
      assert (N : mxc_ready cfg s (MxTN c) \/
                  match mxh_cn (gc s c) with MxNdone => true | MxNrun => match mxh_script (gc s c) with [] => true | _ => false end | MxN0 => false end = true).
      { cbn [mxc_ready]. destruct (mxh_cn (gc s c)); [discriminate N0| |auto].
        destruct (mxh_script (gc s c)) as [|[e|b] r]; auto. }
      destruct N as [N|Hcn]; [exists (MxTN c); exact N|].
      assert (Rd : mxc_ready cfg s (MxTR c) \/ mxc_r_isreply (mxh_rd (gc s c)) = true \/
                   match mxh_rd (gc s c) with MxRrun | MxRdrain => negb (mxh_rclosed (gc s c)) | MxRstall | MxRdone => true | _ => false end = true).
      { cbn [mxc_ready]. destruct (mxh_rd (gc s c)); try discriminate; auto; destruct (mxh_rclosed (gc s c)); auto. }
      destruct Rd as [Rd|[Rd|Hrd]]; [exists (MxTR c); exact Rd | destruct (mxh_rd (gc s c)) eqn:Erd; try discriminate; eauto |].
      unfold mxc_child_settled in Hcs. rewrite Er, Hkid, Hcn, Hrd in Hcs. discriminate.
    + destruct (forallb_false_nth _ _ mxc_dcl Ecs) as [i [Hi Hcs]].
      pose proof (Hno (MxOC i)) as Hc. rewrite mxc_holds_C in Hc.
      exists (MxTC i). split; auto. unfold mxc_caller_settled in Hcs.
      destruct (mxl_pc (gl s i)); try discriminate; auto.
      destruct (mxl_ops (gl s i)); [discriminate|]. split; [discriminate|auto].
Qed.

Lemma mxc_no_deadlock_reach : forall cfg chs cls s,
  mxc_nocopy cfg = false -> mxc_drain cfg = true ->
  mxc_reach cfg (mxc_init chs cls) s ->
  mxc_no_stall s = true ->
  (mxc_upsync cfg = true -> mxc_cfg_no_reply chs = true /\ mxc_cfg_has_up cls = true) ->
  mxc_settled s = false ->
  exists t s', mxc_is_env t = false /\ mxc_step cfg s t = Some s'.
Proof.
  intros cfg chs cls s Hnc Hdr R Hst Hsy Hns.
  destruct (mxc_reach_next cfg _ s Hnc (mxc_inv_init cfg chs cls) R) as [Iv [Hp [_ [[more Hup] Hm]]]].
  destruct (mxc_progress cfg s) as [t Hr]; auto.
  - (* a child's kind is that of its specification *)
    intros Eu c. destruct (Hm c) as [-> _]. rewrite mxc_init_gc. destruct (Hsy Eu) as [Hrp _].
    destruct (nth_in_or_default c chs (None, false, [])) as [Hi| ->]; [|reflexivity].
    unfold mxc_cfg_no_reply in Hrp. rewrite forallb_forall in Hrp. apply Hrp in Hi.
    cbn. destruct (snd (fst (nth c chs (None, false, [])))); [discriminate|reflexivity].
  - (* the handler is among the callers the state started with *)
    intros Eu Ecs. destruct (Hsy Eu) as [_ Hu]. destruct (mxc_find_up_some (mxs_cls s)) as [i ->]; [|auto|discriminate].
    rewrite Hup. apply in_or_app. left. cbn. rewrite map_map.
    apply existsb_exists in Hu. destruct Hu as [sp [Hi Hu]]. apply in_map_iff. exists sp. auto.
  - destruct (mxc_ready_step cfg s t Hp Hr) as [He [s' Hs]]. eauto.
Qed.

Lemma mxc_labels_complete : forall cfg s t s', mxc_step cfg s t = Some s' -> In t (mxc_labels s).
Proof.
  intros cfg s t s' H. unfold mxc_step in H. destruct (mxs_panic s); [discriminate|].
  destruct t as [|i|c|c|c|c|c|c|c]; [left; reflexivity|..]; right; apply in_or_app;
    unfold mxc_step_c, mxc_step_g, mxc_step_r, mxc_step_n, mxc_step_k, mxc_step_rfail, mxc_step_rstall,
           mxc_step_nclose in H;
    apply mxc_guard in H; destruct H as [Hc _].
  1: left; apply in_map, in_seq; lia.
  all: right; apply in_flat_map; exists c; split; [apply in_seq; lia | cbn; tauto].
Qed.
Lemma mxc_stuck_complete : forall cfg s, mxc_stuck cfg s = true -> forall t, mxc_step cfg s t = None.
Proof.
  intros cfg s H t. destruct (mxc_step cfg s t) as [s'|] eqn:E; auto.
  unfold mxc_stuck in H. rewrite forallb_forall in H. specialize (H t (mxc_labels_complete _ _ _ _ E)).
  unfold mxc_disabled in H. rewrite E in H. discriminate.
Qed.
