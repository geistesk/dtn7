(* AgentsProofs.v - proofs about Model/Agents.v (property C07).
   One arriving bundle is handed to exactly the registered recipients, child by child through the
   fan-out, in any state whose maps have distinct keys.  Over histories one invariant (distinct keys,
   mailbox conservation, no report or release before a hand-over) is kept by the two kinds of events,
   an arrival and an event on the agent of one label.  One mailbox entry under concurrent sub-steps
   has an invariant of its own that needs the mutex, and one that does not. *)
From Coq Require Import Permutation.
From DTN Require Import Base ListFacts Agents.
Open Scope N_scope.

Lemma ag_get_set {V} k k' (v : V) m : ag_get k (ag_set k' v m) = if k =? k' then Some v else ag_get k m.
Proof.
  induction m as [|[k2 v2] m IH]; cbn [ag_set ag_get]; [reflexivity|].
  destruct (k' =? k2) eqn:E2; cbn [ag_get].
  - apply N.eqb_eq in E2 as <-. destruct (k =? k'); reflexivity.
  - rewrite IH. destruct (k =? k2) eqn:E; [|reflexivity].
    apply N.eqb_eq in E as ->. now rewrite N.eqb_sym, E2.
Qed.

Lemma ag_get_del {V} k k' (m : list (N * V)) : ag_get k (ag_del k' m) = if k =? k' then None else ag_get k m.
Proof.
  unfold ag_del. induction m as [|[k2 v2] m IH]; cbn [filter fst ag_get]; [now destruct (k =? k')|].
  destruct (k' =? k2) eqn:E2; cbn [negb ag_get]; rewrite IH; destruct (k =? k2) eqn:E; try reflexivity.
  - apply N.eqb_eq in E2 as <-. now rewrite E.
  - apply N.eqb_eq in E as ->. now rewrite N.eqb_sym, E2.
Qed.

Lemma ag_get_app {V} k (m1 m2 : list (N * V)) :
  ag_get k (m1 ++ m2) = match ag_get k m1 with Some v => Some v | None => ag_get k m2 end.
Proof. induction m1 as [|[k' v'] m1 IH]; [reflexivity|]. cbn [ag_get app]. now destruct (k =? k'). Qed.

Lemma ag_get_none_notin {V} k (m : list (N * V)) : ag_get k m = None <-> ~ In k (map fst m).
Proof.
  induction m as [|[k' v'] m IH]; cbn [ag_get map fst In]; [tauto|].
  destruct (k =? k') eqn:E.
  - apply N.eqb_eq in E. split; [discriminate | intros H; exfalso; apply H; now left].
  - apply N.eqb_neq in E. rewrite IH. intuition congruence.
Qed.

Lemma ag_get_some_in {V} k (v : V) m : ag_get k m = Some v -> In (k, v) m.
Proof.
  induction m as [|[k' v'] m IH]; cbn [ag_get In]; [discriminate|].
  destruct (k =? k') eqn:E; [|intros H; right; now apply IH].
  apply N.eqb_eq in E as ->. intros [= ->]. now left.
Qed.

Lemma ag_in_get {V} k (v : V) m : NoDup (map fst m) -> In (k, v) m -> ag_get k m = Some v.
Proof.
  induction m as [|[k' v'] m IH]; cbn [ag_get map fst In]; intros ND; [tauto|].
  apply NoDup_cons_iff in ND as [Hni ND]. intros [[= -> ->]|Hin]; [now rewrite N.eqb_refl|].
  destruct (k =? k') eqn:E; [|now apply IH].
  apply N.eqb_eq in E as ->. destruct Hni. now apply (in_map fst) in Hin.
Qed.

Lemma ag_set_fresh {V} k (v : V) m : ag_get k m = None -> ag_set k v m = m ++ [(k, v)].
Proof.
  induction m as [|[k' v'] m IH]; cbn [ag_get ag_set app]; [reflexivity|].
  destruct (k =? k'); [discriminate|]. intros H. now rewrite (IH H).
Qed.

Lemma ag_set_keys {V} k (v : V) m :
  map fst (ag_set k v m) = if existsb (N.eqb k) (map fst m) then map fst m else map fst m ++ [k].
Proof.
  induction m as [|[k' v'] m IH]; cbn [ag_set map fst existsb app]; [reflexivity|].
  destruct (k =? k') eqn:E; cbn [orb map fst].
  - apply N.eqb_eq in E. now subst.
  - rewrite IH. destruct (existsb (N.eqb k) (map fst m)); reflexivity.
Qed.

Lemma ag_set_nodup {V} k (v : V) m : NoDup (map fst m) -> NoDup (map fst (ag_set k v m)).
Proof.
  intros ND. rewrite ag_set_keys. destruct (existsb (N.eqb k) (map fst m)) eqn:E; [exact ND|].
  eapply Permutation_NoDup; [apply Permutation_cons_append|]. constructor; [|exact ND]. intros Hin.
  apply existsb_eqb_in in Hin. congruence.
Qed.

Lemma ag_del_nodup {V} k (m : list (N * V)) : NoDup (map fst m) -> NoDup (map fst (ag_del k m)).
Proof. apply NoDup_map_filter. Qed.

Lemma forall_set {V} (P : N * V -> Prop) k v m : Forall P m -> P (k, v) -> Forall P (ag_set k v m).
Proof.
  intros HF HP. induction HF as [|[k' v'] m Hx HF IH]; cbn [ag_set]; [now constructor|].
  destruct (k =? k'); constructor; auto.
Qed.

Lemma ag_take_nth_perm {A} i (l : list A) x r : ag_take_nth i l = Some (x, r) -> Permutation l (x :: r).
Proof.
  revert i x r. induction l as [|y l IH]; intros i x r; destruct i as [|j]; cbn [ag_take_nth]; try discriminate.
  - intros [= -> ->]. apply Permutation_refl.
  - destruct (ag_take_nth j l) as [[z r']|] eqn:E; [|discriminate].
    intros [= -> <-]. apply IH in E. rewrite E. apply perm_swap.
Qed.

Lemma ag_permute_perm {A} o (l : list A) : Permutation (ag_permute o l) l.
Proof.
  revert l. induction o as [|k o IH]; intros l; cbn [ag_permute]; [apply Permutation_refl|].
  destruct (ag_take_nth (Nat.modulo k (length l)) l) as [[x r]|] eqn:E; [|apply Permutation_refl].
  apply ag_take_nth_perm in E. now rewrite IH, E.
Qed.

(* Endpoints() of every agent has the same members under every iteration order; the order taken for
   comparison is that of the empty oracle, which leaves the clients as they stand *)
Lemma agent_eids_has orc site a g e :
  existsb (ag_eid_eqb e) (ag_agent_eids orc site a g) = existsb (ag_eid_eqb e) (ag_agent_eids (fun _ _ => []) 0%nat a g).
Proof.
  destruct g; cbn [ag_agent_eids ag_permute]; try reflexivity.
  apply existsb_perm. apply Permutation_map. apply ag_permute_perm.
Qed.

Lemma recipient_eqb_eq r r' : ag_recipient_eqb r r' = true <-> r = r'.
Proof.
  destruct r, r'; cbn [ag_recipient_eqb]; rewrite ?andb_true_iff, ?N.eqb_eq;
    split; try discriminate; intuition congruence.
Qed.

Lemma hands_app r o1 o2 : ag_hands_to r (o1 ++ o2) = ag_hands_to r o1 ++ ag_hands_to r o2.
Proof.
  induction o1 as [|x o1 IH]; [reflexivity|]. cbn [app ag_hands_to].
  destruct x; try exact IH. destruct (ag_recipient_eqb r r0); cbn [app]; [f_equal|]; exact IH.
Qed.

Lemma in_hands_iff r b outs : In b (ag_hands_to r outs) <-> In (AOHand r b) outs.
Proof.
  induction outs as [|o outs IH]; cbn [ag_hands_to In]; [tauto|].
  destruct o as [r' b'| | | | | | |]; try (rewrite IH; intuition discriminate).
  destruct (ag_recipient_eqb r r') eqn:E; cbn [In]; rewrite IH.
  - apply recipient_eqb_eq in E as <-. intuition congruence.
  - split; [tauto|]. intros [[= -> _]|H]; [|exact H].
    rewrite (proj2 (recipient_eqb_eq r r) eq_refl) in E. discriminate.
Qed.

Lemma hands_map_none r (mk : N -> ag_recipient) b (L : list (N * ag_eid)) :
  (forall x, ag_recipient_eqb r (mk x) = false) ->
  ag_hands_to r (map (fun p => AOHand (mk (fst p)) b) L) = [].
Proof.
  intros Hmk. induction L as [|p L IH]; [reflexivity|]. cbn [map ag_hands_to]. now rewrite Hmk.
Qed.

Lemma hands_map_one r (mk : N -> ag_recipient) u b (L : list (N * ag_eid)) :
  (forall x, ag_recipient_eqb r (mk x) = (u =? x)) -> NoDup (map fst L) ->
  ag_hands_to r (map (fun p => AOHand (mk (fst p)) b) L) = if existsb (N.eqb u) (map fst L) then [b] else [].
Proof.
  intros Hmk. induction L as [|p L IH]; intros ND; [reflexivity|].
  cbn [map ag_hands_to existsb] in *. apply NoDup_cons_iff in ND as [Hni ND]. rewrite Hmk, (IH ND).
  destruct (u =? fst p) eqn:E; cbn [orb]; [|reflexivity].
  apply N.eqb_eq in E as ->. destruct (existsb _ _) eqn:EX; [|reflexivity]. now apply existsb_eqb_in in EX.
Qed.

Definition client_reg (cl : list (N * ag_eid)) (u : N) (e : ag_eid) : bool :=
  match ag_get u cl with Some e' => ag_eid_eqb e e' | None => false end.

Lemma client_reg_iff cl P u b :
  NoDup (map fst cl) -> Permutation P cl ->
  existsb (N.eqb u) (map fst (filter (ag_dst_match b) P)) = client_reg cl u (ab_dst b).
Proof.
  intros ND HP. apply Bool.eq_true_iff_eq. unfold client_reg. rewrite existsb_eqb_in. split.
  - intros ([u' e'] & <- & (Hin & Hm)%filter_In)%in_map_iff.
    cbn [fst]. now rewrite (ag_in_get _ e' cl ND (Permutation_in _ HP Hin)).
  - destruct (ag_get u cl) as [e'|] eqn:Hg; [|discriminate]. intros Hm.
    apply (in_map fst _ (u, e')), filter_In. split; [|exact Hm].
    exact (Permutation_in _ (Permutation_sym HP) (ag_get_some_in _ _ _ Hg)).
Qed.

Lemma clients_hands r (mk : N -> ag_recipient) u b cl P :
  NoDup (map fst cl) -> Permutation P cl ->
  (forall x, ag_recipient_eqb r (mk x) = (u =? x)) ->
  ag_hands_to r (map (fun p => AOHand (mk (fst p)) b) (filter (ag_dst_match b) P))
  = if client_reg cl u (ab_dst b) then [b] else [].
Proof.
  intros ND HP Hmk. rewrite (hands_map_one r mk u b _ Hmk), (client_reg_iff cl P u b ND HP); [reflexivity|].
  apply NoDup_map_filter. now rewrite HP.
Qed.

Lemma client_reg_guard cl u e : client_reg cl u e = true -> existsb (ag_eid_eqb e) (map snd cl) = true.
Proof.
  unfold client_reg. destruct (ag_get u cl) as [e'|] eqn:Hg; [|discriminate]. intros Hm.
  apply existsb_exists. exists e'. split; [|exact Hm]. exact (in_map snd _ (u, e') (ag_get_some_in _ _ _ Hg)).
Qed.

Lemma clients_has_registered cl e :
  NoDup (map fst cl) -> existsb (ag_eid_eqb e) (map snd cl) = true -> exists u, client_reg cl u e = true.
Proof.
  intros ND (e' & ([u e''] & <- & Hin)%in_map_iff & He)%existsb_exists.
  exists u. unfold client_reg. now rewrite (ag_in_get _ _ cl ND Hin).
Qed.

Lemma ws_reg_keys_in c cl : In c (map fst (ag_ws_reg cl)) -> In c (map fst cl).
Proof.
  induction cl as [|[c' [e'|]] r IH]; cbn [ag_ws_reg map fst In]; tauto.
Qed.

Lemma ws_reg_nodup cl : NoDup (map fst cl) -> NoDup (map fst (ag_ws_reg cl)).
Proof.
  induction cl as [|[c' [e'|]] r IH]; cbn [ag_ws_reg map fst]; rewrite ?NoDup_cons_iff; [constructor| |tauto].
  intros [Hni ND]. split; [|now apply IH]. intros H. now apply Hni, ws_reg_keys_in.
Qed.

Lemma ws_reg_get cl c :
  NoDup (map fst cl) -> ag_get c (ag_ws_reg cl) = match ag_get c cl with Some oe => oe | None => None end.
Proof.
  induction cl as [|[c' [e'|]] r IH]; cbn [ag_ws_reg ag_get map fst]; [reflexivity| |];
    rewrite NoDup_cons_iff; intros [Hni ND]; destruct (c =? c') eqn:E; auto.
  apply N.eqb_eq in E as ->. apply ag_get_none_notin. intros H. now apply Hni, ws_reg_keys_in.
Qed.

Definition wf_agent (g : ag_agent) : Prop :=
  match g with
  | ARest cl _ => NoDup (map fst cl)
  | AWs cl => NoDup (map fst cl)
  | _ => True
  end.
Definition wf_ch (ch : list (N * ag_agent)) : Prop :=
  NoDup (map fst ch) /\ Forall (fun p => wf_agent (snd p)) ch.

Lemma wf_ch_set ch a g : wf_ch ch -> wf_agent g -> wf_ch (ag_set a g ch).
Proof. intros [ND WF] Hg. split; [now apply ag_set_nodup | now apply forall_set]. Qed.

Lemma wf_ch_get ch a g : wf_ch ch -> ag_get a ch = Some g -> wf_agent g.
Proof.
  intros [_ WF] Hg. apply ag_get_some_in in Hg. rewrite Forall_forall in WF. exact (WF _ Hg).
Qed.

Definition rlabel (r : ag_recipient) : N :=
  match r with RMock a | RPing a | RRest a _ | RWs a _ => a end.

Lemma registered_get ch r e :
  ag_registered ch r e
  = match ag_get (rlabel r) ch with Some g => ag_registered [(rlabel r, g)] r e | None => false end.
Proof. destruct r; cbn [ag_registered rlabel ag_get]; destruct (ag_get a ch); now rewrite ?N.eqb_refl. Qed.

Lemma registered_nolabel ch r e : ag_get (rlabel r) ch = None -> ag_registered ch r e = false.
Proof. intros H. now rewrite registered_get, H. Qed.

Lemma ws_reg_client cl c e :
  NoDup (map fst cl) ->
  client_reg (ag_ws_reg cl) c e = match ag_get c cl with Some (Some e') => ag_eid_eqb e e' | _ => false end.
Proof. intros ND. unfold client_reg. rewrite (ws_reg_get cl c ND). now destruct (ag_get c cl) as [[e'|]|]. Qed.

Definition mbox_of (og : option ag_agent) (u : N) : list abundle :=
  match og with Some (ARest _ mb) => ag_mb_contents u mb | _ => [] end.

Lemma mailbox_get ch a u : ag_mailbox ch a u = mbox_of (ag_get a ch) u.
Proof. reflexivity. Qed.

Lemma registered_one_has orc site a g r e :
  wf_agent g -> ag_registered [(a, g)] r e = true -> existsb (ag_eid_eqb e) (ag_agent_eids orc site a g) = true.
Proof.
  intros WF. rewrite agent_eids_has.
  destruct r as [a0|a0|a0 u|a0 u]; cbn [ag_registered ag_get]; destruct (a0 =? a) eqn:E; try discriminate;
    destruct g as [es|e'|cl mb|cl]; try discriminate; cbn [ag_agent_eids ag_permute].
  - trivial.
  - cbn [existsb]. intros ->. reflexivity.
  - apply client_reg_guard.
  - rewrite <- (ws_reg_client cl u e WF). apply client_reg_guard.
Qed.

Lemma has_one_registered orc site a g e :
  wf_agent g -> existsb (ag_eid_eqb e) (ag_agent_eids orc site a g) = true ->
  exists r, rlabel r = a /\ ag_registered [(a, g)] r e = true.
Proof.
  intros WF H. rewrite agent_eids_has in H. destruct g as [es|e'|cl mb|cl]; cbn [ag_agent_eids ag_permute wf_agent] in *.
  - exists (RMock a). split; [reflexivity|]. cbn [ag_registered ag_get]. now rewrite N.eqb_refl.
  - exists (RPing a). split; [reflexivity|]. cbn [ag_registered ag_get]. rewrite N.eqb_refl.
    cbn [existsb] in H. now rewrite orb_false_r in H.
  - destruct (clients_has_registered cl e WF H) as [u Hu].
    exists (RRest a u). split; [reflexivity|]. cbn [ag_registered ag_get]. now rewrite N.eqb_refl.
  - destruct (clients_has_registered _ e (ws_reg_nodup cl WF) H) as [u Hu].
    exists (RWs a u). split; [reflexivity|]. cbn [ag_registered ag_get]. now rewrite N.eqb_refl, <- ws_reg_client.
Qed.

Lemma mux_has_cons orc site a g ch e :
  ag_mux_has orc site ((a, g) :: ch) e = existsb (ag_eid_eqb e) (ag_agent_eids orc site a g) || ag_mux_has orc site ch e.
Proof. unfold ag_mux_has, ag_mux_eids. cbn [flat_map fst snd]. apply existsb_app. Qed.

Lemma mux_has_in orc site ch e :
  ag_mux_has orc site ch e = true
  <-> exists a g, In (a, g) ch /\ existsb (ag_eid_eqb e) (ag_agent_eids orc site a g) = true.
Proof.
  induction ch as [|[a g] ch IH]; [split; [discriminate | now intros (? & ? & [] & _)]|].
  rewrite mux_has_cons, orb_true_iff, IH. cbn [In]. split.
  - intros [H|(a' & g' & Hin & H)]; [exists a, g | exists a', g']; auto.
  - intros (a' & g' & [[= <- <-]|Hin] & He); [now left | right; now exists a', g'].
Qed.

Lemma mux_has_iff orc site ch e :
  wf_ch ch -> ag_mux_has orc site ch e = true <-> exists r, ag_registered ch r e = true.
Proof.
  intros WF. rewrite mux_has_in. split.
  - intros (a & g & Hin & H). pose proof (ag_in_get _ _ _ (proj1 WF) Hin) as G.
    destruct (has_one_registered orc site a g e (wf_ch_get _ _ _ WF G) H) as (r & <- & R).
    exists r. now rewrite registered_get, G.
  - intros [r R]. rewrite registered_get in R. destruct (ag_get (rlabel r) ch) as [g|] eqn:G; [|discriminate].
    exists (rlabel r), g. split; [now apply ag_get_some_in|].
    exact (registered_one_has orc site _ g r e (wf_ch_get _ _ _ WF G) R).
Qed.

Lemma mux_has_order orc site orc' site' ch e : ag_mux_has orc site ch e = ag_mux_has orc' site' ch e.
Proof.
  induction ch as [|[a g] ch IH]; [reflexivity|].
  now rewrite !mux_has_cons, IH, (agent_eids_has orc), (agent_eids_has orc').
Qed.

(* MuxAgent.handle, one child *)
Definition fan_one (orc : ag_oracle) (a : N) (g : ag_agent) (b : abundle) : ag_agent * list ag_output :=
  if existsb (ag_eid_eqb (ab_dst b)) (ag_agent_eids orc 2%nat a g) then ag_agent_receive orc a g b else (g, []).

Lemma mux_fanout_cons orc a g r b :
  ag_mux_fanout orc ((a, g) :: r) b
  = ((a, fst (fan_one orc a g b)) :: fst (ag_mux_fanout orc r b), snd (fan_one orc a g b) ++ snd (ag_mux_fanout orc r b)).
Proof. reflexivity. Qed.

Lemma fan_one_hands orc a g b r :
  wf_agent g ->
  ag_hands_to r (snd (fan_one orc a g b)) = if ag_registered [(a, g)] r (ab_dst b) then [b] else [].
Proof.
  intros WF. unfold fan_one. destruct (existsb _ _) eqn:G; cbn [snd].
  - (* a recipient of another kind or label gets nothing and is not registered with this child *)
    destruct g as [es|e|cl mb|cl], r as [a0|a0|a0 u|a0 u];
      cbn [ag_agent_eids ag_agent_receive snd wf_agent ag_registered ag_get ag_hands_to ag_recipient_eqb existsb] in *;
      destruct (a0 =? a) eqn:E; rewrite ?orb_false_r in G; rewrite ?G; try reflexivity;
      try (apply hands_map_none; intros x; cbn [ag_recipient_eqb]; now rewrite ?E).
    + apply (clients_hands _ _ u b cl _ WF (ag_permute_perm _ _)). intros x. cbn [ag_recipient_eqb]. now rewrite E.
    + rewrite <- (ws_reg_client cl u _ WF).
      apply (clients_hands _ _ u b _ _ (ws_reg_nodup cl WF) (Permutation_refl _)).
      intros x. cbn [ag_recipient_eqb]. now rewrite E.
  - (* the child is skipped: then nobody of it is registered *)
    destruct (ag_registered _ r _) eqn:R; [|reflexivity].
    rewrite (registered_one_has orc 2%nat a g r _ WF R) in G. discriminate.
Qed.

Lemma fanout_hands orc ch b r :
  wf_ch ch ->
  ag_hands_to r (snd (ag_mux_fanout orc ch b)) = if ag_registered ch r (ab_dst b) then [b] else [].
Proof.
  induction ch as [|[a g] ch IH]; intros [ND WF]; [now destruct r|].
  cbn [map fst] in ND. apply NoDup_cons_iff in ND as [Hni ND]. apply Forall_cons_iff in WF as [WFg WF].
  rewrite mux_fanout_cons. cbn [snd]. rewrite hands_app, (fan_one_hands orc a g b r WFg), (IH (conj ND WF)).
  rewrite (registered_get ((a, g) :: ch)). cbn [ag_get]. destruct (rlabel r =? a) eqn:E.
  - (* r is of the first child: no later child has its label *)
    apply N.eqb_eq in E. rewrite E, (registered_nolabel ch r); [apply app_nil_r | rewrite E; now apply ag_get_none_notin].
  - rewrite (registered_nolabel [(a, g)] r), <- registered_get; [reflexivity|]. cbn [ag_get]. now rewrite E.
Qed.

Definition is_hand (o : ag_output) : bool := match o with AOHand _ _ => true | _ => false end.

Lemma fanout_only_hands orc ch b : forallb is_hand (snd (ag_mux_fanout orc ch b)) = true.
Proof.
  induction ch as [|[a g] ch IH]; [reflexivity|].
  rewrite mux_fanout_cons. cbn [snd]. rewrite forallb_app, IH, andb_true_r.
  unfold fan_one. destruct (existsb _ _); [|reflexivity].
  destruct g; cbn [ag_agent_receive snd]; try reflexivity;
    apply forallb_forall; intros x (p & <- & _)%in_map_iff; reflexivity.
Qed.

Lemma only_hands_no_sent outs : forallb is_hand outs = true -> filter ag_is_sent outs = [].
Proof.
  induction outs as [|[] outs IH]; cbn [forallb filter is_hand ag_is_sent andb]; auto; discriminate.
Qed.

Lemma only_hands_consumed a u outs : forallb is_hand outs = true -> ag_consumed a u outs = [].
Proof.
  induction outs as [|[] outs IH]; cbn [forallb ag_consumed is_hand andb]; auto; discriminate.
Qed.

Lemma fanout_get orc ch b a :
  ag_get a (fst (ag_mux_fanout orc ch b)) = option_map (fun g => fst (fan_one orc a g b)) (ag_get a ch).
Proof.
  induction ch as [|[a' g] ch IH]; [reflexivity|]. rewrite mux_fanout_cons. cbn [fst ag_get].
  destruct (a =? a') eqn:E; [apply N.eqb_eq in E as ->; reflexivity | exact IH].
Qed.

Lemma fan_one_wf orc a g b : wf_agent g -> wf_agent (fst (fan_one orc a g b)).
Proof. unfold fan_one. destruct (existsb _ _); [|trivial]. now destruct g. Qed.

Lemma fanout_wf orc ch b : wf_ch ch -> wf_ch (fst (ag_mux_fanout orc ch b)).
Proof.
  intros [ND WF]. split.
  - replace (map fst (fst (ag_mux_fanout orc ch b))) with (map fst ch); [exact ND|].
    clear. induction ch as [|[a g] ch IH]; [reflexivity|]. rewrite mux_fanout_cons. cbn [fst map]. now rewrite IH.
  - clear ND. induction WF as [|[a g] ch WFg WF IH]; [constructor|].
    rewrite mux_fanout_cons. constructor; [now apply fan_one_wf | exact IH].
Qed.

Lemma fanout_registered orc ch b r e :
  ag_registered (fst (ag_mux_fanout orc ch b)) r e = ag_registered ch r e.
Proof.
  rewrite !(registered_get _ r), fanout_get. destruct (ag_get (rlabel r) ch) as [g|]; [|reflexivity].
  cbn [option_map]. unfold fan_one. destruct (existsb _ _); [|reflexivity].
  destruct g; try reflexivity. cbn [ag_agent_receive fst].
  destruct r; cbn [ag_registered ag_get rlabel]; now rewrite ?N.eqb_refl.
Qed.

Lemma mb_put_contents u u' b mb :
  ag_mb_contents u (ag_mb_put u' b mb) = if u =? u' then ag_mb_contents u mb ++ [b] else ag_mb_contents u mb.
Proof.
  unfold ag_mb_put, ag_mb_contents.
  destruct (ag_get u' mb) eqn:G; rewrite ag_get_set; destruct (u =? u') eqn:E; try reflexivity;
    apply N.eqb_eq in E as ->; now rewrite G.
Qed.

Lemma fold_put_contents u b us : forall mb, NoDup us ->
  ag_mb_contents u (fold_left (fun m x => ag_mb_put x b m) us mb)
  = ag_mb_contents u mb ++ (if existsb (N.eqb u) us then [b] else []).
Proof.
  induction us as [|x us IH]; intros mb ND; cbn [fold_left existsb]; [now rewrite app_nil_r|].
  apply NoDup_cons_iff in ND as [Hni ND]. rewrite (IH _ ND), mb_put_contents.
  destruct (u =? x) eqn:E; cbn [orb]; [|reflexivity].
  apply N.eqb_eq in E as ->. destruct (existsb _ us) eqn:EX; [|now rewrite app_nil_r]. now apply existsb_eqb_in in EX.
Qed.

Lemma contents_del u u' (mb : list (N * list abundle)) :
  ag_mb_contents u (ag_del u' mb) = if u =? u' then [] else ag_mb_contents u mb.
Proof. unfold ag_mb_contents. rewrite ag_get_del. now destruct (u =? u'). Qed.

Lemma fan_one_mailbox orc a g b u :
  wf_agent g ->
  mbox_of (Some (fst (fan_one orc a g b))) u
  = mbox_of (Some g) u ++ ag_hands_to (RRest a u) (snd (fan_one orc a g b)).
Proof.
  intros WF. unfold fan_one. destruct (existsb _ _); [|apply eq_sym, app_nil_r].
  destruct g as [es|e|cl mb|cl]; cbn [ag_agent_receive fst snd mbox_of]; try reflexivity; [|now rewrite hands_map_none].
  set (hit := filter (ag_dst_match b) (ag_permute (orc a 9%nat) cl)).
  assert (NDh : NoDup (map fst hit)) by (apply NoDup_map_filter; now rewrite ag_permute_perm).
  rewrite (fold_put_contents u b _ mb NDh), (hands_map_one (RRest a u) (RRest a) u b hit); [reflexivity | | exact NDh].
  intros x. cbn [ag_recipient_eqb]. now rewrite N.eqb_refl.
Qed.

Lemma fanout_mailbox orc ch b a u :
  wf_ch ch ->
  ag_mailbox (fst (ag_mux_fanout orc ch b)) a u
  = ag_mailbox ch a u ++ ag_hands_to (RRest a u) (snd (ag_mux_fanout orc ch b)).
Proof.
  intros WF. rewrite !mailbox_get, fanout_get, (fanout_hands orc ch b _ WF), registered_get. cbn [rlabel].
  destruct (ag_get a ch) as [g|] eqn:G; [|reflexivity]. pose proof (wf_ch_get _ _ _ WF G) as WFg.
  cbn [option_map]. now rewrite (fan_one_mailbox orc a g b u WFg), (fan_one_hands orc a g b _ WFg).
Qed.

Definition quiet (o : list ag_output) : Prop := forall x, In x o -> ag_is_evidence x = false.
Definition is_ack (b : abundle) (x : ag_output) : Prop := x = AOReport b \/ x = AORelease b.
Definition acked (o : list ag_output) : Prop :=
  forall pre x post b, o = pre ++ x :: post -> is_ack b x -> exists r, In (AOHand r b) pre.

Lemma forallb_quiet o : forallb (fun x => negb (ag_is_evidence x)) o = true -> quiet o.
Proof. intros H x Hx. rewrite forallb_forall in H. apply negb_true_iff, H, Hx. Qed.

Lemma quiet_no_ack o pre x post b : quiet o -> o = pre ++ x :: post -> ~ is_ack b x.
Proof. intros Q -> A. specialize (Q x (in_elt _ _ _)). destruct A as [-> | ->]; discriminate. Qed.

Lemma quiet_acked o : quiet o -> acked o.
Proof. intros Q pre x post b E A. destruct (quiet_no_ack _ _ _ _ b Q E A). Qed.

Lemma quiet_hands r o : quiet o -> ag_hands_to r o = [].
Proof.
  intros Q. destruct (ag_hands_to r o) as [|b l] eqn:E; [reflexivity|].
  assert (Hin : In (AOHand r b) o) by (apply in_hands_iff; rewrite E; now left).
  discriminate (Q _ Hin).
Qed.

Lemma acked_app o1 o2 : acked o1 -> acked o2 -> acked (o1 ++ o2).
Proof.
  intros A1 A2 pre x post b E A. apply app_eq_elt in E as [(q & -> & _)|(q & -> & ->)].
  - exact (A1 pre x q b eq_refl A).
  - destruct (A2 q x post b eq_refl A) as [r Hin]. exists r. apply in_or_app. now right.
Qed.

Lemma ag_consumed_app a u o1 o2 : ag_consumed a u (o1 ++ o2) = ag_consumed a u o1 ++ ag_consumed a u o2.
Proof.
  induction o1 as [|x o1 IH]; [reflexivity|]. cbn [app ag_consumed].
  destruct x; try exact IH; destruct ((a =? a0) && (u =? u0)); rewrite IH; now rewrite ?app_assoc.
Qed.

Lemma consumed_sent a u b l : ag_consumed a u (map (fun p => AOSent p b) l) = [].
Proof. induction l; [reflexivity | exact IHl]. Qed.

(* one arriving bundle: Core.receive, dispatching, localDelivery.  HasEndpoint is asked at two
   sites; the answers agree *)
Lemma deliver_eq orc s b :
  ag_deliver orc s b
  = if existsb (N.eqb (ab_id b)) (ast_known s) then (s, [AODup b])
    else if ag_mux_has orc 1%nat (ast_ch s) (ab_dst b) then
      let s' := ag_set_ch s (fst (ag_mux_fanout orc (ast_ch s) b)) in
      (s', snd (ag_mux_fanout orc (ast_ch s) b)
           ++ (if ab_want b && negb (ag_core_has orc 3%nat s' (ab_rpt b)) then [AOReport b] else [])
           ++ [AORelease b])
    else if ag_same_node (ast_node s) (ab_dst b) then (fst (ag_forward s b), [AOKeep b])
    else ag_forward s b.
Proof.
  unfold ag_deliver, ag_core_has, ag_local_delivery, ag_am_deliver.
  rewrite (mux_has_order orc 0%nat orc 1%nat).
  destruct (existsb _ (ast_known s)); [reflexivity|].
  destruct (ag_mux_has orc 1%nat _ _); [rewrite orb_true_r; now destruct (ag_mux_fanout _ _ _)|].
  rewrite orb_false_r. now destruct (ag_same_node _ _).
Qed.

Lemma deliver_else orc s b :
  existsb (N.eqb (ab_id b)) (ast_known s) = true \/ ag_mux_has orc 1%nat (ast_ch s) (ab_dst b) = false ->
  ast_ch (fst (ag_deliver orc s b)) = ast_ch s /\ quiet (snd (ag_deliver orc s b))
  /\ forall a u, ag_consumed a u (snd (ag_deliver orc s b)) = [].
Proof.
  intros H. rewrite deliver_eq. destruct (existsb _ (ast_known s)); [now repeat split; try apply forallb_quiet|].
  destruct H as [H | ->]; [discriminate|].
  destruct (ag_same_node _ _); [now repeat split; try apply forallb_quiet|].
  repeat split; [|intros; apply consumed_sent]. now intros x (p & <- & _)%in_map_iff.
Qed.

Lemma deliver_cases orc s b :
  (existsb (N.eqb (ab_id b)) (ast_known s) = false /\ ag_mux_has orc 1%nat (ast_ch s) (ab_dst b) = true)
  \/ (existsb (N.eqb (ab_id b)) (ast_known s) = true \/ ag_mux_has orc 1%nat (ast_ch s) (ab_dst b) = false).
Proof. destruct (existsb _ _); [now right; left|]. destruct (ag_mux_has _ _ _ _); [left | right]; auto. Qed.

Lemma deliver_ch orc s b :
  ast_ch (fst (ag_deliver orc s b)) = ast_ch s \/ ast_ch (fst (ag_deliver orc s b)) = fst (ag_mux_fanout orc (ast_ch s) b).
Proof.
  rewrite deliver_eq. destruct (existsb _ (ast_known s)); [now left|].
  destruct (ag_mux_has _ _ _ _); [now right|]. destruct (ag_same_node _ _); now left.
Qed.

Lemma deliver_exact orc s b r :
  wf_ch (ast_ch s) -> existsb (N.eqb (ab_id b)) (ast_known s) = false ->
  ag_hands_to r (snd (ag_deliver orc s b)) = if ag_registered (ast_ch s) r (ab_dst b) then [b] else [].
Proof.
  intros WF HK. destruct (ag_mux_has orc 1%nat (ast_ch s) (ab_dst b)) eqn:M.
  - rewrite deliver_eq, HK, M. cbn [snd]. rewrite !hands_app, (fanout_hands orc _ b r WF).
    destruct (ab_want b && _); cbn [ag_hands_to app]; apply app_nil_r.
  - destruct (deliver_else orc s b (or_intror M)) as (_ & Q & _). rewrite (quiet_hands r _ Q).
    destruct (ag_registered _ r _) eqn:R; [|reflexivity].
    rewrite (proj2 (mux_has_iff orc 1%nat _ _ WF) (ex_intro _ r R)) in M. discriminate.
Qed.

Lemma deliver_nobody orc s b :
  wf_ch (ast_ch s) -> (forall r, ag_registered (ast_ch s) r (ab_dst b) = false) -> quiet (snd (ag_deliver orc s b)).
Proof.
  intros WF NR. apply deliver_else. right. destruct (ag_mux_has _ _ _ _) eqn:M; [|reflexivity].
  apply (mux_has_iff _ _ _ _ WF) in M as [r R]. now rewrite NR in R.
Qed.

Lemma deliver_no_sent orc s b r :
  wf_ch (ast_ch s) -> ag_registered (ast_ch s) r (ab_dst b) = true ->
  filter ag_is_sent (snd (ag_deliver orc s b)) = [].
Proof.
  intros WF R. rewrite deliver_eq, (proj2 (mux_has_iff orc 1%nat _ _ WF) (ex_intro _ r R)).
  destruct (existsb _ (ast_known s)); [reflexivity|]. cbn [snd].
  rewrite !filter_app, (only_hands_no_sent _ (fanout_only_hands _ _ _)). now destruct (ab_want b && _).
Qed.

Lemma deliver_mailbox orc s b a u :
  wf_ch (ast_ch s) ->
  ag_mailbox (ast_ch s) a u ++ ag_hands_to (RRest a u) (snd (ag_deliver orc s b))
  = ag_consumed a u (snd (ag_deliver orc s b)) ++ ag_mailbox (ast_ch (fst (ag_deliver orc s b))) a u.
Proof.
  intros WF. destruct (deliver_cases orc s b) as [[HK M]|ELSE].
  - rewrite deliver_eq, HK, M. cbn [fst snd ast_ch ag_set_ch].
    rewrite !hands_app, !ag_consumed_app, (only_hands_consumed a u _ (fanout_only_hands _ _ _)), (fanout_mailbox _ _ _ _ _ WF).
    destruct (ab_want b && _); cbn [ag_hands_to ag_consumed app]; now rewrite app_nil_r.
  - destruct (deliver_else orc s b ELSE) as (-> & Q & ->). now rewrite (quiet_hands _ _ Q), app_nil_r.
Qed.

Lemma deliver_ack orc s b b' pre x post :
  wf_ch (ast_ch s) -> snd (ag_deliver orc s b) = pre ++ x :: post -> is_ack b' x ->
  b' = b /\ exists r, ag_registered (ast_ch s) r (ab_dst b) = true /\ In (AOHand r b) pre.
Proof.
  intros WF E A. destruct (deliver_cases orc s b) as [[HK M]|ELSE].
  - rewrite deliver_eq, HK, M in E. cbn [snd] in E.
    (* the hand-overs of the fan-out come first, and x is none of them *)
    apply app_eq_elt in E as [(q & EF & _)|(q & -> & Eq)].
    { pose proof (fanout_only_hands orc (ast_ch s) b) as OH. rewrite EF, forallb_app in OH.
      apply andb_true_iff in OH as [_ [HX _]%andb_true_iff]. destruct A as [-> | ->]; discriminate HX. }
    split.
    + (* x is the report or the release of b *)
      pose proof (in_elt x q post) as Hx. rewrite <- Eq in Hx.
      destruct (ab_want b && _); cbn [app In] in Hx; destruct A as [-> | ->]; intuition congruence.
    + apply (mux_has_iff _ _ _ _ WF) in M as [r R]. exists r. split; [exact R|].
      apply in_or_app. left. apply in_hands_iff. rewrite (fanout_hands orc _ b r WF), R. now left.
  - destruct (deliver_else orc s b ELSE) as (_ & Q & _). destruct (quiet_no_ack _ _ _ _ b' Q E A).
Qed.

(* Every event but the arrival of a bundle concerns the agent of one label: it is looked up (for
   a new agent: must be absent), and the agent it becomes is stored under the label.
   [local_step a ev og g' o]: event ev takes og, the agent found under label a, to g' and puts out
   o.  Of the event of a WebSocket client only this is kept: the entry of that client is set or
   deleted. *)
Definition ws_event (ev : ag_event) : option (N * N) :=
  match ev with
  | AEWsConnect a c _ | AEWsDisconnect a c | AEWsDial a c | AEWsRegister a c _ => Some (a, c)
  | _ => None
  end.

Inductive local_step (a : N) : ag_event -> option ag_agent -> ag_agent -> list ag_output -> Prop :=
| LNew g : ag_agent_initial g = true -> local_step a (AERegAgent a g) None g []
| LRegister u e cl mb : local_step a (AERestRegister a u e) (Some (ARest cl mb)) (ARest (ag_set u e cl) mb) []
| LUnregister u cl mb :
    local_step a (AERestUnregister a u) (Some (ARest cl mb)) (ARest (ag_del u cl) (ag_del u mb))
               [AODropped a u (ag_mb_contents u mb)]
| LFetch u cl mb :
    local_step a (AERestFetch a u) (Some (ARest cl mb)) (ARest cl (ag_del u mb)) [AOFetched a u (ag_mb_contents u mb)]
| LWsSet ev c oe cl : ws_event ev = Some (a, c) -> local_step a ev (Some (AWs cl)) (AWs (ag_set c oe cl)) []
| LWsDel ev c cl : ws_event ev = Some (a, c) -> local_step a ev (Some (AWs cl)) (AWs (ag_del c cl)) [].

Lemma ag_step_cases s ev s' o :
  ag_step s ev = Some (s', o) ->
  (exists b orc, ev = AEDeliver b orc /\ s' = fst (ag_deliver orc s b) /\ o = snd (ag_deliver orc s b))
  \/ (exists a g', local_step a ev (ag_get a (ast_ch s)) g' o /\ s' = ag_set_ch s (ag_set a g' (ast_ch s))).
Proof.
  intros ST. destruct ev as [a g|a u e|a u|a u|a c e|a c|a c|a c oe|b orc]; cbn [ag_step] in ST;
    [right; exists a; destruct (ag_get a (ast_ch s)) as [[es|e0|cl mb|cl]|] eqn:G; try discriminate ST ..
    | left; exists b, orc; injection ST as E; now rewrite E].
  - (* a new agent goes to the end, where ag_set puts a label that is not there; so does a new client *)
    destruct (ag_agent_initial g) eqn:I; [|discriminate]. injection ST as <- <-.
    rewrite <- (ag_set_fresh _ _ _ G). eexists. split; [|reflexivity]. now constructor.
  - injection ST as <- <-. eexists. split; [|reflexivity]. constructor.
  - injection ST as <- <-. eexists. split; [|reflexivity]. constructor.
  - injection ST as <- <-. eexists. split; [|reflexivity]. constructor.
  - destruct (ag_get c cl) eqn:Gc; [discriminate|]. injection ST as <- <-.
    rewrite <- (ag_set_fresh _ _ _ Gc). eexists. split; [|reflexivity]. now apply LWsSet.
  - injection ST as <- <-. eexists. split; [|reflexivity]. now apply LWsDel.
  - destruct (ag_get c cl) eqn:Gc; [discriminate|]. injection ST as <- <-.
    rewrite <- (ag_set_fresh _ _ _ Gc). eexists. split; [|reflexivity]. now apply LWsSet.
  - destruct (ag_get c cl) as [[e1|]|], oe as [e2|]; try discriminate; injection ST as <- <-;
      (eexists; split; [|reflexivity]); (now apply LWsSet) || now apply LWsDel.
Qed.

Lemma ws_touches ev a c r : ws_event ev = Some (a, c) -> ag_ev_touches ev r = ag_recipient_eqb r (RWs a c).
Proof. destruct ev; try discriminate; now intros [= -> ->]. Qed.

Lemma initial_wf g : ag_agent_initial g = true -> wf_agent g.
Proof. destruct g as [| |cl mb|cl]; cbn; trivial; destruct cl; try discriminate; intros; constructor. Qed.

Lemma local_wf a ev og g' o :
  local_step a ev og g' o -> (forall g, og = Some g -> wf_agent g) -> wf_agent g'.
Proof.
  intros [g I|u e cl mb|u cl mb|u cl mb|ev' c oe cl _|ev' c cl _] WF; try specialize (WF _ eq_refl);
    cbn [wf_agent] in *; auto using ag_set_nodup, ag_del_nodup, initial_wf.
Qed.

Lemma local_quiet a ev og g' o : local_step a ev og g' o -> quiet o.
Proof. intros []; apply forallb_quiet; reflexivity. Qed.

(* a client that is given what its mailbox holds: what it consumes is what leaves the mailbox *)
Lemma mailbox_taken a0 a u u1 (mb : list (N * list abundle)) :
  (if a0 =? a then ag_mb_contents u mb else [])
  = (if (a0 =? a) && (u =? u1) then ag_mb_contents u1 mb ++ [] else [])
    ++ (if a0 =? a then ag_mb_contents u (ag_del u1 mb) else []).
Proof.
  destruct (a0 =? a); [|reflexivity]. rewrite contents_del. cbn [andb].
  destruct (u =? u1) eqn:E; [apply N.eqb_eq in E as ->; now rewrite !app_nil_r | reflexivity].
Qed.

Lemma local_mailbox a ev og g' o a0 u :
  local_step a ev og g' o ->
  (if a0 =? a then mbox_of og u else []) = ag_consumed a0 u o ++ (if a0 =? a then mbox_of (Some g') u else []).
Proof.
  intros [g I|u1 e cl mb|u1 cl mb|u1 cl mb|ev' c oe cl _|ev' c cl _]; cbn [ag_consumed mbox_of app].
  - now destruct g as [| |[] []|], (a0 =? a).
  - reflexivity.
  - apply mailbox_taken.
  - apply mailbox_taken.
  - reflexivity.
  - reflexivity.
Qed.

Lemma local_registered a ev og g' o r e :
  local_step a ev og g' o -> ag_ev_touches ev r = false ->
  ag_registered [(a, g')] r e = match og with Some g => ag_registered [(a, g)] r e | None => false end.
Proof.
  intros [g I|u e1 cl mb|u cl mb|u cl mb|ev' c oe cl W|ev' c cl W]; rewrite ?(ws_touches _ _ _ r W);
    cbn [ag_ev_touches]; intros T;
    destruct r as [a0|a0|a0 x|a0 x]; cbn [ag_registered ag_get ag_recipient_eqb] in *;
    destruct (a0 =? a) eqn:E; try reflexivity; cbn [andb] in T.
  (* a client x other than the one of the event is looked up as before *)
  all: try now rewrite ?ag_get_set, ?ag_get_del, T.
  (* a new agent: r has another label *)
  all: now rewrite N.eqb_sym, E in T.
Qed.

Definition ag_inv (s : ag_state) (o : list ag_output) : Prop :=
  wf_ch (ast_ch s)
  /\ (forall a u, ag_hands_to (RRest a u) o = ag_consumed a u o ++ ag_mailbox (ast_ch s) a u)
  /\ acked o.

Lemma ag_inv_step s o ev s1 o1 : ag_inv s o -> ag_step s ev = Some (s1, o1) -> ag_inv s1 (o ++ o1).
Proof.
  intros (WF & MB & AK) ST.
  (* it suffices to look at the step alone *)
  cut (wf_ch (ast_ch s1)
       /\ (forall a u, ag_mailbox (ast_ch s) a u ++ ag_hands_to (RRest a u) o1
                       = ag_consumed a u o1 ++ ag_mailbox (ast_ch s1) a u)
       /\ acked o1).
  { intros (WF1 & MB1 & AK1). split; [exact WF1|]. split; [|now apply acked_app].
    intros a u. now rewrite hands_app, ag_consumed_app, MB, <- !app_assoc, MB1. }
  destruct (ag_step_cases _ _ _ _ ST) as [(b & orc & -> & -> & ->)|(a & g' & LC & ->)].
  - split; [|split].
    + destruct (deliver_ch orc s b) as [-> | ->]; [exact WF | now apply fanout_wf].
    + intros a u. now apply deliver_mailbox.
    + intros pre x post b' E A.
      destruct (deliver_ack orc s b b' pre x post WF E A) as (-> & r & _ & Hin). now exists r.
  - cbn [ast_ch ag_set_ch]. pose proof (local_quiet _ _ _ _ _ LC) as Q. split; [|split].
    + apply wf_ch_set; [exact WF|]. apply (local_wf _ _ _ _ _ LC). intros g. now apply wf_ch_get.
    + intros a0 u. rewrite (quiet_hands _ _ Q), app_nil_r, !mailbox_get, ag_get_set.
      pose proof (local_mailbox a ev _ g' o1 a0 u LC) as LM. destruct (a0 =? a) eqn:E.
      * apply N.eqb_eq in E as ->. exact LM.
      * rewrite app_nil_r in LM. now rewrite <- LM.
    + now apply quiet_acked.
Qed.

Lemma ag_inv_run h : forall s o s' o', ag_inv s o -> ag_run s h = Some (s', o') -> ag_inv s' (o ++ o').
Proof.
  induction h as [|ev h IH]; intros s o s' o' HI; cbn [ag_run].
  - intros [= <- <-]. now rewrite app_nil_r.
  - destruct (ag_step s ev) as [[s1 o1]|] eqn:ST; [|discriminate].
    destruct (ag_run s1 h) as [[s2 o2]|] eqn:RN; [|discriminate].
    intros [= <- <-]. rewrite app_assoc. exact (IH _ _ _ _ (ag_inv_step _ _ _ _ _ HI ST) RN).
Qed.

Lemma ag_inv_init node peers : ag_inv (ag_init node peers) [].
Proof. split; [split; constructor|]. split; [reflexivity|]. intros [] ? ? ? [=]. Qed.

Lemma ag_inv_history node peers h s outs : ag_run (ag_init node peers) h = Some (s, outs) -> ag_inv s outs.
Proof. apply (ag_inv_run h _ []), ag_inv_init. Qed.

Lemma step_registered_stable s ev s' o r e :
  ag_step s ev = Some (s', o) -> ag_ev_touches ev r = false ->
  ag_registered (ast_ch s') r e = ag_registered (ast_ch s) r e.
Proof.
  intros ST T. destruct (ag_step_cases _ _ _ _ ST) as [(b & orc & -> & -> & ->)|(a & g' & LC & ->)].
  - destruct (deliver_ch orc s b) as [-> | ->]; [reflexivity | apply fanout_registered].
  - cbn [ast_ch ag_set_ch]. rewrite !(registered_get _ r), ag_get_set.
    destruct (rlabel r =? a) eqn:E; [|reflexivity].
    apply N.eqb_eq in E. rewrite E. exact (local_registered a ev _ g' o r e LC T).
Qed.

Lemma run_registered_stable h : forall s s' o r e,
  ag_run s h = Some (s', o) -> forallb (fun ev => negb (ag_ev_touches ev r)) h = true ->
  ag_registered (ast_ch s') r e = ag_registered (ast_ch s) r e.
Proof.
  induction h as [|ev h IH]; intros s s' o r e; cbn [ag_run forallb].
  - now intros [= <- _] _.
  - destruct (ag_step s ev) as [[s1 o1]|] eqn:ST; [|discriminate].
    destruct (ag_run s1 h) as [[s2 o2]|] eqn:RN; [|discriminate].
    intros [= <- _] [T1%negb_true_iff T2]%andb_true_iff.
    rewrite (IH s1 s2 o2 r e RN T2). exact (step_registered_stable s ev s1 o1 r e ST T1).
Qed.

Lemma mbx_run_inv (P : mbx_state -> Prop) locked :
  (forall s i, P s -> P (mbx_sub locked s i)) -> forall sched s, P s -> P (mbx_run locked sched s).
Proof.
  intros STEP. unfold mbx_run. induction sched as [|i sched IH]; intros s H; [exact H|].
  cbn [fold_left]. apply IH, STEP, H.
Qed.

(* With the mutex, a thread inside the section owns the lock, and what it has loaded is still
   what the box holds: its Load and Store / Delete act as one step on the box. *)
Definition thread_inv (s : mbx_state) (j : nat) (pc : mbx_pc) : Prop :=
  match pc with
  | MP0 | MPDone => True
  | MP1 | MP3 => mbx_lock s = Some j
  | MP2 v => mbx_lock s = Some j /\ v = mbx_box s
  end.
Definition mailbox_inv (s : mbx_state) : Prop :=
  mbx_put s = mbx_got s ++ mbx_contents (mbx_box s)
  /\ forall j op pc, nth_error (mbx_thr s) j = Some (op, pc) -> thread_inv s j pc.

(* When thread i's move changes the lock or the box, the lock was free or its own, so that no
   other thread is inside the section. *)
Lemma threads_upd s s' i op pc pc' :
  (forall j op pc, nth_error (mbx_thr s) j = Some (op, pc) -> thread_inv s j pc) ->
  nth_error (mbx_thr s) i = Some (op, pc) ->
  mbx_thr s' = ag_list_upd i (op, pc') (mbx_thr s) ->
  thread_inv s' i pc' ->
  (mbx_lock s' = mbx_lock s /\ mbx_box s' = mbx_box s) \/ mbx_lock s = None \/ mbx_lock s = Some i ->
  forall j op pc, nth_error (mbx_thr s') j = Some (op, pc) -> thread_inv s' j pc.
Proof.
  intros TI Hi -> Ti FR j opj pcj Hj. rewrite nth_error_list_upd, Hi in Hj. destruct (Nat.eqb i j) eqn:E.
  - apply Nat.eqb_eq in E as <-. injection Hj as <- <-. exact Ti.
  - apply Nat.eqb_neq in E. specialize (TI j opj pcj Hj).
    destruct FR as [[EL EB]|FR]; [unfold thread_inv; now rewrite EL, EB|].
    destruct pcj; cbn [thread_inv] in *; trivial; destruct FR; intuition congruence.
Qed.

Lemma mailbox_inv_sub s i : mailbox_inv s -> mailbox_inv (mbx_sub true s i).
Proof.
  intros [I1 TI]. unfold mbx_sub. destruct (nth_error (mbx_thr s) i) as [[op pc]|] eqn:Hi; [|now split].
  pose proof (TI i op pc Hi) as Ti. destruct pc as [| |v| |]; cbn [thread_inv] in Ti.
  - destruct (mbx_lock s) eqn:L; [now split|]. split; [exact I1|].
    eapply threads_upd; [exact TI | exact Hi | reflexivity | exact eq_refl | now right; left].
  - split; [exact I1|]. eapply threads_upd; [exact TI | exact Hi | reflexivity | now split | now left].
  - (* Store / Delete, of the value just loaded *)
    destruct Ti as [L ->].
    destruct op as [b|]; (split; [|eapply threads_upd; [exact TI | exact Hi | reflexivity | exact L | auto]]);
      cbn [mbx_put mbx_got mbx_box mbx_contents].
    + now rewrite I1, <- app_assoc.
    + rewrite I1. destruct (mbx_box s); cbn [mbx_contents]; now rewrite !app_nil_r.
  - split; [exact I1|]. eapply threads_upd; [exact TI | exact Hi | reflexivity | exact I | auto].
  - now split.
Qed.

Lemma mailbox_inv_run ops sched : mailbox_inv (mbx_run true sched (mbx_init ops)).
Proof.
  apply (mbx_run_inv mailbox_inv true mailbox_inv_sub). split; [reflexivity|].
  intros j op pc H. apply nth_error_In, in_map_iff in H as (x & [= _ <-] & _). exact I.
Qed.

Definition stc (t : mbx_op * mbx_pc) : list abundle :=
  match t with
  | (MDeliver b, MP3) | (MDeliver b, MPDone) => [b]
  | _ => []
  end.
Lemma stored_flat thr : mbx_stored thr = flat_map stc thr.
Proof. reflexivity. Qed.

Lemma stored_upd thr : forall i t t', nth_error thr i = Some t ->
  Permutation (stc t' ++ flat_map stc thr) (stc t ++ flat_map stc (ag_list_upd i t' thr)).
Proof.
  induction thr as [|y thr IH]; intros [|i] t t'; cbn [nth_error ag_list_upd flat_map]; try discriminate.
  - intros [= ->]. apply Permutation_app_swap_app.
  - intros H. rewrite (Permutation_app_swap_app (stc t')), (Permutation_app_swap_app (stc t)).
    apply Permutation_app_head, IH, H.
Qed.

Lemma stored_sub locked s i :
  Permutation (mbx_put s) (flat_map stc (mbx_thr s)) ->
  Permutation (mbx_put (mbx_sub locked s i)) (flat_map stc (mbx_thr (mbx_sub locked s i))).
Proof.
  intros P. unfold mbx_sub. destruct (nth_error (mbx_thr s) i) as [[op pc]|] eqn:Hi; [|exact P].
  assert (SAME : forall pc', stc (op, pc') = stc (op, pc) ->
                 Permutation (mbx_put s) (flat_map stc (ag_list_upd i (op, pc') (mbx_thr s)))).
  { intros pc' E. rewrite P. apply (Permutation_app_inv_l (stc (op, pc))). rewrite <- E at 1. now apply stored_upd. }
  destruct pc as [| |v| |]; [destruct locked; [destruct (mbx_lock s)|]| | | |];
    cbn [mbx_put mbx_thr]; try exact P; try (apply SAME; now destruct op).
  destruct op as [b|]; cbn [mbx_put mbx_thr]; [|now apply SAME].
  (* the Store of a delivery *)
  rewrite <- Permutation_cons_append, P. exact (stored_upd _ i _ (MDeliver b, MP3) Hi).
Qed.

Definition mbx_delivered (ops : list mbx_op) : list abundle :=
  flat_map (fun op => match op with MDeliver b => [b] | MFetch => [] end) ops.

Lemma map_fst_upd (thr : list (mbx_op * mbx_pc)) i op pc pc' :
  nth_error thr i = Some (op, pc) -> map fst (ag_list_upd i (op, pc') thr) = map fst thr.
Proof. intros H. apply (map_list_upd fst (op, pc)). rewrite (nth_error_nth _ _ _ H). reflexivity. Qed.

Lemma ops_sub locked s i : map fst (mbx_thr (mbx_sub locked s i)) = map fst (mbx_thr s).
Proof.
  unfold mbx_sub. destruct (nth_error (mbx_thr s) i) as [[op pc]|] eqn:Hi; [|reflexivity].
  destruct pc as [| |v| |]; [destruct locked; [destruct (mbx_lock s)|]| |destruct op| |];
    try reflexivity; exact (map_fst_upd _ i _ _ _ Hi).
Qed.

Lemma stored_all_done thr :
  forallb (fun t => match snd t with MPDone => true | _ => false end) thr = true ->
  mbx_stored thr = mbx_delivered (map fst thr).
Proof.
  induction thr as [|[op pc] thr IH]; [reflexivity|].
  cbn [forallb snd map fst mbx_stored mbx_delivered flat_map]. intros [H1 H2]%andb_true_iff.
  destruct pc; try discriminate. unfold mbx_stored, mbx_delivered in IH. rewrite (IH H2). now destruct op.
Qed.

Theorem stored_run locked ops sched :
  let s := mbx_run locked sched (mbx_init ops) in
  Permutation (mbx_put s) (mbx_stored (mbx_thr s))
  /\ (mbx_all_done s = true -> Permutation (mbx_put s) (mbx_delivered ops)).
Proof.
  intros s.
  assert (ST : Permutation (mbx_put s) (mbx_stored (mbx_thr s))).
  { rewrite stored_flat. apply (mbx_run_inv _ locked (stored_sub locked)). cbn [mbx_init mbx_put mbx_thr].
    induction ops as [|[] ops IH]; [constructor | exact IH ..]. }
  split; [exact ST|].
  intros D. rewrite ST, (stored_all_done _ D). apply Permutation_refl'. f_equal.
  apply (mbx_run_inv (fun s => map fst (mbx_thr s) = ops) locked); [intros s0 i; now rewrite ops_sub|].
  cbn [mbx_init mbx_thr]. now rewrite map_map, map_id.
Qed.

Definition wb (i : N) : abundle := mk_ab i (0, 1) (1, 0) false.
Definition occ (b : abundle) (l : list abundle) : nat := length (filter (abundle_eqb b) l).

Lemma unlocked_lost :
  let s := mbx_run false [0;0;0;0; 1;1; 2;2;2;2; 1;1]%nat (mbx_init [MDeliver (wb 0); MFetch; MDeliver (wb 1)]) in
  mbx_all_done s = true /\ mbx_put s = [wb 0; wb 1] /\ mbx_got s ++ mbx_contents (mbx_box s) = [wb 0].
Proof. vm_compute. repeat split. Qed.

Lemma unlocked_twice :
  let s := mbx_run false [0;0;0;0; 1;1; 2;2;2;2; 1;1; 3;3;3;3]%nat
                   (mbx_init [MDeliver (wb 0); MDeliver (wb 1); MFetch; MFetch]) in
  mbx_all_done s = true /\ mbx_put s = [wb 0; wb 1] /\ mbx_got s ++ mbx_contents (mbx_box s) = [wb 0; wb 0; wb 1].
Proof. vm_compute. repeat split. Qed.

Theorem unlocked_refuted :
  exists ops sched,
    let s := mbx_run false sched (mbx_init ops) in
    mbx_all_done s = true /\ mbx_put s <> mbx_got s ++ mbx_contents (mbx_box s)
    /\ exists b, In b (mbx_put s) /\ ~ In b (mbx_got s ++ mbx_contents (mbx_box s)).
Proof.
  exists [MDeliver (wb 0); MFetch; MDeliver (wb 1)], [0;0;0;0; 1;1; 2;2;2;2; 1;1]%nat.
  destruct unlocked_lost as [D [P G]]. cbn zeta in *. rewrite P, G. split; [exact D|]. split; [discriminate|].
  exists (wb 1). split; [right; now left|]. intros [H|[]]. discriminate.
Qed.
