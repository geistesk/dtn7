(* ConstsOkSentList.v - the shape of filterCLAs and of DTLSR.ReportFailure in /repo is the one the
   model (Model/SentList.v) is written against. *)
From Coq Require Import ZArith List.
Import ListNotations.
From DTN Require Import Consts.
Open Scope Z_scope.

(* filterCLAs: "routing/"+algorithm+"/sent", make(..., 0) twice, !ok, one == in the skip loop, !skip *)
Lemma sentlist_filter_ok :
  pkg_routing__filterCLAs__lits = [0; 0] /\ pkg_routing__filterCLAs__ops = [12; 12; 1043; 39; 1043].
Proof. split; reflexivity. Qed.

(* DTLSR.ReportFailure removes the failed peer from the stored list (it was empty before the fix):
   err != nil, a loop with <, ++, one ==, the slice arithmetic i+1, err != nil *)
Lemma sentlist_dtlsr_failure_ok :
  pkg_routing__DTLSR_ReportFailure__lits = [0; 1]
  /\ pkg_routing__DTLSR_ReportFailure__ops = [44; 40; 2037; 39; 12; 44].
Proof. split; reflexivity. Qed.
