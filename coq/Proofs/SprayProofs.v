(* SprayProofs.v - invariants and theorems about Model/Spray.v (C18).

   One forwarding pass is analysed once ([attempt_cases], [attempt_meta]: the nodes a copy was
   handed to are appended to the sent list and paid for, everything else is given back); the
   theorems about histories are instances of one induction over [spray_life] ([life_invariant]). *)
From DTN Require Import Base ListFacts SpecSpray Spray.
Open Scope N_scope.

Lemma mem_n_In : forall x l, mem_n x l = true <-> In x l.
Proof. exact existsb_eqb_in. Qed.

Lemma mem_n_false : forall x l, mem_n x l = false <-> ~ In x l.
Proof. intros x l. rewrite <- mem_n_In. symmetry. apply not_true_iff_false. Qed.

Lemma nodup_n_NoDup : forall l, nodup_n l = true -> NoDup l.
Proof.
  induction l as [|x t IH]; intro H; [constructor|].
  cbn [nodup_n] in H. apply andb_true_iff in H. destruct H as [H1 H2].
  constructor; [|auto]. apply negb_true_iff in H1. apply mem_n_false in H1. exact H1.
Qed.

Lemma remove_first_notin : forall x l, ~ In x l -> remove_first x l = l.
Proof.
  induction l as [|y t IH]; intro H; [reflexivity|].
  apply not_in_cons in H. destruct H as [Hne Hn].
  cbn [remove_first]. destruct (N.eqb_spec x y); [contradiction|]. f_equal. exact (IH Hn).
Qed.

Lemma remove_first_middle : forall x pre post, ~ In x pre -> remove_first x (pre ++ x :: post) = pre ++ post.
Proof.
  induction pre as [|y t IH]; intros post H; cbn [app remove_first].
  - rewrite N.eqb_refl. reflexivity.
  - apply not_in_cons in H. destruct H as [Hne Hn].
    destruct (N.eqb_spec x y); [contradiction|]. f_equal. exact (IH _ Hn).
Qed.

Lemma remove_first_comm : forall x y l, remove_first x (remove_first y l) = remove_first y (remove_first x l).
Proof.
  induction l as [|z t IH]; [reflexivity|].
  cbn [remove_first]. destruct (N.eqb_spec y z) as [Hy|Hy]; destruct (N.eqb_spec x z) as [Hx|Hx]; subst.
  - reflexivity.
  - cbn [remove_first]. rewrite N.eqb_refl. reflexivity.
  - cbn [remove_first]. rewrite N.eqb_refl. reflexivity.
  - cbn [remove_first]. apply N.eqb_neq in Hx, Hy. rewrite Hx, Hy. f_equal. exact IH.
Qed.

Lemma mem_remove_first_other : forall x y l, x <> y -> mem_n x (remove_first y l) = mem_n x l.
Proof.
  intros x y l Hne. apply N.eqb_neq in Hne. unfold mem_n.
  induction l as [|z t IH]; [reflexivity|].
  cbn [remove_first]. destruct (N.eqb_spec y z) as [<-|_]; cbn [existsb].
  - rewrite Hne. reflexivity.
  - rewrite IH. reflexivity.
Qed.

Lemma rf_write_notin : forall g x m, ~ In x (sm_sent m) -> spray_rf_write g x m = m.
Proof.
  intros g x m H. unfold spray_rf_write. apply mem_n_false in H. rewrite H. reflexivity.
Qed.

Lemma rf_write_in : forall g x m, In x (sm_sent m) ->
  spray_rf_write g x m = {| sm_rem := sm_rem m + g; sm_sent := remove_first x (sm_sent m) |}.
Proof.
  intros g x m H. unfold spray_rf_write. apply mem_n_In in H. rewrite H. reflexivity.
Qed.

Lemma rf_write_comm : forall g1 g2 x y m, x <> y ->
  spray_rf_write g1 x (spray_rf_write g2 y m) = spray_rf_write g2 y (spray_rf_write g1 x m).
Proof.
  intros g1 g2 x y m Hne. unfold spray_rf_write.
  destruct (mem_n y (sm_sent m)) eqn:Hy; destruct (mem_n x (sm_sent m)) eqn:Hx; cbn [sm_rem sm_sent];
    rewrite ?mem_remove_first_other, ?Hx, ?Hy by congruence; try reflexivity.
  f_equal; [lia | apply remove_first_comm].
Qed.

Lemma report_failure_comm : forall a b1 b2 x y m, x <> y \/ b1 = b2 ->
  spray_report_failure a b1 x (spray_report_failure a b2 y m)
  = spray_report_failure a b2 y (spray_report_failure a b1 x m).
Proof.
  intros a b1 b2 x y m Hxy. destruct (N.eq_dec x y) as [->|Hne].
  - destruct Hxy as [Hxy| ->]; [contradiction | reflexivity].
  - destruct a; cbn [spray_report_failure]; [apply rf_write_comm; exact Hne|].
    destruct b1, b2; try reflexivity. apply rf_write_comm. exact Hne.
Qed.

Section RfConcurrent.
  Variables fA fB : smeta -> smeta.

  (* Under the lock the two critical sections do not overlap: a reachable state is described by who
     entered first and how far each thread has got ([rf_conc] is the state so described). *)
  Inductive rf_stage := StLocked | StRead | StWritten | StDone.
  Inductive rf_abs :=
  | AbsIdle
  | AbsFirst (t : bool) (k : rf_stage)      (* t is at stage k, the other thread idle *)
  | AbsSecond (t : bool) (k : rf_stage).    (* t is through, the other thread at stage k *)

  Definition rf_of (t : bool) : smeta -> smeta := if t then fB else fA.

  (* thread t at stage k of a critical section entered with shared = m *)
  Definition rf_cs (t : bool) (m : option smeta) (k : rf_stage) (other : rf_pc) : rf_sys :=
    let pc := match k with StLocked => RfLocked | StRead => RfRead m | StWritten => RfWritten | StDone => RfDone end in
    {| rs_shared := match k with StLocked | StRead => m | _ => option_map (rf_of t) m end;
       rs_lock := match k with StDone => None | _ => Some t end;
       rs_pcA := if t then other else pc;
       rs_pcB := if t then pc else other |}.

  Definition rf_conc (m0 : option smeta) (a : rf_abs) : rf_sys :=
    match a with
    | AbsIdle => rf_init m0
    | AbsFirst t k => rf_cs t m0 k RfIdle
    | AbsSecond t k => rf_cs (negb t) (option_map (rf_of t) m0) k RfDone
    end.

  Definition rf_next (k : rf_stage) : rf_stage :=
    match k with StLocked => StRead | StRead => StWritten | _ => StDone end.

  Definition rf_abs_step (a : rf_abs) (t' : bool) : rf_abs :=
    match a with
    | AbsIdle => AbsFirst t' StLocked
    | AbsFirst t k =>
        if Bool.eqb t t' then AbsFirst t (rf_next k)
        else match k with StDone => AbsSecond t StLocked | _ => a end     (* blocked on the mutex *)
    | AbsSecond t k => if Bool.eqb t t' then a else AbsSecond t (rf_next k)
    end.

  Lemma rf_conc_step : forall m0 a t, rf_step true fA fB (rf_conc m0 a) t = rf_conc m0 (rf_abs_step a t).
  Proof. intros m0 a t. destruct a as [|u k|u k], t; try destruct u; try destruct k; destruct m0; reflexivity. Qed.

  Lemma rf_conc_run : forall sched m0 a,
    rf_run true fA fB (rf_conc m0 a) sched = rf_conc m0 (fold_left rf_abs_step sched a).
  Proof.
    unfold rf_run. induction sched as [|t sched IH]; intros m0 a; [reflexivity|].
    cbn [fold_left]. rewrite rf_conc_step. apply IH.
  Qed.

  Lemma rf_locked_serialisable : forall m0 sched,
    let s := rf_run true fA fB (rf_init m0) sched in
    rf_finished s = true ->
    rs_shared s = option_map fB (option_map fA m0) \/ rs_shared s = option_map fA (option_map fB m0).
  Proof.
    intros m0 sched s. subst s. change (rf_init m0) with (rf_conc m0 AbsIdle). rewrite rf_conc_run.
    destruct (fold_left rf_abs_step sched AbsIdle) as [|t k|t k]; [discriminate | |];
      destruct t, k; try discriminate; intros _; [right | left]; reflexivity.
  Qed.
End RfConcurrent.

Definition fail_nodes (ps : list speer) : list N := map sp_node (filter sp_fail ps).
Definition ok_nodes (ps : list speer) : list N := map sp_node (filter (fun p => negb (sp_fail p)) ps).

Lemma fail_nodes_cons : forall p t,
  fail_nodes (p :: t) = if sp_fail p then sp_node p :: fail_nodes t else fail_nodes t.
Proof. intros p t. unfold fail_nodes. cbn [filter]. destruct (sp_fail p); reflexivity. Qed.

Lemma ok_nodes_cons : forall p t,
  ok_nodes (p :: t) = if sp_fail p then ok_nodes t else sp_node p :: ok_nodes t.
Proof. intros p t. unfold ok_nodes. cbn [filter]. destruct (sp_fail p); reflexivity. Qed.

Lemma ok_fail_length : forall ps, nlen (ok_nodes ps) + nlen (fail_nodes ps) = nlen ps.
Proof.
  induction ps as [|p t IH]; [reflexivity|].
  rewrite ok_nodes_cons, fail_nodes_cons. destruct (sp_fail p); rewrite !nlen_cons; lia.
Qed.

Lemma ok_nodes_In : forall ps x, In x (ok_nodes ps) -> exists p, In p ps /\ sp_node p = x.
Proof.
  intros ps x H. apply in_map_iff in H. destruct H as [p [He Hp]].
  apply filter_In in Hp. exists p. tauto.
Qed.

Definition rf_writes (g : N) (ps : list speer) (m : smeta) : smeta :=
  fold_left (fun m p => if sp_fail p then spray_rf_write g (sp_node p) m else m) ps m.

Lemma report_failures_unfold : forall a blk ps m,
  spray_report_failures a blk ps m
  = match a, blk with
    | SprayVanilla, _ => rf_writes 1 ps m
    | SprayBinary, Some v => rf_writes v ps m
    | SprayBinary, None => m
    end.
Proof.
  intros a blk ps. unfold spray_report_failures. destruct a; [reflexivity|]. destruct blk; [reflexivity|].
  induction ps as [|p t IH]; intro m; [reflexivity|]. cbn [fold_left spray_report_failure].
  destruct (sp_fail p); apply IH.
Qed.

Lemma report_failures_selected : forall g ps r pre,
  NoDup (map sp_node ps) -> (forall p, In p ps -> ~ In (sp_node p) pre) ->
  rf_writes g ps {| sm_rem := r; sm_sent := pre ++ map sp_node ps |}
  = {| sm_rem := r + g * nlen (fail_nodes ps); sm_sent := pre ++ ok_nodes ps |}.
Proof.
  intros g. unfold rf_writes. induction ps as [|p t IH]; intros r pre Hnd Hpre.
  - cbn. f_equal. lia.
  - cbn [map] in Hnd. apply NoDup_cons_iff in Hnd. destruct Hnd as [Hp Ht].
    assert (Hp' : ~ In (sp_node p) pre) by (apply Hpre; left; reflexivity).
    cbn [fold_left map]. rewrite ok_nodes_cons, fail_nodes_cons. destruct (sp_fail p).
    + rewrite rf_write_in by (apply in_elt).
      cbn [sm_rem sm_sent]. rewrite remove_first_middle by exact Hp'.
      rewrite IH; [|exact Ht | intros q Hq; apply Hpre; right; exact Hq].
      rewrite nlen_cons. f_equal. lia.
    + (* p stays: it now belongs to the part of [sent] the remaining reports do not touch *)
      change (pre ++ sp_node p :: ?l) with (pre ++ [sp_node p] ++ l). rewrite !app_assoc.
      apply IH; [exact Ht|]. intros q Hq Hi. apply in_app_or in Hi. destruct Hi as [Hi|[He|[]]].
      * exact (Hpre q (or_intror Hq) Hi).
      * apply Hp. rewrite He. apply in_map. exact Hq.
Qed.

Definition paid (g : N) (m : smeta) (nodes : list N) : smeta :=
  {| sm_rem := sm_rem m - g * nlen nodes; sm_sent := sm_sent m ++ nodes |}.

Lemma paid_nil : forall g m, paid g m [] = m.
Proof. intros g [r sent]. unfold paid. cbn. rewrite N.mul_0_r, N.sub_0_r, app_nil_r. reflexivity. Qed.

Lemma vanilla_selected_paid : forall m chosen, vanilla_selected m chosen = paid 1 m (map sp_node chosen).
Proof. intros. unfold vanilla_selected, paid. rewrite nlen_map, N.mul_1_l. reflexivity. Qed.

Lemma binary_selected_paid : forall m chosen, chosen = [] \/ (exists p, chosen = [p]) ->
  binary_selected m chosen = paid (binary_send_copies m) m (map sp_node chosen).
Proof.
  intros m chosen [->|[p ->]]; [symmetry; apply paid_nil|].
  unfold paid. cbn. rewrite N.mul_1_r. reflexivity.
Qed.

Lemma selected_pass : forall g chosen m,
  NoDup (map sp_node chosen) -> (forall p, In p chosen -> ~ In (sp_node p) (sm_sent m)) ->
  g * nlen chosen <= sm_rem m ->
  rf_writes g chosen (paid g m (map sp_node chosen)) = paid g m (ok_nodes chosen).
Proof.
  intros g chosen m Hnd Hin Hle. unfold paid. rewrite report_failures_selected by assumption.
  rewrite nlen_map. rewrite <- (ok_fail_length chosen) in *. f_equal. lia.
Qed.

Lemma report_failures_noop : forall a blk ps m,
  (forall p, In p ps -> ~ In (sp_node p) (sm_sent m)) ->
  spray_report_failures a blk ps m = m.
Proof.
  intros a blk ps. unfold spray_report_failures. induction ps as [|p t IH]; intros m H; [reflexivity|].
  cbn [fold_left].
  assert (Hp : (if sp_fail p then spray_report_failure a blk (sp_node p) m else m) = m).
  { destruct (sp_fail p); [|reflexivity]. destruct a; cbn [spray_report_failure].
    - apply rf_write_notin. apply H. left. reflexivity.
    - destruct blk; [|reflexivity]. apply rf_write_notin. apply H. left. reflexivity. }
  rewrite Hp. apply IH. intros q Hq. apply H. right. exact Hq.
Qed.

Lemma speers_of_In : forall ps clas chosen, speers_of ps clas = Some chosen -> forall p, In p chosen -> In p ps.
Proof.
  intros ps clas. induction clas as [|c t IH]; intros chosen H p Hp.
  - cbn in H. inversion H; subst. destruct Hp.
  - cbn [speers_of] in H. destruct (speer_of ps c) as [q|] eqn:Hq; [|discriminate].
    destruct (speers_of ps t) as [r|] eqn:Hr; [|discriminate]. inversion H; subst.
    destruct Hp as [->|Hp]; [|eapply IH; eauto].
    unfold speer_of in Hq. apply find_some in Hq. tauto.
Qed.

Lemma vanilla_select_facts : forall ps m chosen, vanilla_select_ok ps m chosen = true ->
  NoDup (map sp_node chosen)
  /\ (forall p, In p chosen -> ~ In (sp_node p) (sm_sent m))
  /\ (chosen = [] \/ nlen chosen + 1 <= sm_rem m).
Proof.
  intros ps m chosen H. unfold vanilla_select_ok in H.
  destruct (sm_rem m <? spray_wait_threshold).
  - destruct chosen; [|discriminate]. repeat split; [constructor | intros p [] | left; reflexivity].
  - rewrite !andb_true_iff in H. destruct H as [[[H1 H2] H3] _]. repeat split.
    + apply nodup_n_NoDup. exact H1.
    + intros p Hp. rewrite forallb_forall in H2. specialize (H2 _ (in_map sp_node _ _ Hp)).
      apply negb_true_iff in H2. apply mem_n_false. exact H2.
    + right. apply N.leb_le. exact H3.
Qed.

Lemma binary_select_facts : forall ps m chosen, binary_select_ok ps m chosen = true ->
  NoDup (map sp_node chosen)
  /\ (forall p, In p chosen -> ~ In (sp_node p) (sm_sent m))
  /\ (chosen = [] \/ 2 <= sm_rem m /\ exists p, chosen = [p]).
Proof.
  intros ps m chosen H. unfold binary_select_ok, spray_wait_threshold in H.
  destruct (sm_rem m <? 2) eqn:Hr; destruct chosen as [|p [|q t]]; try discriminate;
    try (repeat split; [constructor | intros p [] | left; reflexivity]).
  apply N.ltb_ge in Hr. apply negb_true_iff, mem_n_false in H.
  repeat split; [constructor; [intros [] | constructor] | intros q [<-|[]]; exact H | right; eauto].
Qed.

Definition relay_nodes (dst : N) (outs : list ssend) : list N := map sn_node (filter (spray_is_relay dst) outs).

Lemma spray_relayed_nodes : forall dst outs, spray_relayed dst outs = nlen (relay_nodes dst outs).
Proof. intros. unfold spray_relayed, relay_nodes. rewrite nlen_map. reflexivity. Qed.

Lemma relay_nodes_app : forall dst o1 o2, relay_nodes dst (o1 ++ o2) = relay_nodes dst o1 ++ relay_nodes dst o2.
Proof. intros. unfold relay_nodes. rewrite filter_app, map_app. reflexivity. Qed.

Lemma bspray_handed_app : forall dst o1 o2, bspray_handed dst (o1 ++ o2) = bspray_handed dst o1 + bspray_handed dst o2.
Proof.
  intros dst o1 o2. unfold bspray_handed. induction o1 as [|o t IH]; [reflexivity|].
  cbn [app fold_right]. rewrite IH. destruct (sn_blk o); [destruct (spray_is_relay dst o)|]; lia.
Qed.

Lemma is_relay_send : forall dst direct blk p,
  spray_is_relay dst (mk_send direct blk p) = negb (sp_fail p) && negb (sp_node p =? dst).
Proof. reflexivity. Qed.

Lemma sends_direct : forall dst outs, (forall o, In o outs -> sn_node o = dst) ->
  relay_nodes dst outs = [] /\ bspray_handed dst outs = 0.
Proof.
  intros dst outs. unfold relay_nodes, bspray_handed. induction outs as [|o t IH]; intro H; [split; reflexivity|].
  destruct IH as [IH1 IH2]; [intros q Hq; apply H; right; exact Hq|].
  assert (Ho : spray_is_relay dst o = false).
  { unfold spray_is_relay. rewrite (H o (or_introl eq_refl)), N.eqb_refl. apply andb_false_r. }
  cbn [filter fold_right]. rewrite Ho. split; [exact IH1 | destruct (sn_blk o); exact IH2].
Qed.

Lemma sends_relay : forall dst blk chosen, (forall p, In p chosen -> sp_node p <> dst) ->
  relay_nodes dst (map (mk_send false blk) chosen) = ok_nodes chosen
  /\ forall v, blk = Some v -> bspray_handed dst (map (mk_send false blk) chosen) = v * nlen (ok_nodes chosen).
Proof.
  intros dst blk chosen. unfold relay_nodes, bspray_handed. induction chosen as [|p t IH]; intro H.
  - split; [reflexivity | intros v _; cbn; lia].
  - destruct IH as [IH1 IH2]; [intros q Hq; apply H; right; exact Hq|].
    assert (Hp : sp_node p =? dst = false) by (apply N.eqb_neq; apply H; left; reflexivity).
    cbn [map filter fold_right]. rewrite is_relay_send, Hp, andb_true_r, ok_nodes_cons.
    split; [|intros v ->; specialize (IH2 v eq_refl); cbn [mk_send sn_blk]];
      destruct (sp_fail p); cbn [negb map]; rewrite ?nlen_cons; [exact IH1 | f_equal; exact IH1 | lia | lia].
Qed.

(* well-formed histories: a bundle is not received from its own destination node *)
Definition ev_wf (e : sevent) : bool :=
  match e with
  | SeCreate _ dst _ prev => negb (option_eqb N.eqb prev (Some dst))
  | _ => true
  end.
Definition hist_wf (h : list (sevent * list N)) : bool := forallb (fun ec => ev_wf (fst ec)) h.

Definition ev_originated (e : sevent) : bool :=
  match e with SeCreate origin _ _ _ => origin | _ => true end.
Definition hist_originated (h : list (sevent * list N)) : bool := forallb (fun ec => ev_originated (fst ec)) h.

Definition ev_is_create (e : sevent) : bool := match e with SeCreate _ _ _ _ => true | _ => false end.
Fixpoint hist_once (h : list (sevent * list N)) : bool :=
  match h with
  | [] => true
  | ec :: t => if ev_is_create (fst ec) then forallb (fun ec' => negb (ev_is_create (fst ec'))) t else hist_once t
  end.

Definition sinv (s : sstate) : Prop :=
  (ss_created s = false -> ss_stored s = false)
  /\ (ss_stored s = true -> ss_meta s <> None)
  /\ (forall m, ss_meta s = Some m -> NoDup (sm_sent m) /\ ~ In (ss_dst s) (sm_sent m)).

Lemma sinv_init : sinv spray_init.
Proof. repeat split; cbn; intros; try discriminate; try reflexivity. Qed.

Lemma sinv_set_meta : forall s m st,
  sinv s -> ss_stored s = true -> NoDup (sm_sent m) -> ~ In (ss_dst s) (sm_sent m) ->
  sinv (set_meta_stored s (Some m) st).
Proof.
  intros s m st (I1 & _) Hst Hnd Hd. split; [|split]; cbn [set_meta_stored ss_created ss_stored ss_meta ss_dst].
  - intro Hc. rewrite (I1 Hc) in Hst. discriminate.
  - discriminate.
  - intros m' Hm'. injection Hm' as <-. split; assumption.
Qed.

(* GarbageCollect of a bundle the store does not know *)
Lemma sinv_gc : forall s, sinv (set_meta_stored s None false).
Proof. intro s. split; [|split]; cbn [set_meta_stored ss_stored ss_meta]; intros; [reflexivity | discriminate | discriminate]. Qed.

(* NotifyNewBundle *)
Lemma sinv_new : forall c ps origin dst blk prev, ev_wf (SeCreate origin dst blk prev) = true ->
  sinv {| ss_peers := ps; ss_meta := Some (spray_notify c origin blk prev); ss_stored := true; ss_created := true;
          ss_dst := dst; ss_blk := blk |}.
Proof.
  intros c ps origin dst blk prev Hwf.
  assert (Hs : sm_sent (spray_notify c origin blk prev) = opt_list prev).
  { unfold spray_notify. destruct (sc_algo c); [destruct origin | destruct blk]; reflexivity. }
  split; [|split]; cbn [ss_created ss_stored ss_meta ss_dst]; [discriminate | discriminate |].
  intros m Hm. injection Hm as <-. rewrite Hs. destruct prev as [p|]; cbn [opt_list].
  - split; [constructor; [intros [] | constructor]|]. intros [->|[]].
    cbn in Hwf. rewrite N.eqb_refl in Hwf. discriminate.
  - split; [constructor | intros []].
Qed.

(* The three things a pass can be.  In [AK_relay] every selected peer takes [g] copies with it, and
   selection followed by the failure reports leaves exactly the successful ones paid for.  In
   [AK_direct] the metadata [m] is unchanged although a failed direct delivery calls ReportFailure:
   the report looks the destination up in [sent], where it never is (third part of [sinv], which is
   what [hist_wf] is assumed for), so [report_failures_noop] applies. *)
Inductive attempt_kind (c : sconf) (s s' : sstate) (outs : list ssend) : Prop :=
| AK_idle :    (* the store does not know the bundle *)
    s' = s -> outs = [] -> attempt_kind c s s' outs
| AK_direct : forall m st,
    ss_stored s = true -> ss_meta s = Some m ->
    (forall o, In o outs -> sn_direct o = true /\ sn_node o = ss_dst s) ->
    s' = set_meta_stored s (Some m) st ->
    attempt_kind c s s' outs
| AK_relay : forall m chosen g blk,
    ss_stored s = true -> ss_meta s = Some m ->
    NoDup (map sp_node chosen) ->
    (forall p, In p chosen -> ~ In (sp_node p) (sm_sent m)) ->
    (forall p, In p chosen -> sp_node p <> ss_dst s) ->
    g * nlen chosen <= sm_rem m ->
    match sc_algo c with
    | SprayVanilla => g = 1 /\ blk = ss_blk s /\ (chosen = [] \/ nlen chosen + 1 <= sm_rem m)
    | SprayBinary => g = sm_rem m / 2 /\ blk = Some g /\ (chosen = [] \/ 2 <= sm_rem m /\ exists p, chosen = [p])
    end ->
    outs = map (mk_send false blk) chosen ->
    s' = set_meta_stored s (Some (paid g m (ok_nodes chosen))) true ->
    attempt_kind c s s' outs.

Lemma attempt_cases : forall c s choice s' outs,
  sinv s -> spray_attempt c s choice = Some (s', outs) -> attempt_kind c s s' outs.
Proof.
  intros c s choice s' outs (_ & I2 & I3) H. unfold spray_attempt in H.
  destruct (ss_stored s) eqn:Hst; cbn [negb] in H; [|inversion H; apply AK_idle; reflexivity].
  destruct (ss_meta s) as [m|] eqn:Hm; [|destruct (I2 eq_refl eq_refl)].
  destruct (I3 m eq_refl) as [_ Hdn].
  destruct (filter (fun p => sp_node p =? ss_dst s) (ss_peers s)) as [|d ds] eqn:Hd.
  - destruct (speers_of (ss_peers s) choice) as [chosen|] eqn:Hc; [|discriminate].
    assert (Hch : forall p, In p chosen -> sp_node p <> ss_dst s).
    { intros p Hp. apply N.eqb_neq. apply (filter_nil_forall _ _ Hd). exact (speers_of_In _ _ _ Hc p Hp). }
    destruct (sc_algo c) eqn:Ha; rewrite report_failures_unfold in H.
    + destruct (vanilla_select_ok (ss_peers s) m chosen) eqn:Hg; [|discriminate].
      destruct (vanilla_select_facts _ _ _ Hg) as (G1 & G2 & G3).
      assert (Hle : 1 * nlen chosen <= sm_rem m) by (destruct G3 as [->|G3]; [apply N.le_0_l | lia]).
      rewrite vanilla_selected_paid, selected_pass in H by assumption. injection H as <- <-.
      apply (AK_relay c s _ _ m chosen 1 (ss_blk s)); try assumption; try reflexivity.
      rewrite Ha. auto.
    + destruct (binary_select_ok (ss_peers s) m chosen) eqn:Hg; [|discriminate].
      destruct (binary_select_facts _ _ _ Hg) as (G1 & G2 & G3).
      assert (Hle : sm_rem m / 2 * nlen chosen <= sm_rem m).
      { pose proof (N.mul_div_le (sm_rem m) 2). destruct G3 as [->|(_ & p & ->)]; cbn; lia. }
      rewrite binary_selected_paid, selected_pass in H by (assumption || tauto). injection H as <- <-.
      apply (AK_relay c s _ _ m chosen (sm_rem m / 2) (Some (sm_rem m / 2))); try assumption; try reflexivity.
      rewrite Ha. auto.
  - rewrite <- Hd in H. injection H as <- <-. eapply (AK_direct c s _ _ m); try eassumption.
    + intros o Ho. apply in_map_iff in Ho. destruct Ho as [p [<- Hp]]. split; [reflexivity|].
      apply filter_In in Hp. apply N.eqb_eq. apply Hp.
    + cbn [option_map]. rewrite report_failures_noop; [reflexivity|].
      intros p Hp. apply filter_In in Hp. destruct Hp as [_ Hp]. apply N.eqb_eq in Hp. rewrite Hp. exact Hdn.
Qed.

Lemma attempt_frame : forall c s ch s' outs, sinv s -> spray_attempt c s ch = Some (s', outs) ->
  ss_dst s' = ss_dst s /\ ss_blk s' = ss_blk s.
Proof. intros c s ch s' outs Hi H. destruct (attempt_cases _ _ _ _ _ Hi H); subst; split; reflexivity. Qed.

Lemma attempt_no_meta : forall c s ch s' outs, sinv s -> ss_meta s = None ->
  spray_attempt c s ch = Some (s', outs) -> s' = s /\ outs = [].
Proof.
  intros c s ch s' outs Hi Hm H.
  destruct (attempt_cases _ _ _ _ _ Hi H) as [Hs Ho | m ? _ Hm' | m ? ? ? _ Hm']; [split; assumption | congruence | congruence].
Qed.

Lemma attempt_sinv : forall c s ch s' outs, sinv s -> spray_attempt c s ch = Some (s', outs) -> sinv s'.
Proof.
  intros c s ch s' outs Hi H. pose proof Hi as (_ & _ & I3).
  destruct (attempt_cases _ _ _ _ _ Hi H) as [-> _ | m st Hst Hm _ -> | m chosen g blk Hst Hm Hnd Hin Hch _ _ _ ->];
    [exact Hi | |]; destruct (I3 m Hm) as [Hndm Hdn]; apply sinv_set_meta; try assumption; cbn [sm_sent].
  - apply NoDup_app_intro; [exact Hndm | apply NoDup_map_filter; exact Hnd |].
    intros x Hx Hx'. apply ok_nodes_In in Hx'. destruct Hx' as [p [Hp <-]]. exact (Hin p Hp Hx).
  - intro Hi'. apply in_app_or in Hi'. destruct Hi' as [Hi'|Hi']; [contradiction|].
    apply ok_nodes_In in Hi'. destruct Hi' as [p [Hp He]]. exact (Hch p Hp He).
Qed.

Lemma quiet_pass : forall g dst outs m, (forall o, In o outs -> sn_node o = dst) ->
  let relays := relay_nodes dst outs in
  sm_sent m = sm_sent m ++ relays /\ sm_rem m + g * nlen relays = sm_rem m
  /\ (relays = [] \/ 1 <= sm_rem m) /\ bspray_handed dst outs = g * nlen relays.
Proof.
  intros g dst outs m H relays. subst relays. destruct (sends_direct dst outs H) as [-> ->]. rewrite app_nil_r.
  repeat split; [cbn; lia | left; reflexivity | cbn; lia].
Qed.

Lemma attempt_meta : forall c s ch s' outs m,
  sinv s -> ss_meta s = Some m -> spray_attempt c s ch = Some (s', outs) ->
  let relays := relay_nodes (ss_dst s) outs in
  let g := match sc_algo c with SprayVanilla => 1 | SprayBinary => sm_rem m / 2 end in
  exists m', ss_meta s' = Some m'
    /\ sm_sent m' = sm_sent m ++ relays
    /\ sm_rem m' + g * nlen relays = sm_rem m
    /\ (relays = [] \/ 1 <= sm_rem m')
    /\ (sc_algo c = SprayBinary -> bspray_handed (ss_dst s) outs = g * nlen relays).
Proof.
  intros c s ch s' outs m Hi Hm H relays g.
  destruct (attempt_cases _ _ _ _ _ Hi H) as [-> -> | m0 st _ Hm0 Hd -> | m0 chosen g0 blk _ Hm0 _ _ Hch Hle Ha Ho ->].
  - destruct (quiet_pass g (ss_dst s) [] m) as (Q1 & Q2 & Q3 & Q4); [intros o []|].
    exists m. repeat split; auto.
  - destruct (quiet_pass g (ss_dst s) outs m (fun o Ho => proj2 (Hd o Ho))) as (Q1 & Q2 & Q3 & Q4).
    exists m. split; [cbn; congruence|]. repeat split; auto.
  - assert (m0 = m) by congruence. subst m0.
    destruct (sends_relay (ss_dst s) blk chosen Hch) as [Hr Hh]. subst outs relays. rewrite Hr.
    assert (Hpaid : sm_rem m - g0 * nlen (ok_nodes chosen) + g0 * nlen (ok_nodes chosen) = sm_rem m).
    { rewrite <- (ok_fail_length chosen) in Hle. lia. }
    eexists. split; [reflexivity|]. cbn [paid sm_rem sm_sent]. split; [reflexivity|]. subst g.
    destruct (sc_algo c); destruct Ha as (-> & Hb & Hc); (split; [exact Hpaid|]).
    + split; [|discriminate]. destruct Hc as [->|Hc]; [left; reflexivity | right].
      pose proof (ok_fail_length chosen). lia.
    + split; [|intros _; exact (Hh _ Hb)].
      destruct Hc as [->|(Hr2 & p & ->)]; [left; reflexivity|].
      rewrite ok_nodes_cons. destruct (sp_fail p); [left; reflexivity | right].
      pose proof (N.mul_div_le (sm_rem m) 2). cbn. lia.
Qed.

(* [P s acc]: a property of the state and of the transmissions [acc] of the bundle's current life.
   [Q]: what is assumed of events. *)
Section LifeInvariant.
  Variables (c : sconf) (Q : sevent -> Prop) (P : sstate -> list ssend -> Prop).
  Hypothesis P_attempt : forall s ch s' outs acc,
    P s acc -> spray_attempt c s ch = Some (s', outs) -> P s' (acc ++ outs).
  Hypothesis P_peers : forall s ps acc, P s acc -> P (set_peers s ps) acc.
  Hypothesis P_gc : forall s acc, P s acc -> P (set_meta_stored s None false) acc.
  Hypothesis P_new : forall ps origin dst blk prev, Q (SeCreate origin dst blk prev) ->
    P {| ss_peers := ps; ss_meta := Some (spray_notify c origin blk prev); ss_stored := true; ss_created := true;
         ss_dst := dst; ss_blk := blk |} [].

  Lemma life_step : forall s acc e ch s' outs,
    P s acc -> Q e -> spray_step c s e ch = Some (s', outs) ->
    P s' (if spray_enters s e then outs else acc ++ outs).
  Proof.
    intros s acc e ch s' outs HP HQ H.
    destruct e as [origin dst blk prev | cla node fail | cla | cla f | | ]; cbn [spray_step spray_enters] in *.
    - destruct (ss_stored s); cbn [negb].
      + injection H as <- <-. rewrite app_nil_r. exact HP.
      + exact (P_attempt _ _ _ _ [] (P_new _ _ _ _ _ HQ) H).
    - destruct (existsb _ _); [discriminate|]. exact (P_attempt _ _ _ _ _ (P_peers _ _ _ HP) H).
    - injection H as <- <-. rewrite app_nil_r. apply P_peers. exact HP.
    - injection H as <- <-. rewrite app_nil_r. apply P_peers. exact HP.
    - exact (P_attempt _ _ _ _ _ HP H).
    - injection H as <- <-. rewrite app_nil_r. destruct (ss_stored s); [exact HP | apply P_gc; exact HP].
  Qed.

  Lemma life_invariant : forall h s acc s' outs,
    P s acc -> (forall ec, In ec h -> Q (fst ec)) -> spray_life c s acc h = Some (s', outs) -> P s' outs.
  Proof.
    induction h as [|[e ch] t IH]; intros s acc s' outs HP HQ H.
    - injection H as <- <-. exact HP.
    - cbn [spray_life] in H. destruct (spray_step c s e ch) as [[s1 o1]|] eqn:Hs; [|discriminate].
      apply (IH _ _ _ _ (life_step _ _ _ _ _ _ HP (HQ (e, ch) (or_introl eq_refl)) Hs)); [|exact H].
      intros ec Hec. apply HQ. right. exact Hec.
  Qed.
End LifeInvariant.

Lemma hist_wf_In : forall h, hist_wf h = true -> forall ec, In ec h -> ev_wf (fst ec) = true.
Proof. intros h H. exact (proj1 (forallb_forall _ _) H). Qed.

Lemma life_run : forall c h s acc s' cur,
  spray_life c s acc h = Some (s', cur) ->
  exists o pre, spray_run c s h = Some (s', o) /\ acc ++ o = pre ++ cur.
Proof.
  intros c h. induction h as [|[e ch] t IH]; intros s acc s' cur H.
  - cbn in H. inversion H; subst. exists [], []. split; [reflexivity | apply app_nil_r].
  - cbn [spray_life] in H. cbn [spray_run].
    destruct (spray_step c s e ch) as [[s1 o1]|] eqn:Hs; [|discriminate].
    destruct (IH _ _ _ _ H) as [o2 [pre2 [Hr He]]]. rewrite Hr.
    destruct (spray_enters s e).
    + exists (o1 ++ o2), (acc ++ pre2). split; [reflexivity|]. rewrite He, app_assoc. reflexivity.
    + exists (o1 ++ o2), pre2. split; [reflexivity|]. rewrite app_assoc. exact He.
Qed.

Lemma run_life : forall c h s acc s' o,
  spray_run c s h = Some (s', o) -> exists cur, spray_life c s acc h = Some (s', cur).
Proof.
  intros c h. induction h as [|[e ch] t IH]; intros s acc s' o H.
  - cbn in H. inversion H; subst. exists acc. reflexivity.
  - cbn [spray_run] in H. cbn [spray_life].
    destruct (spray_step c s e ch) as [[s1 o1]|] eqn:Hs; [|discriminate].
    destruct (spray_run c s1 t) as [[s2 o2]|] eqn:Hr; [|discriminate]. inversion H; subst.
    eapply IH. exact Hr.
Qed.

Lemma life_run_nocreate : forall c h s acc,
  forallb (fun ec => negb (ev_is_create (fst ec))) h = true ->
  spray_life c s acc h = match spray_run c s h with Some (s', o) => Some (s', acc ++ o) | None => None end.
Proof.
  intros c h. induction h as [|[e ch] t IH]; intros s acc Hn.
  - cbn. rewrite app_nil_r. reflexivity.
  - cbn [forallb fst] in Hn. apply andb_true_iff in Hn. destruct Hn as [Hn1 Hn2].
    cbn [spray_life spray_run]. destruct (spray_step c s e ch) as [[s1 o1]|]; [|reflexivity].
    assert (He : spray_enters s e = false) by (destruct e; try reflexivity; discriminate).
    rewrite He, (IH _ _ Hn2). destruct (spray_run c s1 t) as [[s2 o2]|]; [|reflexivity].
    rewrite app_assoc. reflexivity.
Qed.

Lemma attempt_unstored : forall c s ch, ss_stored s = false -> spray_attempt c s ch = Some (s, []).
Proof. intros c s ch H. unfold spray_attempt. rewrite H. reflexivity. Qed.

Lemma step_unstored : forall c s e ch s' o,
  ss_stored s = false -> ev_is_create e = false -> spray_step c s e ch = Some (s', o) ->
  ss_stored s' = false /\ o = [].
Proof.
  intros c s e ch s' o Hst He H.
  destruct e as [origin dst blk prev | cla node fail | cla | cla f | | ]; cbn [spray_step] in H; try discriminate.
  - destruct (existsb _ _); [discriminate|]. rewrite attempt_unstored in H by exact Hst.
    injection H as <- <-. split; [exact Hst | reflexivity].
  - injection H as <- <-. split; [exact Hst | reflexivity].
  - injection H as <- <-. split; [exact Hst | reflexivity].
  - rewrite attempt_unstored in H by exact Hst. injection H as <- <-. split; [exact Hst | reflexivity].
  - injection H as <- <-. rewrite Hst. split; reflexivity.
Qed.

Lemma life_run_once : forall c h s,
  ss_stored s = false -> hist_once h = true -> spray_life c s [] h = spray_run c s h.
Proof.
  intros c h. induction h as [|[e ch] t IH]; intros s Hst Ho; [reflexivity|].
  cbn [hist_once fst] in Ho. cbn [spray_life spray_run].
  destruct (spray_step c s e ch) as [[s1 o1]|] eqn:Hs; [|reflexivity].
  destruct (ev_is_create e) eqn:He.
  - assert (Hen : spray_enters s e = true) by (destruct e; try discriminate; cbn; rewrite Hst; reflexivity).
    rewrite Hen. rewrite (life_run_nocreate _ _ _ _ Ho). reflexivity.
  - assert (Hen : spray_enters s e = false) by (destruct e; try reflexivity; discriminate).
    rewrite Hen. destruct (step_unstored _ _ _ _ _ _ Hst He Hs) as [Hst1 ->].
    cbn [app]. rewrite (IH _ Hst1 Ho). destruct (spray_run c s1 t) as [[s2 o2]|]; reflexivity.
Qed.

Lemma sinv_life : forall c h s outs,
  spray_life c spray_init [] h = Some (s, outs) -> hist_wf h = true -> sinv s.
Proof.
  intros c h s outs H Hwf.
  refine (life_invariant c (fun e => ev_wf e = true) (fun s _ => sinv s) _ _ _ _
            h spray_init [] s outs sinv_init (hist_wf_In h Hwf) H).
  - intros s0 ch s1 o _. apply attempt_sinv.
  - intros s0 ps _ Hi. exact Hi.
  - intros s0 _ _. apply sinv_gc.
  - intros ps origin dst blk prev Hw. apply sinv_new. exact Hw.
Qed.

Definition vconf (L : N) : sconf := {| sc_algo := SprayVanilla; sc_L := L |}.
Definition bconf (L : N) : sconf := {| sc_algo := SprayBinary; sc_L := L |}.

(* [succ]: nodes other than the destination to which a transmission succeeded since the bundle
   entered the store (its current life on this node).  The budget counts these - the peers a copy
   was handed to - and not the length of the sent list: NotifyNewBundle records the previous node also
   for an own bundle (/repo 214aa60), so the sent list of a bundle that came back from a neighbour
   begins with that neighbour ([excl], at most one node), which is excluded from the selection
   without having consumed a copy. *)
Definition vbudget (L : N) (m : smeta) (succ : list N) : Prop :=
  sm_rem m + nlen succ = L
  /\ (exists excl, nlen excl <= 1 /\ sm_sent m = excl ++ succ)
  /\ (succ = [] \/ 1 <= sm_rem m).

(* the bound on [succ] follows from [vbudget] (vbudget_bound) while there is metadata; it is kept as a
   part of its own because GarbageCollect may remove the metadata of a bundle that has left the store *)
Definition vinv (L : N) (s : sstate) (succ : list N) : Prop :=
  sinv s
  /\ (forall m, ss_meta s = Some m -> vbudget L m succ)
  /\ nlen succ <= L - 1.

Lemma vbudget_bound : forall L m succ, vbudget L m succ -> nlen succ <= L - 1.
Proof. intros L m succ (H1 & _ & [->|H3]); [apply N.le_0_l | lia]. Qed.

Lemma vinv_attempt : forall L s ch s' outs acc,
  vinv L s (relay_nodes (ss_dst s) acc) -> spray_attempt (vconf L) s ch = Some (s', outs) ->
  vinv L s' (relay_nodes (ss_dst s') (acc ++ outs)).
Proof.
  intros L s ch s' outs acc (Hi & Hb & Hle) H.
  destruct (attempt_frame _ _ _ _ _ Hi H) as [-> _]. rewrite relay_nodes_app.
  split; [exact (attempt_sinv _ _ _ _ _ Hi H)|].
  destruct (ss_meta s) as [m|] eqn:Hm.
  - destruct (attempt_meta _ _ _ _ _ m Hi Hm H) as (m' & Hm' & Hsent & Hrem & Hone & _). cbn [vconf sc_algo] in Hrem.
    destruct (Hb m eq_refl) as (B1 & (excl & E1 & E2) & B3).
    assert (Hb' : vbudget L m' (relay_nodes (ss_dst s) acc ++ relay_nodes (ss_dst s) outs)).
    { split; [rewrite nlen_app; lia|]. split.
      - exists excl. split; [exact E1|]. rewrite Hsent, E2. symmetry. apply app_assoc.
      - destruct Hone as [Hr|Hr]; [|right; exact Hr]. rewrite Hr in *. rewrite app_nil_r.
        destruct B3 as [B3|B3]; [left; exact B3 | right; cbn in Hrem; lia]. }
    split; [|exact (vbudget_bound _ _ _ Hb')]. intros m2 Hm2. rewrite Hm' in Hm2. injection Hm2 as <-. exact Hb'.
  - destruct (attempt_no_meta _ _ _ _ _ Hi Hm H) as [-> ->]. cbn [relay_nodes filter map]. rewrite app_nil_r.
    split; [intros m Hm'; congruence | exact Hle].
Qed.

Lemma vinv_life : forall L h s outs,
  spray_life (vconf L) spray_init [] h = Some (s, outs) -> hist_originated h = true -> hist_wf h = true ->
  vinv L s (relay_nodes (ss_dst s) outs).
Proof.
  intros L h s outs H Ho Hwf.
  refine (life_invariant (vconf L) (fun e => ev_originated e = true /\ ev_wf e = true)
            (fun s acc => vinv L s (relay_nodes (ss_dst s) acc)) _ _ _ _ h spray_init [] s outs _ _ H).
  - intros s0 ch s1 o acc. apply vinv_attempt.
  - intros s0 ps acc Hv. exact Hv.
  - intros s0 acc (_ & _ & Hle). split; [apply sinv_gc|]. split; [discriminate | exact Hle].
  - (* NotifyNewBundle sets the full budget L whatever was handed out in an earlier life; the previous
       node, if the bundle names one, is in the sent list from the start and has not consumed a copy *)
    intros ps origin dst blk prev [Hor Hw]. cbn [ev_originated] in Hor. subst origin.
    split; [apply sinv_new; exact Hw|]. split; [|apply N.le_0_l].
    intros m Hm. injection Hm as <-. split; [apply N.add_0_r|]. split; [|left; reflexivity].
    exists (opt_list prev). split; [destruct prev; cbn; lia | symmetry; apply app_nil_r].
  - split; [exact sinv_init|]. split; [discriminate | apply N.le_0_l].
  - intros ec Hec. split; [exact (proj1 (forallb_forall _ _) Ho ec Hec) | exact (hist_wf_In h Hwf ec Hec)].
Qed.

Definition spray_initial (L : N) (s : sstate) : N := match ss_blk s with Some k => k | None => L end.

(* [handed]: copies handed over successfully since the bundle entered the store *)
Definition binv (L : N) (s : sstate) (handed : N) : Prop :=
  sinv s
  /\ (forall m, ss_meta s = Some m -> sm_rem m + handed = spray_initial L s).

Lemma binv_attempt : forall L s ch s' outs acc,
  binv L s (bspray_handed (ss_dst s) acc) -> spray_attempt (bconf L) s ch = Some (s', outs) ->
  binv L s' (bspray_handed (ss_dst s') (acc ++ outs)).
Proof.
  intros L s ch s' outs acc (Hi & Hb) H.
  destruct (attempt_frame _ _ _ _ _ Hi H) as [-> Hblk]. rewrite bspray_handed_app.
  split; [exact (attempt_sinv _ _ _ _ _ Hi H)|]. unfold spray_initial in *. rewrite Hblk.
  destruct (ss_meta s) as [m|] eqn:Hm.
  - destruct (attempt_meta _ _ _ _ _ m Hi Hm H) as (m' & Hm' & _ & Hrem & _ & Hh). rewrite (Hh eq_refl).
    intros m2 Hm2. rewrite Hm' in Hm2. injection Hm2 as <-. specialize (Hb m eq_refl). lia.
  - destruct (attempt_no_meta _ _ _ _ _ Hi Hm H) as [-> ->]. intros m Hm'. congruence.
Qed.

Lemma binv_life : forall L h s outs,
  spray_life (bconf L) spray_init [] h = Some (s, outs) -> hist_wf h = true ->
  binv L s (bspray_handed (ss_dst s) outs).
Proof.
  intros L h s outs H Hwf.
  refine (life_invariant (bconf L) (fun e => ev_wf e = true) (fun s acc => binv L s (bspray_handed (ss_dst s) acc))
            _ _ _ _ h spray_init [] s outs _ (hist_wf_In h Hwf) H).
  - intros s0 ch s1 o acc. apply binv_attempt.
  - intros s0 ps acc Hb. exact Hb.
  - intros s0 acc _. split; [apply sinv_gc | discriminate].
  - intros ps origin dst blk prev Hw. split; [apply sinv_new; exact Hw|].
    intros m0 Hm0. injection Hm0 as <-. unfold spray_initial, spray_notify. cbn [bconf sc_algo sc_L ss_blk].
    destruct blk; apply N.add_0_r.
  - split; [exact sinv_init | discriminate].
Qed.

Lemma gc_step_shape : forall c s ch,
  spray_step c s SeGC ch = Some ((if ss_stored s then s else set_meta_stored s None false), []).
Proof. reflexivity. Qed.
