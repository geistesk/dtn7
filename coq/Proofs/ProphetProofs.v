(* Proofs about the PRoPHET model (Model/Prophet.v): range and monotonicity of the predictability
   updates over IEEE-754 binary64 (via Flocq's B2R and the correctness theorems of Bplus / Bminus /
   Bmult), the forwarding gate, and freedom from concurrent map faults of the repaired code. *)
From Coq Require Import Reals Lra.
From Flocq Require Import Core Sterbenz BinarySingleNaN Binary Bits.
From DTN Require Import Base ListFacts Prophet.
Open Scope R_scope.

Notation fexp64 := (SpecFloat.fexp 53 1024).
Definition rnd (x : R) : R := round radix2 fexp64 ZnearestE x.
Definition fmt (x : R) : Prop := generic_format radix2 fexp64 x.

Local Instance prec53 : Prec_gt_0 53 := eq_refl.
(* SpecFloat.fexp prec emax is FLT_exp emin prec with emin = 3 - emax - prec *)
Local Instance valid_fexp64 : Valid_exp fexp64 := FLT_exp_valid (3 - 1024 - 53) 53.
Local Instance mono_fexp64 : Monotone_exp fexp64 := FLT_exp_monotone (3 - 1024 - 53) 53.

Lemma rnd_le x y : x <= y -> rnd x <= rnd y.
Proof. apply round_le; auto with typeclass_instances. Qed.

Lemma rnd_id x : fmt x -> rnd x = x.
Proof. apply round_generic; auto with typeclass_instances. Qed.

Lemma fmt_rnd x : fmt (rnd x).
Proof. apply generic_format_round; auto with typeclass_instances. Qed.

Lemma fmt_0 : fmt 0.
Proof. apply generic_format_0. Qed.

Lemma fmt_1 : fmt 1.
Proof.
  rewrite <- (Bone_correct 53 1024 eq_refl eq_refl). apply generic_format_B2R.
Qed.

Lemma rnd_0 : rnd 0 = 0.
Proof. apply rnd_id, fmt_0. Qed.
Lemma rnd_1 : rnd 1 = 1.
Proof. apply rnd_id, fmt_1. Qed.

Lemma rnd_ge a x : fmt a -> a <= x -> a <= rnd x.
Proof. intros Ha H. rewrite <- (rnd_id a Ha). apply rnd_le; assumption. Qed.

Lemma rnd_ub b x : fmt b -> x <= b -> rnd x <= b.
Proof. intros Hb H. rewrite <- (rnd_id b Hb). apply rnd_le; assumption. Qed.

Lemma rnd_01 x : 0 <= x <= 1 -> 0 <= rnd x <= 1.
Proof. intros [H0 H1]. split; [apply rnd_ge | apply rnd_ub]; auto using fmt_0, fmt_1. Qed.

Lemma ulp_at x e : bpow radix2 (e - 1) <= x < bpow radix2 e -> ulp radix2 fexp64 x = bpow radix2 (fexp64 e).
Proof.
  intros H. pose proof (bpow_gt_0 radix2 (e - 1)). rewrite ulp_neq_0 by lra. f_equal. apply cexp_fexp_pos, H.
Qed.

Lemma ulp_1 : ulp radix2 fexp64 1 = bpow radix2 (-52).
Proof. apply (ulp_at 1 1). simpl. lra. Qed.

Lemma bpow_m52 : bpow radix2 (-52) = / 4503599627370496.
Proof. simpl. reflexivity. Qed.

Lemma rnd_le_1_midp v : v < 1 + bpow radix2 (-53) -> rnd v <= 1.
Proof.
  intros Hv. apply round_N_le_midp; [auto with typeclass_instances | exact fmt_1 |].
  rewrite succ_eq_pos by lra. rewrite ulp_1.
  replace (bpow radix2 (-52)) with (2 * bpow radix2 (-53)).
  - lra.
  - change 2 with (bpow radix2 1). rewrite <- bpow_plus. reflexivity.
Qed.

Lemma rnd_p_plus_1mp p : fmt p -> 0 <= p <= 1 -> rnd (p + rnd (1 - p)) <= 1.
Proof.
  intros Fp [H0 H1].
  destruct (Rle_or_lt (/2) p) as [Hh | Hh].
  - (* Sterbenz: 1 - p is exact *)
    assert (F : fmt (1 - p)).
    { apply sterbenz; auto with typeclass_instances; [exact fmt_1 | lra]. }
    rewrite (rnd_id _ F). replace (p + (1 - p)) with 1 by ring. rewrite rnd_1. lra.
  - destruct (Req_dec p 0) as [-> | Hp].
    + rewrite Rminus_0_r, rnd_1, Rplus_0_l, rnd_1. lra.
    + (* 1/2 < 1 - p < 1: ulp is 2^-53, the rounding error at most 2^-54 *)
      apply rnd_le_1_midp.
      assert (Hx : bpow radix2 (0 - 1) <= 1 - p < bpow radix2 0) by (simpl; lra).
      pose proof (ulp_at _ 0 Hx) as Hu. change (fexp64 0) with (-53)%Z in Hu.
      (* the tie-breaking function is spelled out (ZnearestE is a notation for Znearest of it), so that [rnd] folds *)
      pose proof (error_le_half_ulp radix2 fexp64 (fun x => negb (Z.even x)) (1 - p)) as He.
      fold (rnd (1 - p)) in He. rewrite Hu in He.
      apply Rabs_le_inv in He.
      assert (0 < bpow radix2 (-53)) by apply bpow_gt_0.
      lra.
Qed.

Notation R64 := (B2R 53 1024).
Notation fin64 := (is_finite 53 1024).

Definition fin01 (x : f64) : Prop := fin64 x = true /\ 0 <= R64 x <= 1.

Lemma small_no_overflow r : 0 <= r <= 1 -> Rlt_bool (Rabs r) (bpow radix2 1024) = true.
Proof.
  intros [H0 H1]. apply Rlt_bool_true. rewrite Rabs_pos_eq by assumption.
  apply Rle_lt_trans with (1 := H1). change 1 with (bpow radix2 0). apply bpow_lt. reflexivity.
Qed.

Lemma fmt_R64 x : fmt (R64 x).
Proof. apply generic_format_B2R. Qed.

Lemma fin01_zero : fin01 pf_zero.
Proof. split; [reflexivity | simpl; lra]. Qed.

Lemma R64_one : R64 pf_one = 1.
Proof. apply Bone_correct. Qed.

Lemma fin01_one : fin01 pf_one.
Proof. split; [apply is_finite_Bone | rewrite R64_one; lra]. Qed.

(* What Flocq's Bmult_correct, Bminus_correct and Bplus_correct say when the rounded exact result r
   lies in [0,1]: no overflow, so the result z is finite, its value is rnd r, and it is in [0,1]. *)
Lemma b64_op_01 (z : f64) (r : R) (b : bool) (P Q : Prop) :
  (if Rlt_bool (Rabs (rnd r)) (bpow radix2 1024) then R64 z = rnd r /\ fin64 z = b /\ P else Q) ->
  b = true -> 0 <= rnd r <= 1 -> fin01 z /\ R64 z = rnd r.
Proof.
  intros H -> Hb. rewrite (small_no_overflow _ Hb) in H. destruct H as [HR [HF _]].
  split; [split; [exact HF | rewrite HR; exact Hb] | exact HR].
Qed.

Lemma pf_mul_spec x y : fin01 x -> fin01 y ->
  fin01 (pf_mul x y) /\ R64 (pf_mul x y) = rnd (R64 x * R64 y)
  /\ R64 (pf_mul x y) <= R64 x /\ R64 (pf_mul x y) <= R64 y.
Proof.
  intros [Fx [Hx0 Hx1]] [Fy [Hy0 Hy1]].
  destruct (b64_op_01 _ _ _ _ _ (Bmult_correct 53 1024 eq_refl eq_refl binop_nan_pl64 mode_NE x y)) as [H01 HR].
  - rewrite Fx, Fy. reflexivity.
  - apply rnd_01. nra.
  - split; [exact H01|]. split; [exact HR|]. unfold pf_mul, b64_mult. rewrite HR.
    split; apply rnd_ub; try apply fmt_R64; nra.
Qed.

Lemma pf_1minus_spec p : fin01 p ->
  fin01 (pf_sub pf_one p) /\ R64 (pf_sub pf_one p) = rnd (1 - R64 p).
Proof.
  intros [Fp [H0 H1]]. rewrite <- R64_one.
  apply (b64_op_01 _ _ _ _ _ (Bminus_correct 53 1024 eq_refl eq_refl binop_nan_pl64 mode_NE pf_one p
                                (is_finite_Bone 53 1024 eq_refl eq_refl) Fp)); [reflexivity|].
  rewrite R64_one. apply rnd_01. lra.
Qed.

Lemma pf_add_spec p t : fin01 p -> fin01 t -> R64 t <= rnd (1 - R64 p) ->
  fin01 (pf_add p t) /\ R64 p <= R64 (pf_add p t).
Proof.
  intros [Fp [H0 H1]] [Ft [Ht0 _]] Ht1.
  assert (Hlo : R64 p <= rnd (R64 p + R64 t)).
  { apply rnd_ge; [apply fmt_R64 | lra]. }
  assert (Hhi : rnd (R64 p + R64 t) <= 1).
  { apply Rle_trans with (rnd (R64 p + rnd (1 - R64 p))).
    - apply rnd_le. lra.
    - apply rnd_p_plus_1mp; [apply fmt_R64 | lra]. }
  destruct (b64_op_01 _ _ _ _ _ (Bplus_correct 53 1024 eq_refl eq_refl binop_nan_pl64 mode_NE p t Fp Ft))
    as [H01 HR]; [reflexivity | lra |].
  split; [exact H01|]. unfold pf_add, b64_plus. rewrite HR. exact Hlo.
Qed.

Definition conf_ok (c : pconf) : Prop :=
  fin01 (pc_pinit c) /\ fin01 (pc_beta c) /\ fin01 (pc_gamma c).

Lemma encounter_val_spec c p : fin01 (pc_pinit c) -> fin01 p ->
  fin01 (encounter_val c p) /\ R64 p <= R64 (encounter_val c p).
Proof.
  intros Hc Hp. unfold encounter_val.
  destruct (pf_1minus_spec p Hp) as [Hq Hqr].
  destruct (pf_mul_spec _ _ Hq Hc) as [Ht [_ [Hle _]]].
  apply pf_add_spec; [exact Hp | exact Ht | rewrite <- Hqr; exact Hle].
Qed.

Lemma trans_val_spec c p pp o : fin01 (pc_beta c) -> fin01 p -> fin01 pp -> fin01 o ->
  fin01 (trans_val c p pp o) /\ R64 p <= R64 (trans_val c p pp o).
Proof.
  intros Hc Hp Hpp Ho. unfold trans_val.
  destruct (pf_1minus_spec p Hp) as [Hq Hqr].
  destruct (pf_mul_spec _ _ Hq Hpp) as [H1 [_ [Hle1 _]]].
  destruct (pf_mul_spec _ _ H1 Ho) as [H2 [_ [Hle2 _]]].
  destruct (pf_mul_spec _ _ H2 Hc) as [Ht [_ [Hle3 _]]].
  apply pf_add_spec; [exact Hp | exact Ht | rewrite <- Hqr; lra].
Qed.

Lemma age_val_spec c p : fin01 (pc_gamma c) -> fin01 p ->
  fin01 (age_val c p) /\ R64 (age_val c p) <= R64 p.
Proof.
  intros Hc Hp. unfold age_val.
  destruct (pf_mul_spec _ _ Hp Hc) as [H [_ [Hle _]]]. split; assumption.
Qed.

Definition pm_ok (m : pmap) : Prop := Forall (fun kv => fin01 (snd kv)) m.

Lemma pm_ok_in m k x : pm_ok m -> In (k, x) m -> fin01 x.
Proof. intros H Hin. exact (proj1 (Forall_forall _ _) H (k, x) Hin). Qed.

Lemma pm_get_find m k : pm_get m k = match pm_find m k with Some v => v | None => pf_zero end.
Proof. induction m as [|[k' v] m IH]; cbn [pm_get pm_find]; [|destruct (N.eqb k k')]; auto. Qed.

Lemma pm_set_put m k v : pm_set m k v = pm_put m k v.
Proof. induction m as [|[k' v'] m IH]; cbn [pm_set pm_put]; [|rewrite IH]; reflexivity. Qed.

Lemma pm_find_all {A} (P : A -> Prop) (m : list (N * A)) k v :
  Forall (fun kv => P (snd kv)) m -> pm_find m k = Some v -> P v.
Proof.
  induction m as [|[k' v'] m IH]; intros H E; cbn [pm_find] in E; [discriminate|].
  inversion H; subst. destruct (N.eqb k k'); [injection E as <-; assumption | auto].
Qed.

Lemma pm_put_all {A} (P : A -> Prop) (m : list (N * A)) k v :
  Forall (fun kv => P (snd kv)) m -> P v -> Forall (fun kv => P (snd kv)) (pm_put m k v).
Proof.
  induction m as [|[k' v'] m IH]; intros H Hv; cbn [pm_put].
  - constructor; [exact Hv | constructor].
  - inversion H; subst. destruct (N.eqb k k'); constructor; try assumption.
    apply IH; assumption.
Qed.

Lemma pm_get_ok m k : pm_ok m -> fin01 (pm_get m k).
Proof.
  intros H. rewrite pm_get_find. destruct (pm_find m k) eqn:E; [exact (pm_find_all fin01 m k _ H E) | exact fin01_zero].
Qed.

Lemma pm_get_set m k v k' : pm_get (pm_set m k v) k' = if N.eqb k' k then v else pm_get m k'.
Proof.
  induction m as [|[k0 v0] m IH]; cbn [pm_set pm_get].
  - reflexivity.
  - destruct (N.eqb_spec k k0) as [<-|E]; cbn [pm_get].
    + destruct (N.eqb k' k); reflexivity.
    + rewrite IH. destruct (N.eqb_spec k' k0) as [->|]; [|reflexivity].
      destruct (N.eqb_spec k0 k); congruence.
Qed.

Definition pm_le (a b : pmap) : Prop := forall k, R64 (pm_get a k) <= R64 (pm_get b k).

Lemma pm_le_refl a : pm_le a a.
Proof. intros k; lra. Qed.
Lemma pm_le_trans a b c : pm_le a b -> pm_le b c -> pm_le a c.
Proof. intros H1 H2 k. specialize (H1 k). specialize (H2 k). lra. Qed.

Lemma pm_set_up m k v : pm_ok m -> fin01 v -> R64 (pm_get m k) <= R64 v ->
  pm_ok (pm_set m k v) /\ pm_le m (pm_set m k v).
Proof.
  intros Hm Hv Hle. split; [rewrite pm_set_put; apply (pm_put_all fin01); assumption|].
  intros k'. rewrite pm_get_set. destruct (N.eqb_spec k' k) as [->|]; [exact Hle | lra].
Qed.

Definition state_ok (s : pstate) : Prop :=
  pm_ok (ps_own s) /\ Forall (fun kv => pm_ok (snd kv)) (ps_peers s).

Definition event_ok (e : pevent) : Prop :=
  match e with PImport _ v => pm_ok v | _ => True end.

Lemma init_ok : state_ok prophet_init.
Proof. split; constructor. Qed.

Lemma age_map_ok c m : fin01 (pc_gamma c) -> pm_ok m ->
  pm_ok (map (fun kv => (fst kv, age_val c (snd kv))) m)
  /\ pm_le (map (fun kv => (fst kv, age_val c (snd kv))) m) m.
Proof.
  intros Hc. induction m as [|[k v] m IH]; intros H.
  - split; [constructor | apply pm_le_refl].
  - inversion H as [|? ? Hkv Hm]; subst. destruct (IH Hm) as [IH1 IH2]. cbn [snd] in Hkv.
    destruct (age_val_spec c v Hc Hkv) as [Hv Hle].
    split.
    + cbn [map fst snd]. constructor; assumption.
    + intros k'. cbn [map fst snd pm_get]. destruct (N.eqb k' k); [exact Hle | apply IH2].
Qed.

Lemma trans_step_ok c peer own e : fin01 (pc_beta c) -> pm_ok own -> fin01 (snd e) ->
  pm_ok (trans_step c peer own e) /\ pm_le own (trans_step c peer own e).
Proof.
  intros Hc Ho He. unfold trans_step.
  destruct (trans_val_spec c (pm_get own (fst e)) (pm_get own peer) (snd e) Hc
              (pm_get_ok _ _ Ho) (pm_get_ok _ _ Ho) He) as [Hv Hle].
  apply pm_set_up; assumption.
Qed.

Lemma transitivity_ok c peer vec : fin01 (pc_beta c) -> pm_ok vec -> forall own, pm_ok own ->
  pm_ok (prophet_transitivity c own peer vec) /\ pm_le own (prophet_transitivity c own peer vec).
Proof.
  intros Hc. unfold prophet_transitivity.
  induction vec as [|e vec IH]; intros Hv own Ho; cbn [fold_left].
  - split; [assumption | apply pm_le_refl].
  - inversion Hv as [|? ? He Hvec]; subst.
    destruct (trans_step_ok c peer own e Hc Ho He) as [Ho' Hle'].
    destruct (IH Hvec _ Ho') as [Ho'' Hle''].
    split; [assumption | eapply pm_le_trans; eassumption].
Qed.

Lemma step_spec c s e : conf_ok c -> state_ok s -> event_ok e ->
  state_ok (prophet_step c s e) /\
  match e with
  | PEncounter _ | PImport _ _ => pm_le (ps_own s) (ps_own (prophet_step c s e))
  | PAge => pm_le (ps_own (prophet_step c s e)) (ps_own s)
  end.
Proof.
  intros (Hinit & Hbeta & Hgamma) (Ho & Hp) He. destruct e as [p| |p v]; cbn [prophet_step].
  - destruct (encounter_val_spec c (pm_get (ps_own s) p) Hinit (pm_get_ok _ _ Ho)) as [Hv Hle].
    destruct (pm_set_up _ p _ Ho Hv Hle) as [H1 H2]. split; [split|]; assumption.
  - destruct (age_map_ok c (ps_own s) Hgamma Ho) as [H1 H2]. split; [split|]; assumption.
  - destruct (transitivity_ok c p v Hbeta He (ps_own s) Ho) as [H1 H2].
    split; [split; [assumption | apply (pm_put_all pm_ok); assumption] | assumption].
Qed.

Lemma run_ok c es : conf_ok c -> Forall event_ok es -> forall s, state_ok s -> state_ok (prophet_run c s es).
Proof.
  intros Hc. unfold prophet_run. induction es as [|e es IH]; intros He s Hs; cbn [fold_left]; [assumption|].
  inversion He; subst. apply IH; [assumption | apply step_spec; assumption].
Qed.

Lemma reach_ok c es : conf_ok c -> Forall event_ok es -> state_ok (prophet_run c prophet_init es).
Proof. intros Hc He. apply run_ok; [assumption | assumption | exact init_ok]. Qed.

Lemma pf_gt_spec a b : fin64 a = true -> fin64 b = true -> (pf_gt a b = true <-> R64 b < R64 a).
Proof.
  intros Fa Fb. unfold pf_gt, b64_compare. rewrite Bcompare_correct by assumption.
  destruct (Rcompare_spec (R64 a) (R64 b)); split; intros; try discriminate; try lra; reflexivity.
Qed.

Lemma peer_pred_ok s p d : state_ok s -> fin01 (peer_pred s p d).
Proof.
  intros [_ Hp]. unfold peer_pred. destruct (pm_find (ps_peers s) p) eqn:E.
  - apply pm_get_ok. eapply (pm_find_all pm_ok); eassumption.
  - exact fin01_zero.
Qed.

Lemma senders_gate s dest css : forall sent p,
  In p (fst (prophet_senders s dest sent css)) ->
  In p css /\ pf_gt (peer_pred s p dest) (pm_get (ps_own s) dest) = true.
Proof.
  induction css as [|a r IH]; intros sent p H; cbn [prophet_senders] in H.
  - destruct H.
  - destruct (pf_gt (peer_pred s a dest) (pm_get (ps_own s) dest) && negb (nmem a sent)) eqn:C.
    + destruct (prophet_senders s dest (sent ++ [a]) r) as [ch st] eqn:E. cbn [fst] in H.
      destruct H as [<- | H].
      * apply andb_prop in C. split; [left; reflexivity | apply C].
      * specialize (IH (sent ++ [a]) p). rewrite E in IH. destruct (IH H) as [H1 H2].
        split; [right; assumption | assumption].
    + destruct (IH sent p H) as [H1 H2]. split; [right; assumption | assumption].
Qed.

Lemma offer_gate s dest sent css p : In p (prophet_offer s dest sent css) ->
  In p css /\ (p = dest \/ pf_gt (peer_pred s p dest) (pm_get (ps_own s) dest) = true).
Proof.
  unfold prophet_offer. destruct (filter (N.eqb dest) css) as [|d0 dr] eqn:E; intros H.
  - destruct (senders_gate _ _ _ _ _ H) as [H1 H2]. split; [assumption | right; assumption].
  - rewrite <- E in H. apply filter_In in H. destruct H as [H1 H2].
    apply N.eqb_eq in H2. split; [assumption | left; symmetry; assumption].
Qed.

Lemma offer_gate_real s dest sent css p : state_ok s -> In p (prophet_offer s dest sent css) ->
  p = dest \/ R64 (pm_get (ps_own s) dest) < R64 (peer_pred s p dest).
Proof.
  intros Hs H. destruct (offer_gate _ _ _ _ _ H) as [_ [-> | G]]; [left; reflexivity | right].
  apply pf_gt_spec; [apply (peer_pred_ok s p dest Hs) | apply (pm_get_ok _ dest (proj1 Hs)) | exact G].
Qed.

Lemma offer_unknown_peer s dest sent css p : state_ok s -> pm_find (ps_peers s) p = None ->
  In p (prophet_offer s dest sent css) -> p = dest.
Proof.
  intros Hs E H. destruct (offer_gate_real _ _ _ _ _ Hs H) as [-> | G]; [reflexivity|].
  unfold peer_pred in G. rewrite E in G. cbn in G.
  destruct (pm_get_ok _ dest (proj1 Hs)) as [_ [H0 _]]. lra.
Qed.

Close Scope R_scope.

(* [pwf h sp prog]: [prog] is well-locked when started holding [h] inside the span [sp].  The clause for
   the unlocks is the point: the lock may be released only outside a span of a shared map, and a span
   of a shared map is begun only under a lock, so such a span lies inside one critical section. *)
Fixpoint pwf (h : mheld) (sp : option mobj) (prog : list mact) : Prop :=
  match prog with
  | [] => True
  | a :: r =>
    match a with
    | ALock => pwf HWrite sp r
    | ARLock => pwf HRead sp r
    | AUnlock | ARUnlock => (forall o, sp = Some o -> mshared o = false) /\ pwf HNone sp r
    | ABegin o => (mshared o = true -> h <> HNone) /\ pwf h (Some o) r
    | ANext _ => pwf h sp r
    | AEnd _ => pwf h None r
    | AWrite o => mshared o = true /\ h = HWrite /\ pwf h sp r
    end
  end.

Definition tinv (t : mthread) : Prop :=
  pwf (mt_held t) (mt_span t) (mt_prog t) /\ (forall o, mt_span t = Some o -> mshared o = true -> mt_held t <> HNone).

Definition isw (t : mthread) : bool := mheld_is HWrite t.
Definition isr (t : mthread) : bool := mheld_is HRead t.
Definition lock_ok (ts : list mthread) : Prop :=
  cnt isw ts = 0%nat \/ (cnt isw ts = 1%nat /\ cnt isr ts = 0%nat).

Definition ginv (ts : list mthread) : Prop := Forall tinv ts /\ lock_ok ts.

Definition others_ok (h : mheld) (l : list mthread) : Prop :=
  match h with
  | HWrite => cnt isw l = 0%nat /\ cnt isr l = 0%nat
  | HRead => cnt isw l = 0%nat
  | HNone => lock_ok l
  end.

Lemma lock_ok_mid a t b : lock_ok (a ++ t :: b) <-> others_ok (mt_held t) (a ++ b).
Proof.
  unfold others_ok, lock_ok, isw, isr, mheld_is. rewrite !cnt_app, !cnt_cons.
  destruct (mt_held t); lia.
Qed.

Lemma others_ok_release h l : others_ok h l -> others_ok HNone l.
Proof. destruct h; cbn; unfold lock_ok; tauto. Qed.

Lemma nth_split {A} (l : list A) i x : nth_error l i = Some x ->
  exists a b, l = a ++ x :: b /\ others i l = a ++ b /\ forall y, upd i y l = a ++ y :: b.
Proof.
  revert i. induction l as [|z l IH]; intros i H; destruct i as [|i]; cbn in H; try discriminate.
  - injection H as ->. exists [], l. repeat split.
  - destruct (IH i H) as [a [b [E1 [E2 E3]]]]. exists (z :: a), b. cbn [others upd].
    rewrite E1 at 1. rewrite E2. repeat split. intros y. rewrite E3. reflexivity.
Qed.

Lemma all_none_counts l : forallb (mheld_is HNone) l = true -> cnt isw l = 0%nat /\ cnt isr l = 0%nat.
Proof.
  intros H. rewrite forallb_forall in H.
  split; apply cnt_zero; intros t Ht; specialize (H t Ht); unfold isw, isr, mheld_is in *;
    destruct (mt_held t); (discriminate || reflexivity).
Qed.

Lemma no_writer_count l : forallb (fun u => negb (mheld_is HWrite u)) l = true -> cnt isw l = 0%nat.
Proof.
  intros H. rewrite forallb_forall in H. apply cnt_zero. intros t Ht. apply negb_true_iff, H, Ht.
Qed.

Lemma counts_zero_none l : cnt isw l = 0%nat -> cnt isr l = 0%nat -> Forall (fun u => mt_held u = HNone) l.
Proof.
  intros H1 H2. rewrite cnt_zero in H1, H2. apply Forall_forall. intros t Ht.
  specialize (H1 t Ht). specialize (H2 t Ht). unfold isw, isr, mheld_is in *.
  destruct (mt_held t); (discriminate || reflexivity).
Qed.

Lemma mobj_eqb_eq a b : mobj_eqb a b = true -> a = b.
Proof. destruct a, b; cbn; try discriminate; try reflexivity. intros H. apply Nat.eqb_eq in H. now subst. Qed.

Lemma no_span_own w l : mshared w = true -> Forall tinv l -> Forall (fun u => mt_held u = HNone) l ->
  existsb (span_on w) l = false.
Proof.
  intros Hsh. induction l as [|t l IH]; intros H1 H2; [reflexivity|].
  inversion H1 as [|? ? Ht Hl]; subst. inversion H2 as [|? ? Hn Hl2]; subst.
  cbn [existsb]. rewrite (IH Hl Hl2), orb_false_r.
  unfold span_on. destruct (mt_span t) as [o|] eqn:E; [|reflexivity].
  destruct (mobj_eqb w o) eqn:Eo; [|reflexivity]. apply mobj_eqb_eq in Eo. subst o.
  destruct Ht as [_ Ht]. exfalso. exact (Ht _ E Hsh Hn).
Qed.

Lemma held_counts h sp rest (t : mthread) :
  let t' := {| mt_prog := rest; mt_held := h; mt_span := sp |} in
  isw t' = match h with HWrite => true | _ => false end /\
  isr t' = match h with HRead => true | _ => false end.
Proof. destruct h; split; reflexivity. Qed.

Lemma mstep_inv ts i : ginv ts ->
  match mstep ts i with
  | MFault => False
  | MStuck => True
  | MOk ts' => ginv ts'
  end.
Proof.
  intros [HF HL]. unfold mstep.
  destruct (nth_error ts i) as [t|] eqn:En; [|exact I].
  destruct (nth_split _ _ _ En) as [a [b [E1 [E2 E3]]]].
  destruct (mt_prog t) as [|act rest] eqn:Ep; [exact I|].
  rewrite E2. subst ts. apply lock_ok_mid in HL.
  apply Forall_app in HF. destruct HF as [HFa HFtb]. inversion HFtb as [|? ? Ht HFb]; subst.
  assert (HFab : Forall tinv (a ++ b)) by (apply Forall_app; split; assumption).
  destruct Ht as [Hw Hs]. rewrite Ep in Hw.
  assert (Hfin : forall h sp, pwf h sp rest -> (forall o, sp = Some o -> mshared o = true -> h <> HNone) ->
            others_ok h (a ++ b) -> ginv (a ++ {| mt_prog := rest; mt_held := h; mt_span := sp |} :: b)).
  { intros h sp P1 P2 P3. split.
    - apply Forall_app; split; [assumption|]. constructor; [split; assumption | assumption].
    - apply lock_ok_mid. exact P3. }
  destruct act; cbn [pwf] in Hw; rewrite ?E3.
  - (* ALock: granted only when nobody else holds the lock *)
    destruct (forallb (mheld_is HNone) (a ++ b)) eqn:G; [|exact I].
    apply Hfin; [assumption | intros _ _ _; discriminate | exact (all_none_counts _ G)].
  - destruct Hw as [Hw1 Hw2].
    apply Hfin; [assumption | intros o C S; rewrite (Hw1 o C) in S; discriminate | exact (others_ok_release _ _ HL)].
  - (* ARLock: granted only when nobody else holds the write lock *)
    destruct (forallb (fun u => negb (mheld_is HWrite u)) (a ++ b)) eqn:G; [|exact I].
    apply Hfin; [assumption | intros _ _ _; discriminate | exact (no_writer_count _ G)].
  - destruct Hw as [Hw1 Hw2].
    apply Hfin; [assumption | intros o C S; rewrite (Hw1 o C) in S; discriminate | exact (others_ok_release _ _ HL)].
  - destruct Hw as [Hw1 Hw2].
    apply Hfin; [assumption | intros o' C S; injection C as ->; apply Hw1; exact S | exact HL].
  - apply Hfin; assumption.
  - apply Hfin; [assumption | intros o' C; discriminate | exact HL].
  - (* AWrite: the writer holds the write lock, so nobody else is inside a span of a shared map *)
    destruct Hw as [Hsh [Hh Hw]]. pose proof HL as HL'. rewrite Hh in HL'. destruct HL' as [Gw Gr].
    rewrite (no_span_own _ _ Hsh HFab (counts_zero_none _ Gw Gr)).
    apply Hfin; assumption.
Qed.

Lemma mrun_inv sched : forall ts, ginv ts -> mrun ts sched = false.
Proof.
  induction sched as [|i r IH]; intros ts H; cbn [mrun]; [reflexivity|].
  pose proof (mstep_inv ts i H) as S. destruct (mstep ts i); [apply IH; assumption | contradiction | apply IH; assumption].
Qed.

Lemma pwf_next h sp o n rest : pwf h sp (repeat (ANext o) n ++ rest) <-> pwf h sp rest.
Proof. induction n; cbn [repeat app pwf]; [reflexivity | assumption]. Qed.

Lemma pwf_writes sp n rest : pwf HWrite sp rest -> pwf HWrite sp (repeat (AWrite OOwn) n ++ rest).
Proof. intros H. induction n; cbn [repeat app pwf]; [assumption | repeat split; assumption]. Qed.

Lemma prog_wf t op : pwf HNone None (mop_prog true t op).
Proof.
  destruct op as [n|n|n|]; cbn [mop_prog send_metadata_prog app pwf mshared].
  - split; [intros _; discriminate|]. apply pwf_writes. cbn [pwf]. split; [intros o C; discriminate | exact I].
  - repeat split; try discriminate. apply pwf_next. cbn [app pwf mshared].
    split; [intros o C; discriminate|]. split; [discriminate|]. apply pwf_next. cbn [pwf]. exact I.
  - repeat split; try discriminate. apply pwf_writes. cbn [pwf]. split; [intros o C; discriminate | exact I].
  - repeat split; try discriminate.
Qed.

Lemma threads_ginv ops : forall t, ginv (mthreads_from true t ops).
Proof.
  induction ops as [|op r IH]; intros t; cbn [mthreads_from].
  - split; [constructor | left; reflexivity].
  - destruct (IH (S t)) as [H1 H2]. split.
    + constructor; [|assumption]. split; cbn; [apply prog_wf | intros o C; discriminate].
    + unfold lock_ok in *. rewrite !cnt_cons. exact H2.
Qed.
