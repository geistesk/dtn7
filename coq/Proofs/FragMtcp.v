(* Fragment (Model/Frag.v) -> MTCP framing and server loop (Model/Mtcp.v) parsing with the bundle decoder
   (Model/Bundle.v): the server hands up exactly the fragments.  With FragProofs.fragment_invertible
   (ReassembleFragments, fg_reassemble of Model/Frag.v, gives the original bundle) this is Properties/C09_mtcp.v. *)
From DTN Require Import Base Bundle BundleWf Frag FragProofs Mtcp MtcpProofs MtcpBundles.
Open Scope N_scope.

(* mtu < 2 ^ 64 only because mb_ok wants every frame shorter than 2 ^ 64 bytes and fragment_ok bounds a
   fragment by mtu *)
Lemma frag_stream now b mtu fs :
  bundle_wf b = true -> check_valid now b = true -> mtu < 2 ^ 64 -> fg_fragment now b mtu = FOk fs ->
  mtcp_server (mb_parse now) (mtcp_client_stream (map mb_ev (map Some fs))) = fs.
Proof.
  intros Hwf Hv Hm Hf. rewrite <- (handed_up_sends fs) at 2. apply mb_stream, Forall_map.
  destruct (fragment_sound now b mtu fs Hwf Hv Hf) as [[-> Hlen] | (pl & _ & _ & _ & Hall & _)].
  - constructor; [|constructor]. split; [split; assumption|lia].
  - eapply Forall_impl; [|exact Hall]. intros f (Hlen & Hfw & Hfv & _). split; [split; assumption|lia].
Qed.
