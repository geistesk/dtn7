(* FragProofs.v - fragmentation respects the size limit and is exactly invertible (C09). *)
From Coq Require Import Permutation Sorted.
From DTN Require Import Base ListFacts Cbor CborProofs Crc Eid Bundle BundleWf BundleProofs ValidProofs Reasm ReasmProofs Frag.
Open Scope N_scope.

Lemma nlen_nil {A} : nlen (@nil A) = 0.
Proof. reflexivity. Qed.

Definition hl (n : N) : N :=
  if n <? 24 then 1 else if n <? 256 then 2 else if n <? 65536 then 3 else if n <? 4294967296 then 5 else 9.

Lemma enc_len m n : nlen (head_bytes m n) = hl n.
Proof.
  unfold head_bytes, hl, nlen.
  destruct (n <? 24); [reflexivity|]. destruct (n <? 256); [reflexivity|].
  destruct (n <? 65536); [cbn [length]; rewrite be_encode_length; reflexivity|].
  destruct (n <? 4294967296); cbn [length]; rewrite be_encode_length; reflexivity.
Qed.

Lemma hl_mono n n' : n <= n' -> hl n <= hl n'.
Proof. unfold hl. intros H. repeat match goal with |- context [?a <? ?b] => destruct (N.ltb_spec a b) end; lia. Qed.

Lemma hl_small n : n < 24 -> hl n = 1.
Proof. unfold hl. intros H. destruct (N.ltb_spec n 24); lia. Qed.

Definition crc_fl (t : N) : N := if t =? 0 then 0 else if t =? 1 then 3 else 5.

Lemma crc_field_len t body : crc_type_ok t = true -> nlen (crc_field t body) = crc_fl t.
Proof.
  unfold crc_type_ok. intros H. assert (Ht : t = 0 \/ t = 1 \/ t = 2) by lia.
  unfold crc_field, crc_bytes, crc_fl, enc_bstr.
  destruct Ht as [-> | [-> | ->]]; cbn [N.eqb Pos.eqb crc_len]; [reflexivity| |];
    rewrite nlen_app, enc_len; unfold nlen; rewrite be_encode_length; reflexivity.
Qed.

Definition cblock_len (c : cblock) : N :=
  1 + hl (c_type c) + hl (c_num c) + hl (c_flags c) + 1
  + hl (nlen (inner_of (c_val c))) + nlen (inner_of (c_val c)) + crc_fl (c_crc c).

Lemma cblock_bytes_len c : crc_type_ok (c_crc c) = true -> nlen (cblock_bytes c) = cblock_len c.
Proof.
  intros H. unfold cblock_bytes, cblock_len. rewrite nlen_app, crc_field_len by exact H.
  unfold cblock_body, enc_arr, enc_uint, enc_bstr. rewrite !nlen_app, !enc_len.
  unfold crc_type_ok in H.
  rewrite (hl_small (c_crc c)), (hl_small (if c_crc c =? 0 then 5 else 6)) by (destruct (c_crc c =? 0); lia). lia.
Qed.

Definition primary_len (p : primary) : N :=
  1 + 1 + hl (p_flags p) + 1
  + nlen (enc_eid_body (p_dst p)) + nlen (enc_eid_body (p_src p)) + nlen (enc_eid_body (p_rpt p))
  + 1 + hl (p_time p) + hl (p_seq p) + hl (p_life p)
  + (if has (p_flags p) F_FRAG then hl (p_off p) + hl (p_total p) else 0)
  + crc_fl (p_crc p).

Lemma primary_bytes_len p : crc_type_ok (p_crc p) = true -> nlen (primary_bytes p) = primary_len p.
Proof.
  intros H. unfold primary_bytes, primary_len. rewrite nlen_app, crc_field_len by exact H.
  unfold primary_body, enc_arr, enc_uint. rewrite !nlen_app, !enc_len.
  unfold crc_type_ok in H.
  rewrite (hl_small (p_crc p)), (hl_small (8 + _ + _)) by (destruct (has (p_flags p) F_FRAG), (p_crc p =? 0); lia).
  change (hl 7) with 1. change (hl 2) with 1.
  destruct (has (p_flags p) F_FRAG); rewrite ?nlen_app, ?enc_len; change (nlen (@nil N)) with 0; lia.
Qed.

Fixpoint blocks_len (l : list cblock) : N :=
  match l with [] => 0 | c :: l => cblock_len c + blocks_len l end.

Lemma blocks_bytes_len l : forallb cblock_wf l = true -> nlen (blocks_bytes l) = blocks_len l.
Proof.
  induction l as [|c l IH]; cbn [forallb blocks_bytes blocks_len]; intros H; [reflexivity|].
  apply andb_prop in H. destruct H as [Hc Hl]. apply cblock_wf_parts in Hc. destruct Hc as (_ & _ & Hc & _).
  rewrite nlen_app, cblock_bytes_len, IH by assumption. reflexivity.
Qed.

Lemma blocks_len_app a b : blocks_len (a ++ b) = blocks_len a + blocks_len b.
Proof. induction a as [|c a IH]; cbn [app blocks_len]; [lia|]. rewrite IH. lia. Qed.

Definition bundle_len (b : bundle) : N := 2 + primary_len (b_pri b) + blocks_len (b_blocks b).

Lemma bundle_wf_parts b : bundle_wf b = true ->
  primary_wf (b_pri b) = true /\ forallb cblock_wf (b_blocks b) = true.
Proof. apply andb_prop. Qed.

Lemma primary_wf_crc p : primary_wf p = true -> crc_type_ok (p_crc p) = true.
Proof. unfold primary_wf. intros H. split_andb. assumption. Qed.

Lemma bundle_bytes_len b : bundle_wf b = true -> nlen (bundle_bytes b) = bundle_len b.
Proof.
  intros H. apply bundle_wf_parts in H. destruct H as [Hp Hb].
  unfold bundle_bytes, bundle_len.
  rewrite nlen_cons, !nlen_app, blocks_bytes_len, primary_bytes_len by auto using primary_wf_crc.
  change (nlen [255]) with 1. lia.
Qed.

Lemma payload_val c : cblock_wf c = true -> fg_is_payload c = true -> c_val c = XPayload (fg_data c).
Proof.
  intros Hwf Hp. apply cblock_wf_parts in Hwf. destruct Hwf as (_ & _ & _ & He & _).
  unfold fg_is_payload, c_type, fg_data in *. destruct (c_val c); cbn [ext_type] in Hp; try discriminate; try reflexivity.
  cbn [ext_wf] in He. split_andb. apply N.eqb_eq in Hp. subst tc. discriminate.
Qed.

Lemma est_block_wf c : cblock_wf c = true -> cblock_wf (fg_est_block c) = true.
Proof.
  intros H. pose proof (cblock_wf_parts _ H) as (Hn & Hf & Hc & He & Hl).
  unfold cblock_wf, fg_est_block. cbn [c_num c_flags c_crc c_val]. rewrite Hn, Hf. cbn [andb].
  destruct (fg_is_payload c).
  - reflexivity.
  - rewrite He. cbn [andb crc_type_ok]. rewrite enc_ext_inner_ok by exact He. exact Hl.
Qed.

Definition est_len (c : cblock) : N := cblock_len (fg_est_block c).

(* What block c adds to the estimate for the first fragment / for the others: its CRC32 length if
   that fragment carries it, and for a payload block the widening of the empty byte-string head to the
   head of an mtu-sized string - for the others together with the CRC32 length of the empty payload
   block once more, whatever its replicate flag. *)
Definition eblock (mtu : N) (first : bool) (c : cblock) : N :=
  (if first || has (c_flags c) BF_REPLICATE then est_len c else 0)
  + (if fg_is_payload c then (if first then 0 else est_len c) + (hl mtu - 1) else 0).
Fixpoint eover (mtu : N) (first : bool) (l : list cblock) : N :=
  match l with [] => 0 | c :: l => eblock mtu first c + eover mtu first l end.

Lemma fg_ext_len_spec mtu l : forall f o, forallb cblock_wf l = true ->
  fg_ext_len mtu l f o = Some (f + eover mtu true l, o + eover mtu false l).
Proof.
  induction l as [|c l IH]; intros f o H; cbn [forallb fg_ext_len eover] in *.
  - rewrite !N.add_0_r. reflexivity.
  - apply andb_prop in H. destruct H as [Hc Hl].
    pose proof (est_block_wf _ Hc) as Hw. rewrite enc_cblock_ok by exact Hw.
    rewrite cblock_bytes_len by reflexivity. fold (est_len c). rewrite enc_len.
    unfold eblock. cbn [orb].
    destruct (fg_is_payload c); destruct (has (c_flags c) BF_REPLICATE); rewrite IH by exact Hl; f_equal; f_equal; lia.
Qed.

(* CRC32 is the longest CRC field, so a block is never longer than its CRC32 estimate *)
Lemma crc_fl_le t : crc_fl t <= crc_fl 2.
Proof. unfold crc_fl. destruct (t =? 0), (t =? 1); cbn; lia. Qed.

Lemma est_len_ge c : fg_is_payload c = false -> cblock_len c <= est_len c.
Proof.
  intros Hp. unfold est_len, cblock_len, fg_est_block, c_type. cbn [c_num c_flags c_crc c_val]. rewrite Hp.
  pose proof (crc_fl_le (c_crc c)). lia.
Qed.

Lemma payload_block_len pl d mtu : fg_is_payload pl = true -> nlen d <= mtu ->
  cblock_len (fg_payload_block pl d) <= est_len pl + (hl mtu - 1) + nlen d.
Proof.
  intros Hp Hd. unfold est_len, cblock_len, fg_est_block, fg_payload_block, c_type. cbn [c_num c_flags c_crc c_val]. rewrite Hp.
  cbn [ext_type inner_of]. change (nlen (@nil N)) with 0. change (hl 0) with 1.
  pose proof (hl_mono _ _ Hd). pose proof (crc_fl_le (c_crc pl)). lia.
Qed.

Fixpoint pay_est (mtu : N) (l : list cblock) : N :=
  match l with
  | [] => 0
  | c :: l => (if fg_is_payload c then est_len c + (hl mtu - 1) else 0) + pay_est mtu l
  end.

Lemma pay_est_in mtu l pl : In pl l -> fg_is_payload pl = true -> est_len pl + (hl mtu - 1) <= pay_est mtu l.
Proof.
  induction l as [|c l IH]; cbn [In pay_est]; intros Hin Hp; [contradiction|].
  destruct Hin as [->|Hin]; [rewrite Hp; lia|specialize (IH Hin Hp); lia].
Qed.

Lemma eblock_ge mtu i c :
  (if fg_keep i c then cblock_len c else 0) + (if fg_is_payload c then est_len c + (hl mtu - 1) else 0)
  <= eblock mtu (i =? 0) c.
Proof.
  unfold eblock, fg_keep. destruct (fg_is_payload c) eqn:Ep; cbn [negb andb].
  - destruct (i =? 0), (has (c_flags c) BF_REPLICATE); cbn [orb]; lia.
  - pose proof (est_len_ge c Ep). destruct ((i =? 0) || has (c_flags c) BF_REPLICATE); lia.
Qed.

Lemma eover_ge mtu i l : blocks_len (filter (fg_keep i) l) + pay_est mtu l <= eover mtu (i =? 0) l.
Proof.
  induction l as [|c l IH]; cbn [filter blocks_len pay_est eover]; [lia|].
  pose proof (eblock_ge mtu i c). destruct (fg_keep i c); cbn [blocks_len]; lia.
Qed.

Lemma set_frag_u64 x : u64_ok x = true -> u64_ok (N.lor x F_FRAG) = true.
Proof. unfold u64_ok. destruct x as [|[p|p|]]; cbn; lia. Qed.

Lemma set_frag_ge x : x <= N.lor x F_FRAG.
Proof. destruct x as [|[p|p|]]; cbn; lia. Qed.

Lemma set_frag_has x : has (N.lor x F_FRAG) F_FRAG = true.
Proof. destruct x as [|[p|p|]]; reflexivity. Qed.

Lemma lor1_frag x : has x F_FRAG = true -> N.lor x 1 = x.
Proof. unfold has, F_FRAG. destruct x as [|[p|p|]]; cbn; intros H; try reflexivity; discriminate. Qed.

Lemma clear_set_frag x : has x F_FRAG = false -> N.ldiff (N.lor x F_FRAG) F_FRAG = x.
Proof. unfold has, F_FRAG. destruct x as [|[p|p|]]; cbn; intros H; try reflexivity; discriminate. Qed.

Lemma fg_primary_wf p i len :
  primary_wf p = true -> u64_ok i = true -> u64_ok len = true -> primary_wf (fg_primary p i len) = true.
Proof.
  unfold primary_wf. intros H Hi Hl. split_andb. unfold fg_primary.
  cbn [p_flags p_crc p_dst p_src p_rpt p_time p_seq p_life p_off p_total].
  assert (u64_ok ((i + p_off p) mod fg_u64) = true).
  { unfold u64_ok, fg_u64. pose proof (N.mod_upper_bound (i + p_off p) 18446744073709551616). lia. }
  rewrite set_frag_u64, set_frag_has by assumption.
  destruct (has (p_flags p) F_FRAG); repeat match goal with H : _ = true |- _ => rewrite ?H; clear H end; reflexivity.
Qed.

Lemma fg_slice_len data i e : nlen (fg_slice data i e) = N.min (e - i) (nlen data - i).
Proof. unfold fg_slice, nlen. rewrite firstn_length, skipn_length. lia. Qed.

Lemma slice_len data j e : j <= e -> e <= nlen data -> nlen (fg_slice data j e) = e - j.
Proof. rewrite fg_slice_len. lia. Qed.

Lemma fg_slice_bytes data i e : bytes_ok data = true -> bytes_ok (fg_slice data i e) = true.
Proof. intros H. unfold fg_slice. apply bytes_ok_firstn, bytes_ok_skipn, H. Qed.

Lemma slice_to_end data j : fg_slice data j (nlen data) = skipn (N.to_nat j) data.
Proof. unfold fg_slice. apply firstn_all2. rewrite skipn_length. unfold nlen. lia. Qed.

Lemma slice_split data j e : j <= e ->
  skipn (N.to_nat j) data = fg_slice data j e ++ skipn (N.to_nat e) data.
Proof.
  intros H. unfold fg_slice. rewrite <- (firstn_skipn (N.to_nat (e - j)) (skipn (N.to_nat j) data)) at 1.
  f_equal. rewrite skipn_skipn_add. f_equal. lia.
Qed.

Lemma payload_block_wf pl d :
  cblock_wf pl = true -> bytes_ok d = true -> len_ok d = true -> cblock_wf (fg_payload_block pl d) = true.
Proof.
  intros H Hb Hl. pose proof (cblock_wf_parts _ H) as (Hn & Hf & Hc & _ & _).
  unfold cblock_wf, fg_payload_block. cbn [c_num c_flags c_crc c_val ext_wf enc_ext_inner]. rewrite Hn, Hf, Hc, Hb, Hl. reflexivity.
Qed.

Lemma payload_data_ok pl : cblock_wf pl = true -> fg_is_payload pl = true ->
  bytes_ok (fg_data pl) = true /\ len_ok (fg_data pl) = true.
Proof.
  intros H Hp. pose proof (payload_val _ H Hp) as Hv. apply cblock_wf_parts in H. destruct H as (_ & _ & _ & He & Hl).
  rewrite Hv in He, Hl. cbn [ext_wf inner_of] in He, Hl. tauto.
Qed.

Lemma len_ok_u64 d : len_ok d = true -> u64_ok (nlen d) = true.
Proof. unfold len_ok, u64_ok, max_raw. lia. Qed.

(* offset of the first byte / total length the fragments of b must carry: b may itself be a fragment *)
Definition fg_base (b : bundle) : N := if has (p_flags (b_pri b)) F_FRAG then p_off (b_pri b) else 0.
Definition fg_total (b : bundle) (data : list N) : N :=
  if has (p_flags (b_pri b)) F_FRAG then p_total (b_pri b) else nlen data.

Definition same_bundle (b f : bundle) : Prop :=
  let p := b_pri b in let q := b_pri f in
  p_src q = p_src p /\ p_time q = p_time p /\ p_seq q = p_seq p /\ p_dst q = p_dst p /\ p_rpt q = p_rpt p
  /\ p_life q = p_life p /\ p_crc q = p_crc p /\ p_flags q = N.lor (p_flags p) F_FRAG
  /\ has (p_flags q) F_FRAG = true.

Fixpoint fg_partition (o : N) (data : list N) (fs : list bundle) : Prop :=
  match fs with
  | [] => data = []
  | f :: fs' => exists d rest, payload_of f = Some d /\ d <> [] /\ p_off (b_pri f) = o /\ data = d ++ rest
                               /\ fg_partition (o + nlen d) rest fs'
  end.

Definition ext_blocks (b : bundle) : list cblock := filter (fun c => negb (fg_is_payload c)) (b_blocks b).
Definition replicated (l : list cblock) : list cblock := filter (fun c => has (c_flags c) BF_REPLICATE) l.

Definition fg_placement (b : bundle) (pl : cblock) (first : bool) (f : bundle) : Prop :=
  exists d, b_blocks f = (if first then ext_blocks b else replicated (ext_blocks b)) ++ [fg_payload_block pl d].
Definition fg_placed (b : bundle) (pl : cblock) (fs : list bundle) : Prop :=
  match fs with
  | [] => True
  | f0 :: rest => fg_placement b pl true f0 /\ Forall (fg_placement b pl false) rest
  end.

Definition fragment_ok (now mtu : N) (b : bundle) (pl : cblock) (f : bundle) : Prop :=
  nlen (bundle_bytes f) <= mtu /\ bundle_wf f = true /\ check_valid now f = true
  /\ same_bundle b f /\ p_total (b_pri f) = fg_total b (fg_data pl).

Section Loop.
Variables (now mtu : N) (b : bundle) (pl : cblock) (first others : N).
Let data := fg_data pl.
Let len := nlen data.

Definition mkfrag (j e : N) : bundle :=
  {| b_pri := fg_primary (b_pri b) j len;
     b_blocks := filter (fg_keep j) (b_blocks b) ++ [fg_payload_block pl (fg_slice data j e)] |}.

Inductive fg_pieces : N -> list bundle -> Prop :=
| pieces_last i : fg_pieces i [mkfrag i len]
| pieces_cons i i' fs : i < i' -> i' < len -> fg_pieces i' fs -> fg_pieces i (mkfrag i i' :: fs).

Lemma fg_step_spec i f i' : fg_step now mtu b pl first others i = Some (f, i') ->
  exists pbs ov, enc_primary (fg_primary (b_pri b) i len) = Some pbs /\
    ov = 2 + nlen pbs + (if i =? 0 then first else others) /\ ov < mtu /\ i' = i + (mtu - ov) /\
    f = mkfrag i (N.min i' len) /\ check_valid now f = true.
Proof.
  unfold fg_step. fold data. fold len. destruct (enc_primary _) as [pbs|] eqn:Ep; [|discriminate].
  destruct (N.leb_spec mtu (2 + nlen pbs + (if i =? 0 then first else others))) as [Hle|Hlt]; [discriminate|].
  match goal with |- context [check_valid now ?x] => destruct (check_valid now x) eqn:Ev end; [|discriminate].
  intros H. injection H as <- <-. exists pbs, (2 + nlen pbs + (if i =? 0 then first else others)).
  repeat split; assumption.
Qed.

Lemma fg_loop_spec (P : bundle -> Prop) fuel :
  (forall j f j', (j = 0 \/ j < len) -> fg_step now mtu b pl first others j = Some (f, j') -> P f) ->
  forall i, (i = 0 \/ i < len) -> (N.to_nat len < fuel + N.to_nat i)%nat ->
  match fg_loop fuel now mtu b pl first others i with
  | LFuel => False
  | LErr => True
  | LOk fs => fg_pieces i fs /\ Forall P fs
  end.
Proof.
  intros HP. induction fuel as [|fuel IH]; intros i Hi Hfuel; cbn [fg_loop]; [lia|].
  destruct (fg_step now mtu b pl first others i) as [[f i']|] eqn:Es; [|exact I].
  destruct (fg_step_spec _ _ _ Es) as (pbs & ov & _ & _ & Hov & Hi' & Hf & _).
  fold data. fold len. destruct (N.ltb_spec i' len) as [Hlt|Hge].
  - specialize (IH i' (or_intror Hlt)).
    destruct (fg_loop fuel now mtu b pl first others i') as [| |fs']; [exact I|apply IH; lia|].
    destruct IH as [Hp Hs]; [lia|]. rewrite N.min_l in Hf by lia.
    split; [rewrite Hf; apply pieces_cons; (assumption || lia)|constructor; eauto].
  - rewrite N.min_r in Hf by lia. split; [rewrite Hf; apply pieces_last|repeat constructor; eauto].
Qed.
End Loop.

Lemma keep_first l : filter (fg_keep 0) l = filter (fun c => negb (fg_is_payload c)) l.
Proof. apply filter_ext. intros c. apply andb_true_r. Qed.

Lemma keep_others j l : j <> 0 ->
  filter (fg_keep j) l = replicated (filter (fun c => negb (fg_is_payload c)) l).
Proof.
  intros Hj. unfold replicated. induction l as [|c l IH]; cbn [filter]; [reflexivity|].
  unfold fg_keep at 1. replace (j =? 0) with false by lia.
  destruct (fg_is_payload c); cbn [negb andb orb filter]; [exact IH|].
  destruct (has (c_flags c) BF_REPLICATE); rewrite IH; reflexivity.
Qed.

Lemma find_type_keep j l pl d :
  find_type 1 (filter (fg_keep j) l ++ [fg_payload_block pl d]) = Some (fg_payload_block pl d).
Proof.
  unfold find_type. induction l as [|c l IH]; cbn [filter app find]; [reflexivity|].
  destruct (fg_keep j c) eqn:E; [|exact IH]. cbn [app find].
  unfold fg_keep, fg_is_payload in E. destruct (c_type c =? 1); [discriminate|exact IH].
Qed.

Section Pieces.
Variables (b : bundle) (pl : cblock).
Let data := fg_data pl.
Let len := nlen data.
Notation mk := (mkfrag b pl).
Notation pieces := (fg_pieces b pl).

Lemma mkfrag_payload j e : payload_of (mk j e) = Some (fg_slice data j e).
Proof. unfold payload_of, mkfrag. cbn [b_blocks]. rewrite find_type_keep. reflexivity. Qed.

Lemma mkfrag_same j e : same_bundle b (mk j e).
Proof. unfold same_bundle, mkfrag, fg_primary. cbn. repeat split; try reflexivity. apply set_frag_has. Qed.

Lemma mkfrag_off j e : fg_base b + j < fg_u64 -> p_off (b_pri (mk j e)) = fg_base b + j.
Proof.
  unfold mkfrag, fg_primary, fg_base. cbn [b_pri p_off]. destruct (has (p_flags (b_pri b)) F_FRAG); intros H; [|lia].
  rewrite N.mod_small by lia. lia.
Qed.

Lemma mkfrag_placement j e : fg_placement b pl (j =? 0) (mk j e).
Proof.
  exists (fg_slice data j e). unfold mkfrag. cbn [b_blocks]. f_equal.
  destruct (N.eqb_spec j 0) as [->|Hj]; [apply keep_first|apply keep_others, Hj].
Qed.

Lemma pieces_forall_from (P : bundle -> Prop) i fs :
  (forall j e, i <= j -> P (mk j e)) -> pieces i fs -> Forall P fs.
Proof.
  intros HP H. induction H as [i | i i' fs Hlt _ _ IH]; (constructor; [apply HP; lia|]); [constructor|].
  apply IH. intros j e Hj. apply HP. lia.
Qed.

Lemma pieces_forall (P : bundle -> Prop) i fs : (forall j e, P (mk j e)) -> pieces i fs -> Forall P fs.
Proof. intros HP. apply pieces_forall_from. intros j e _. apply HP. Qed.

Lemma pieces_placed fs : pieces 0 fs -> fg_placed b pl fs.
Proof.
  inversion 1 as [|? i' fs' Hlt _ Hrest]; subst; (split; [apply (mkfrag_placement 0)|]); [constructor|].
  eapply pieces_forall_from; [|exact Hrest].
  intros j e Hj. replace false with (j =? 0) by lia. apply mkfrag_placement.
Qed.

Lemma pieces_partition i fs : pieces i fs -> i < len -> fg_base b + len <= fg_u64 ->
  fg_partition (fg_base b + i) (skipn (N.to_nat i) data) fs.
Proof.
  induction 1 as [i | i i' fs Hlt Hlen _ IH]; intros Hi Hr; cbn [fg_partition]; [|change (i' < len) in Hlen].
  - exists (fg_slice data i len), []. rewrite mkfrag_payload, mkfrag_off by lia.
    repeat split; [apply nlen_pos_nonempty; rewrite slice_len; lia|rewrite app_nil_r; symmetry; apply slice_to_end].
  - exists (fg_slice data i i'), (skipn (N.to_nat i') data). rewrite mkfrag_payload, mkfrag_off by lia.
    repeat split; [apply nlen_pos_nonempty; rewrite slice_len; lia|apply slice_split; lia|].
    rewrite slice_len by lia. replace (fg_base b + i + (i' - i)) with (fg_base b + i') by lia. apply IH; assumption.
Qed.

Lemma pieces_length i fs : pieces i fs -> (1 <= length fs)%nat.
Proof. induction 1; cbn [length]; lia. Qed.
End Pieces.

Lemma fg_step_ok now mtu b pl i f i' :
  bundle_wf b = true -> In pl (b_blocks b) -> fg_is_payload pl = true -> (i = 0 \/ i < nlen (fg_data pl)) ->
  fg_step now mtu b pl (eover mtu true (b_blocks b)) (eover mtu false (b_blocks b)) i = Some (f, i') ->
  fragment_ok now mtu b pl f.
Proof.
  intros Hwf Hin Hp Hi Hs. apply fg_step_spec in Hs. destruct Hs as (pbs & ov & Ep & -> & Hov & Hi' & -> & Hv).
  replace (if i =? 0 then _ else _) with (eover mtu (i =? 0) (b_blocks b)) in Hov, Hi' by (destruct (i =? 0); reflexivity).
  apply bundle_wf_parts in Hwf. destruct Hwf as [Hpw Hbw].
  assert (Hplw : cblock_wf pl = true) by (rewrite forallb_forall in Hbw; apply Hbw, Hin).
  destruct (payload_data_ok pl Hplw Hp) as [Hdb Hdl].
  assert (Hfpw : primary_wf (fg_primary (b_pri b) i (nlen (fg_data pl))) = true).
  { pose proof (len_ok_u64 _ Hdl) as Hlu. apply fg_primary_wf; [exact Hpw| |exact Hlu]. unfold u64_ok in *. lia. }
  rewrite enc_primary_ok in Ep by exact Hfpw. injection Ep as <-.
  rewrite primary_bytes_len in Hov, Hi' by apply primary_wf_crc, Hfpw.
  set (e := N.min i' (nlen (fg_data pl))) in *.
  pose proof (fg_slice_len (fg_data pl) i e) as Hd.
  assert (Hfw : bundle_wf (mkfrag b pl i e) = true).
  { unfold bundle_wf, mkfrag. cbn [b_pri b_blocks]. rewrite Hfpw, forallb_app, forallb_filter by exact Hbw.
    cbn [forallb andb]. rewrite payload_block_wf; [reflexivity|exact Hplw|apply fg_slice_bytes, Hdb|].
    unfold len_ok in *. lia. }
  unfold fragment_ok. rewrite bundle_bytes_len by exact Hfw.
  split; [|split; [exact Hfw|split; [exact Hv|split; [apply mkfrag_same|reflexivity]]]].
  (* ov = 2 + primary + eover is the overhead the step computed, sz = mtu - ov; the slice has at most sz bytes, so
       len f  = 2 + primary + kept blocks + payload block
             <= 2 + primary + (eover - pay_est) + (est_len pl + (hl mtu - 1) + sz)    eover_ge, payload_block_len
             <= ov + sz = mtu                                                         pay_est_in *)
  unfold bundle_len, mkfrag. cbn [b_pri b_blocks]. rewrite blocks_len_app. cbn [blocks_len].
  assert (Hdm : nlen (fg_slice (fg_data pl) i e) <= mtu) by lia.
  pose proof (payload_block_len pl _ mtu Hp Hdm).
  pose proof (eover_ge mtu i (b_blocks b)). pose proof (pay_est_in mtu (b_blocks b) pl Hin Hp). lia.
Qed.

(* the sort of ReassembleFragments is not stable; the pieces have distinct offsets *)
Definition boff (f : bundle) : N := p_off (b_pri f).

Lemma fg_sort_unique l pi : Permutation pi l -> StronglySorted (key_lt boff) l -> fg_sort pi = l.
Proof.
  intros HP Hl. apply (sorted_perm_unique boff); [|exact (sort_by_sorted boff pi)|exact Hl].
  eapply perm_trans; [exact (sort_by_perm boff pi)|exact HP].
Qed.

Lemma payload_last l pl :
  nodup_N (map c_type l) = true -> last (map c_type l) 0 = 1 -> find_type 1 l = Some pl ->
  l = filter (fun c => negb (fg_is_payload c)) l ++ [pl].
Proof.
  induction l as [|c l IH]; intros Hnd Hlast Hfind; [discriminate|].
  cbn [map nodup_N] in Hnd. apply andb_prop in Hnd. destruct Hnd as [Hc Hnd].
  unfold find_type in Hfind. cbn [find] in Hfind. cbn [filter]. unfold fg_is_payload at 1.
  destruct l as [|c' l].
  - cbn in Hlast. rewrite Hlast in *. cbn [N.eqb Pos.eqb negb] in *. injection Hfind as <-. reflexivity.
  - change (last (map c_type (c' :: l)) 0 = 1) in Hlast.
    destruct (N.eqb_spec (c_type c) 1) as [E|_]; [|cbn [negb app]; f_equal; apply IH; assumption].
    (* a payload block before the last block: its type occurs twice *)
    apply negb_true_iff in Hc. rewrite E, <- Hlast in Hc.
    assert (existsb (N.eqb (last (map c_type (c' :: l)) 0)) (map c_type (c' :: l)) = true); [|congruence].
    apply existsb_exists. eexists. split; [apply last_in; discriminate|apply N.eqb_refl].
Qed.

Lemma valid_structure now b pl :
  bundle_wf b = true -> check_valid now b = true -> find_type 1 (b_blocks b) = Some pl ->
  b_blocks b = ext_blocks b ++ [pl] /\ c_num pl = 1 /\ c_val pl = XPayload (fg_data pl)
  /\ In pl (b_blocks b) /\ fg_is_payload pl = true.
Proof.
  intros Hwf Hv Hf. destruct (check_valid_parts _ _ Hv) as (_ & Hcv & _ & _ & Hnd & Hlast & _).
  destruct (find_type_in _ _ _ Hf) as [Hin Hp]. assert (Hp' : fg_is_payload pl = true) by apply N.eqb_eq, Hp.
  apply bundle_wf_parts in Hwf. destruct Hwf as [_ Hbw]. rewrite forallb_forall in Hbw.
  repeat split; try assumption.
  - apply payload_last; assumption.
  - apply (cblock_valid_in _ _ Hcv Hin), Hp.
  - apply payload_val; [apply Hbw, Hin|exact Hp'].
Qed.

Lemma cblock_eta c : c = {| c_num := c_num c; c_flags := c_flags c; c_crc := c_crc c; c_val := c_val c |}.
Proof. destruct c; reflexivity. Qed.

Section ReasmPieces.
Variables (b : bundle) (pl : cblock).
Hypothesis Hnf : has (p_flags (b_pri b)) F_FRAG = false.
Let data := fg_data pl.
Let len := nlen data.
Notation mk := (mkfrag b pl).

Definition proj_of (j e : N) : rs_frag :=
  {| fr_off := j; fr_total := len; fr_data := fg_slice data j e; fr_isfrag := true; fr_blocks := [] |}.

Lemma proj_mkfrag j e : fg_proj (mk j e) = Some (proj_of j e).
Proof.
  unfold fg_proj, mkfrag. cbn [b_blocks b_pri]. rewrite find_type_keep.
  unfold proj_of, fg_primary. cbn [p_off p_total p_flags]. rewrite Hnf, set_frag_has. reflexivity.
Qed.

Lemma mkfrag_boff j e : boff (mk j e) = j.
Proof. unfold boff, mkfrag, fg_primary. cbn [b_pri p_off]. rewrite Hnf. reflexivity. Qed.

Lemma scan_proj i e s : i <= e -> e <= len -> rs_scan i (proj_of i e :: s) = rs_scan e s.
Proof.
  intros H1 H2. rewrite scan_cons. unfold rs_end. cbn [proj_of fr_isfrag fr_off fr_data negb].
  rewrite slice_len by lia. replace (i <? i) with false by lia. f_equal. lia.
Qed.

Lemma merge_proj i e acc s : i < e -> e <= len ->
  rs_merge i acc (proj_of i e :: s) = rs_merge e (acc ++ fg_slice data i e) s.
Proof.
  intros H1 H2. rewrite merge_cons by (cbn; lia). unfold rs_end. cbn [proj_of fr_off fr_data].
  rewrite slice_len, N.sub_diag, N.max_r by lia. replace (i + (e - i)) with e by lia. reflexivity.
Qed.

Lemma pieces_merge i fs : fg_pieces b pl i fs -> i < len ->
  exists q ps, fg_projs fs = Some (q :: ps) /\ fr_total q = len /\ rs_scan i (q :: ps) = inr len
    /\ forall acc, rs_merge i acc (q :: ps) = Some (acc ++ skipn (N.to_nat i) data).
Proof.
  induction 1 as [i | i i' fs Hlt Hlen _ IH]; intros Hi; [|change (i' < len) in Hlen].
  - exists (proj_of i len), []. cbn [fg_projs]. rewrite proj_mkfrag, scan_proj by lia.
    repeat split. intros acc. rewrite merge_proj, slice_to_end by lia. reflexivity.
  - destruct (IH Hlen) as (q & ps & Hps & Hq & Hscan & Hmerge).
    exists (proj_of i i'), (q :: ps). cbn [fg_projs]. rewrite proj_mkfrag, Hps, scan_proj by lia.
    repeat split; [exact Hscan|]. intros acc.
    rewrite merge_proj, Hmerge, <- app_assoc, <- slice_split by lia. reflexivity.
Qed.

Lemma pieces_strict i fs : fg_pieces b pl i fs -> StronglySorted (key_lt boff) fs.
Proof.
  induction 1 as [i | i i' fs Hlt _ Hfs IH]; [repeat constructor|]. constructor; [exact IH|].
  eapply pieces_forall_from; [|exact Hfs]. intros j e Hj. unfold key_lt. rewrite !mkfrag_boff. lia.
Qed.

Lemma reassembled_eq now e0 d :
  bundle_wf b = true -> check_valid now b = true -> find_type 1 (b_blocks b) = Some pl ->
  fg_reassembled (mk 0 e0) (fg_payload_block pl d) data = b.
Proof.
  intros Hwf Hv Hf. destruct (valid_structure _ _ _ Hwf Hv Hf) as (Hbl & Hnum & Hval & _ & _).
  apply bundle_wf_parts in Hwf. destruct Hwf as [Hpw _].
  unfold primary_wf in Hpw. rewrite Hnf in Hpw. cbn [orb] in Hpw. split_andb.
  unfold fg_reassembled, mkfrag. cbn [b_pri b_blocks]. unfold fg_primary.
  cbn [p_flags p_crc p_dst p_src p_rpt p_time p_seq p_life p_off p_total].
  rewrite clear_set_frag by exact Hnf.
  destruct b as [p bl]. cbn [b_pri b_blocks] in *. f_equal.
  - (* a well-formed primary block without the fragment flag has offset and total 0 *)
    destruct p. cbn in *. f_equal; lia.
  - rewrite filter_app. cbn [filter fg_is_payload fg_payload_block c_type c_val ext_type N.eqb Pos.eqb negb]. rewrite app_nil_r.
    rewrite keep_first, filter_idem. rewrite Hbl at 2. unfold ext_blocks. cbn [b_blocks]. f_equal.
    unfold fg_payload_block. cbn [c_flags c_crc]. f_equal.
    symmetry. etransitivity; [apply cblock_eta|]. rewrite Hnum, Hval. reflexivity.
Qed.

Lemma reassemble_pieces now fs pi :
  bundle_wf b = true -> check_valid now b = true -> find_type 1 (b_blocks b) = Some pl ->
  fg_pieces b pl 0 fs -> 0 < len -> Permutation pi fs -> fg_reassemble now pi = ROk b.
Proof.
  intros Hwf Hv Hf Hp Hlen HP.
  unfold fg_reassemble. rewrite (fg_sort_unique fs pi HP (pieces_strict _ _ Hp)).
  destruct (pieces_merge _ _ Hp Hlen) as (q & ps & -> & Hq & Hscan & Hmerge).
  unfold rs_prepare_sorted. rewrite Hscan, Hq, N.eqb_refl, Hmerge.
  assert (Hhead : exists e0 rest, fs = mk 0 e0 :: rest) by (inversion Hp; eauto).
  destruct Hhead as (e0 & rest & ->). unfold mkfrag at 1. cbn [b_blocks]. rewrite find_type_keep.
  rewrite (reassembled_eq now) by assumption. rewrite Hv. reflexivity.
Qed.
End ReasmPieces.

Lemma primary_len_le p len : primary_wf p = true ->
  primary_len p <= primary_len (fg_primary p 0 len).
Proof.
  intros Hw. unfold primary_len, fg_primary.
  cbn [p_flags p_crc p_dst p_src p_rpt p_time p_seq p_life p_off p_total].
  rewrite set_frag_has. pose proof (hl_mono _ _ (set_frag_ge (p_flags p))).
  destruct (has (p_flags p) F_FRAG) eqn:E; [|lia].
  unfold primary_wf in Hw. split_andb.
  rewrite N.add_0_l, N.mod_small by (unfold u64_ok, fg_u64 in *; lia). lia.
Qed.

Lemma whole_le now b pl : bundle_wf b = true -> check_valid now b = true -> find_type 1 (b_blocks b) = Some pl ->
  bundle_len b <= bundle_len (mkfrag b pl 0 (nlen (fg_data pl))).
Proof.
  intros Hwf Hv Hf. destruct (valid_structure _ _ _ Hwf Hv Hf) as (Hbl & Hnum & Hval & _ & _).
  apply bundle_wf_parts in Hwf. destruct Hwf as [Hpw _].
  unfold bundle_len, mkfrag. cbn [b_pri b_blocks].
  pose proof (primary_len_le (b_pri b) (nlen (fg_data pl)) Hpw).
  rewrite Hbl at 1. rewrite keep_first. fold (ext_blocks b). rewrite !blocks_len_app. cbn [blocks_len].
  assert (fg_payload_block pl (fg_slice (fg_data pl) 0 (nlen (fg_data pl))) = pl) as ->.
  { rewrite slice_to_end. cbn [N.to_nat skipn]. unfold fg_payload_block. rewrite <- Hval. symmetry. apply cblock_eta. }
  lia.
Qed.

Lemma fg_fragment_pieces now b mtu fs :
  bundle_wf b = true -> check_valid now b = true -> fg_fragment now b mtu = FOk fs ->
  (fs = [b] /\ nlen (bundle_bytes b) <= mtu)
  \/ exists pl, find_type 1 (b_blocks b) = Some pl /\ 0 < nlen (fg_data pl) /\ (2 <= length fs)%nat
       /\ fg_pieces b pl 0 fs /\ Forall (fragment_ok now mtu b pl) fs.
Proof.
  intros Hwf Hv. unfold fg_fragment.
  destruct (has (p_flags (b_pri b)) F_NOFRAG); [discriminate|].
  rewrite enc_bundle_ok by exact Hwf.
  destruct (N.leb_spec (nlen (bundle_bytes b)) mtu) as [Hfit|_].
  { intros H. injection H as <-. left. split; [reflexivity|exact Hfit]. }
  destruct (find_type 1 (b_blocks b)) as [pl|] eqn:Hf; [|discriminate].
  rewrite fg_ext_len_spec by apply bundle_wf_parts, Hwf. rewrite !N.add_0_l.
  destruct (valid_structure _ _ _ Hwf Hv Hf) as (_ & _ & _ & Hin & Hp).
  pose proof (fg_loop_spec now mtu b pl _ _ _ (S (length (fg_data pl)))
                (fun j f j' => fg_step_ok now mtu b pl j f j' Hwf Hin Hp) 0 (or_introl eq_refl)) as Hloop.
  destruct (fg_loop _ now mtu b pl _ _ 0) as [| |fs']; try discriminate.
  destruct Hloop as [Hpieces Hall]; [unfold nlen; lia|].
  inversion Hpieces as [|? i' fs'' Hlt Hlen Hrest]; subst; intros H.
  - (* a single fragment: the bundle itself is returned - it is not longer than that fragment *)
    injection H as <-. left. split; [reflexivity|].
    inversion Hall as [|? ? (Hsz & Hfw & _) _]; subst.
    rewrite bundle_bytes_len in * by assumption. pose proof (whole_le _ _ _ Hwf Hv Hf). lia.
  - pose proof (pieces_length _ _ _ _ Hrest) as Hn. destruct fs'' as [|f2 rest]; [cbn in Hn; lia|].
    injection H as <-. right. exists pl.
    split; [reflexivity|]. split; [lia|]. split; [cbn [length]; lia|]. split; assumption.
Qed.

Theorem fragment_sound now b mtu fs :
  bundle_wf b = true -> check_valid now b = true ->
  fg_fragment now b mtu = FOk fs ->
  (fs = [b] /\ nlen (bundle_bytes b) <= mtu)
  \/ exists pl, find_type 1 (b_blocks b) = Some pl /\ c_val pl = XPayload (fg_data pl)
       /\ (2 <= length fs)%nat
       /\ Forall (fragment_ok now mtu b pl) fs
       /\ (fg_base b + nlen (fg_data pl) <= fg_u64 -> fg_partition (fg_base b) (fg_data pl) fs)
       /\ fg_placed b pl fs.
Proof.
  intros Hwf Hv H.
  destruct (fg_fragment_pieces _ _ _ _ Hwf Hv H) as [Hfit | (pl & Hf & Hlen & Hfs & Hpieces & Hall)]; [left; exact Hfit|].
  destruct (valid_structure _ _ _ Hwf Hv Hf) as (_ & _ & Hval & _ & _).
  right. exists pl. repeat (split; [assumption|]). split; [|apply pieces_placed, Hpieces].
  intros Hr. pose proof (pieces_partition _ _ _ _ Hpieces Hlen Hr) as Hpart.
  cbn [N.to_nat skipn] in Hpart. rewrite N.add_0_r in Hpart. exact Hpart.
Qed.

Theorem fragment_invertible now b mtu fs :
  bundle_wf b = true -> check_valid now b = true -> has (p_flags (b_pri b)) F_FRAG = false ->
  fg_fragment now b mtu = FOk fs ->
  fs = [b] \/ forall pi, Permutation pi fs -> fg_reassemble now pi = ROk b.
Proof.
  intros Hwf Hv Hnf H.
  destruct (fg_fragment_pieces _ _ _ _ Hwf Hv H) as [[-> _] | (pl & Hf & Hlen & _ & Hpieces & _)]; [left; reflexivity|right].
  intros pi HP. eapply reassemble_pieces; eassumption.
Qed.
