(* BundleStreamProofs.v - good bundles (range-well-formed and valid) on a byte stream: their bytes parse back
   wherever they stand, the encoding is injective and prefix-free on them (Properties/C01_stream.v; the MTCP and
   TCPCL compositions rest on the same two facts). *)
From DTN Require Import Base Cbor Crc Eid Bundle BundleStream BundleWf BundleProofs.
Open Scope N_scope.

Definition good (now : N) (b : bundle) : Prop := bundle_wf b = true /\ check_valid now b = true.

Lemma bundle_bytes_ne b : bundle_bytes b <> [].
Proof. unfold bundle_bytes. discriminate. Qed.

Lemma dec_good now b r : good now b -> dec_bundle now (bundle_bytes b ++ r) = Some (b, r).
Proof. intros [Hwf Hv]. exact (dec_bundle_enc now b r Hwf Hv). Qed.

Lemma dec_good_nil now b : good now b -> dec_bundle now (bundle_bytes b) = Some (b, []).
Proof. intros [Hwf Hv]. exact (dec_bundle_enc_nil now b Hwf Hv). Qed.

Lemma dec_bundles_enc : forall now l tail, Forall (good now) l ->
  dec_bundles now (length l) (concat (map bundle_bytes l) ++ tail) = Some (l, tail).
Proof.
  intros now l tail H. induction H as [|b l Hb _ IH]; [reflexivity|].
  cbn [length map concat dec_bundles]. rewrite <- app_assoc, (dec_good now b _ Hb), IH. reflexivity.
Qed.

Lemma enc_prefix_free : forall now b1 b2 bs1 bs2 ext, good now b1 -> good now b2 ->
  enc_bundle b1 = Some bs1 -> enc_bundle b2 = Some bs2 -> bs2 = bs1 ++ ext -> ext = [] /\ b1 = b2.
Proof.
  intros now b1 b2 bs1 bs2 ext G1 G2 E1 E2 Hp.
  rewrite (enc_bundle_ok b1 (proj1 G1)) in E1. rewrite (enc_bundle_ok b2 (proj1 G2)) in E2.
  injection E1 as <-. injection E2 as <-.
  pose proof (dec_good now b1 ext G1) as D. rewrite <- Hp, (dec_good_nil now b2 G2) in D.
  injection D as -> ->. split; reflexivity.
Qed.
