(* ValidProofs.v - CheckValid (the executable rule set the parser applies last) implies the
   declarative BPv7 well-formedness rules of property C02; what the parser accepts has passed it. *)
From DTN Require Import Base Cbor Crc Eid EidProofs Bundle BundleWf.
From Coq Require Import ZifyN ZifyNat ZifyBool.
Open Scope N_scope.

Record WellFormed (now : N) (b : bundle) : Prop := {
  wf_payload_last :
    exists pre pl, b_blocks b = pre ++ [pl] /\ c_type pl = 1 /\ c_num pl = 1
                   /\ (forall c, In c pre -> c_type c <> 1);
  wf_numbers_unique : NoDup (map c_num (b_blocks b));
  wf_one_block_per_type : NoDup (map c_type (b_blocks b));
  wf_eids_valid :
    eid_valid (p_dst (b_pri b)) = true /\ eid_valid (p_src (b_pri b)) = true /\ eid_valid (p_rpt (b_pri b)) = true
    /\ (forall c e, In c (b_blocks b) -> c_val c = XPrev e -> eid_valid e = true);
  wf_no_fragment_contradiction :
    ~ (has (p_flags (b_pri b)) F_FRAG = true /\ has (p_flags (b_pri b)) F_NOFRAG = true);
  wf_admin_no_requests :
    has (p_flags (b_pri b)) F_ADMIN = true \/ p_src (b_pri b) = DtnNone ->
    any_status_request (p_flags (b_pri b)) = false
    /\ (forall c, In c (b_blocks b) -> has (c_flags c) BF_REPORT = false);
  wf_anonymous_not_fragmentable :
    p_src (b_pri b) = DtnNone -> has (p_flags (b_pri b)) F_NOFRAG = true;
  wf_zero_time_has_age :
    p_time (b_pri b) = 0 -> exists c age, In c (b_blocks b) /\ c_val c = XAge age /\ age <= p_life (b_pri b);
  wf_hop_count :
    forall c l k, In c (b_blocks b) -> c_val c = XHop l k -> k <= l;
  wf_lifetime :
    p_time (b_pri b) <> 0 -> now <= p_time (b_pri b) + p_life (b_pri b)
}.

Lemma nodup_N_NoDup l : nodup_N l = true -> NoDup l.
Proof.
  induction l as [|x l IH]; cbn [nodup_N]; intros H; [constructor|].
  apply andb_prop in H. destruct H as [H1 H2]. constructor; [|apply IH, H2].
  intros Hin. apply negb_true_iff in H1. assert (existsb (N.eqb x) l = true); [|congruence].
  apply existsb_exists. exists x. split; [exact Hin|apply N.eqb_refl].
Qed.

Lemma last_map_split (l : list cblock) :
  last (map c_type l) 0 = 1 -> exists pre pl, l = pre ++ [pl] /\ c_type pl = 1.
Proof.
  intros H. destruct l as [|c l] using rev_ind; [cbn in H; discriminate|].
  exists l, c. split; [reflexivity|]. rewrite map_app in H. cbn [map] in H. rewrite last_last in H. exact H.
Qed.

Lemma deadline_le p : (deadline_ns p <= (Z.of_N (p_time p) + ms1970to2k + Z.of_N (p_life p)) * 1000000)%Z.
Proof. unfold deadline_ns, ms1970to2k, wrap64s. lia. Qed.

Lemma find_type_in t l c : find_type t l = Some c -> In c l /\ c_type c = t.
Proof.
  unfold find_type. intros H. apply find_some in H. destruct H as [H1 H2]. split; [exact H1|]. apply N.eqb_eq, H2.
Qed.

Lemma cblock_valid_in bl c : forallb cblock_valid bl = true -> In c bl ->
  ext_valid (c_val c) = true /\ (c_type c = 1 -> c_num c = 1).
Proof.
  intros H Hc. rewrite forallb_forall in H. specialize (H c Hc). unfold cblock_valid in H.
  apply andb_prop in H as [Hv Hn]. split; [exact Hv|]. intros Ht. rewrite Ht in Hn. apply N.eqb_eq, Hn.
Qed.

(* the conjuncts of CheckValid, the two matches turned into what they test; "the block list is not empty"
   is left out: the last type code being 1 (default 0) says more *)
Lemma check_valid_parts now b : check_valid now b = true ->
  primary_valid (b_pri b) = true /\ forallb cblock_valid (b_blocks b) = true
  /\ negb (has (p_flags (b_pri b)) F_ADMIN || eid_eqb (p_src (b_pri b)) DtnNone)
     || forallb (fun c => negb (has (c_flags c) BF_REPORT)) (b_blocks b) = true
  /\ nodup_N (map c_num (b_blocks b)) = true /\ nodup_N (map c_type (b_blocks b)) = true
  /\ last (map c_type (b_blocks b)) 0 = 1
  /\ (p_time (b_pri b) = 0 -> exists c, find_type 7 (b_blocks b) = Some c)
  /\ lifetime_exceeded now b = false.
Proof.
  unfold check_valid. intros H.
  apply andb_prop in H as [H Hlife]. apply andb_prop in H as [H Hage]. apply andb_prop in H as [H Hlast].
  apply andb_prop in H as [H Htyp]. apply andb_prop in H as [H Hnum]. apply andb_prop in H as [H Hrep].
  apply andb_prop in H as [H _]. apply andb_prop in H as [Hp Hcb].
  repeat split; try assumption.
  - destruct (last (map c_type (b_blocks b)) 0) as [|[ | |]]; try discriminate; reflexivity.
  - intros Hz. rewrite Hz in Hage. destruct (find_type 7 (b_blocks b)) as [c|]; [exists c; reflexivity|discriminate].
  - apply negb_true_iff, Hlife.
Qed.

Theorem check_valid_sound now b : check_valid now b = true -> WellFormed now b.
Proof.
  intros H. apply check_valid_parts in H as (Hp & Hcb & Hrep & Hnum & Htyp & Hlast & _ & Hlife).
  unfold primary_valid in Hp.
  apply andb_prop in Hp as [Hp Hanon]. apply andb_prop in Hp as [Hp Hrpt]. apply andb_prop in Hp as [Hp Hsrc].
  apply andb_prop in Hp as [Hp Hdst]. apply andb_prop in Hp as [Hfrag Hadm].
  apply nodup_N_NoDup in Hnum, Htyp. apply last_map_split in Hlast as (pre & pl & Hbl & Hplt).
  constructor.
  - exists pre, pl. split; [exact Hbl|]. split; [exact Hplt|]. split.
    + apply (cblock_valid_in _ _ Hcb); [|exact Hplt]. rewrite Hbl. apply in_or_app. right. left. reflexivity.
    + intros c Hc Hct. rewrite Hbl, map_app in Htyp. cbn [map] in Htyp.
      apply NoDup_remove_2 in Htyp. apply Htyp. rewrite app_nil_r, Hplt, <- Hct. apply in_map, Hc.
  - exact Hnum.
  - exact Htyp.
  - repeat split; try assumption. intros c e Hc Hv. apply (cblock_valid_in _ _ Hcb) in Hc as [Hc _]. rewrite Hv in Hc. exact Hc.
  - intros [Ha Hb']. rewrite Ha, Hb' in Hfrag. discriminate.
  - intros Hor.
    assert (Hcond : has (p_flags (b_pri b)) F_ADMIN || eid_eqb (p_src (b_pri b)) DtnNone = true).
    { destruct Hor as [Ha | Hs]; [rewrite Ha; reflexivity|rewrite Hs; cbn; apply orb_true_r]. }
    rewrite Hcond in Hrep. cbn [negb orb] in Hrep. rewrite forallb_forall in Hrep. split.
    + destruct Hor as [Ha | Hs].
      * rewrite Ha in Hadm. cbn [negb orb] in Hadm. apply negb_true_iff, Hadm.
      * rewrite Hs in Hanon. cbn [eid_eqb negb orb] in Hanon. apply andb_prop in Hanon as [_ Hx]. apply negb_true_iff, Hx.
    + intros c Hc. apply negb_true_iff, Hrep, Hc.
  - intros Hs. rewrite Hs in Hanon. cbn [eid_eqb negb orb] in Hanon. apply andb_prop in Hanon as [Hx _]. exact Hx.
  - (* no clock: the lifetime test itself looks for the age block *)
    intros Hz. unfold lifetime_exceeded in Hlife. rewrite Hz in Hlife. cbn [N.eqb] in Hlife.
    destruct (find_type 7 (b_blocks b)) as [c|] eqn:Ef; [|discriminate].
    apply find_type_in in Ef as [Hin _]. destruct c as [cn cf cc []]; try discriminate.
    eexists _, n. split; [exact Hin|]. split; [reflexivity|]. clear - Hlife. lia.
  - intros c l k Hc Hv. apply (cblock_valid_in _ _ Hcb) in Hc as [Hc _]. rewrite Hv in Hc. cbn [ext_valid] in Hc. clear - Hc. lia.
  - intros Hnz. unfold lifetime_exceeded in Hlife. replace (p_time (b_pri b) =? 0) with false in Hlife by (clear - Hnz; lia).
    pose proof (deadline_le (b_pri b)) as Hd. unfold ms1970to2k in *. clear - Hlife Hd Hnz. lia.
Qed.

Lemma dec_bundle_inv now bs b rest : dec_bundle now bs = Some (b, rest) ->
  exists r1, dec_primary (tl bs) = Ok (b_pri b) r1 /\ dec_blocks (S (length r1)) r1 [] = Some (b_blocks b, rest)
             /\ check_valid now b = true.
Proof.
  unfold dec_bundle. intros H. destruct (starts_with 159 bs); [|discriminate].
  destruct (dec_primary (tl bs)) as [p r1| |] eqn:Ep; cbn [nobrk] in H; try discriminate.
  destruct (dec_blocks (S (length r1)) r1 []) as [[bl rest']|] eqn:Ebl; [|discriminate].
  destruct (check_valid now {| b_pri := p; b_blocks := bl |}) eqn:Ev; [|discriminate].
  injection H as <- <-. exists r1. auto.
Qed.

Lemma dec_bundle_valid now bs b r : dec_bundle now bs = Some (b, r) -> check_valid now b = true.
Proof. intros H. apply dec_bundle_inv in H as (r1 & _ & _ & Hv). exact Hv. Qed.
