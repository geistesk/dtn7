(* EidProofs.v - endpoint IDs: CBOR round trip with exact consumption; the scheme-specific part of a
   dtn: URI is printed and parsed back (the URI text as a whole: EidUriProofs.v). *)
From DTN Require Import Base ListFacts Cbor CborProofs Eid.
From Coq Require Import ZifyN ZifyNat ZifyBool.
Open Scope N_scope.

Lemma eid_eqb_refl e : eid_eqb e e = true.
Proof. destruct e; cbn; rewrite ?bytes_eqb_refl, ?N.eqb_refl; reflexivity. Qed.

Lemma eid_eqb_eq a b : eid_eqb a b = true -> a = b.
Proof.
  destruct a, b; cbn; intros H; try discriminate; try reflexivity.
  - apply andb_prop in H. destruct H as [H1 H2]. apply bytes_eqb_eq in H1, H2. congruence.
  - apply andb_prop in H. destruct H as [H1 H2]. apply N.eqb_eq in H1, H2. congruence.
Qed.

Lemma span_node_app node rest :
  forallb is_node_char node = true ->
  (match rest with [] => true | c :: _ => negb (is_node_char c) end) = true ->
  span_node (node ++ rest) = (node, rest).
Proof.
  intros Hn Hr. induction node as [|c node IH]; cbn [app].
  - destruct rest as [|c rest]; [reflexivity|]. cbn [span_node]. apply negb_true_iff in Hr. rewrite Hr. reflexivity.
  - cbn [forallb] in Hn. apply andb_prop in Hn. destruct Hn as [Hc Hn]. cbn [span_node]. rewrite Hc, (IH Hn). reflexivity.
Qed.

Lemma parse_ssp_ssp node demux :
  eid_valid (Dtn node demux) = true -> parse_ssp (ssp_bytes node demux) = Some (node, demux).
Proof.
  unfold eid_valid. intros H. apply andb_prop in H. destruct H as [H Hd]. apply andb_prop in H. destruct H as [Hne Hc].
  unfold ssp_bytes, parse_ssp. rewrite span_node_app; [|exact Hc|reflexivity].
  destruct node as [|c node]; [discriminate|]. rewrite Hd. reflexivity.
Qed.

Lemma span_node_inv s : forall a b, span_node s = (a, b) -> s = a ++ b /\ forallb is_node_char a = true.
Proof.
  induction s as [|c s IH]; intros a b H; cbn [span_node] in H.
  - inversion H; subst. split; reflexivity.
  - destruct (is_node_char c) eqn:Ec.
    + destruct (span_node s) as [a' b'] eqn:Es. inversion H; subst. destruct (IH a' b eq_refl) as [-> Ha].
      split; [reflexivity|]. cbn [forallb]. rewrite Ec, Ha. reflexivity.
    + inversion H; subst. split; reflexivity.
Qed.

(* a match on the literal 47 is a tree of matches on the bits of c *)
Lemma match_slash {A} (c : N) (x y : A) : match c with 47 => x | _ => y end = if c =? 47 then x else y.
Proof. destruct c as [|p]; [reflexivity|]. repeat (destruct p as [p|p|]; try reflexivity). Qed.

Lemma parse_ssp_inv s node demux : parse_ssp s = Some (node, demux) ->
  s = ssp_bytes node demux /\ eid_valid (Dtn node demux) = true.
Proof.
  unfold parse_ssp. destruct s as [|c1 [|c2 s]]; try discriminate.
  - rewrite match_slash. destruct (c1 =? 47); discriminate.
  - rewrite !match_slash.
    destruct (c1 =? 47) eqn:E1; [|discriminate]. destruct (c2 =? 47) eqn:E2; [|discriminate].
    destruct (span_node s) as [nd r'] eqn:Es. apply span_node_inv in Es as [-> Hch].
    destruct nd as [|n0 nd]; [discriminate|]. destruct r' as [|c3 dm]; [discriminate|].
    rewrite match_slash. destruct (c3 =? 47) eqn:E3; [|discriminate].
    destruct (no_newline dm) eqn:En; [|discriminate]. intros H. inversion H; subst.
    apply N.eqb_eq in E1, E2, E3. subst. split; [reflexivity|]. unfold eid_valid. rewrite Hch, En. reflexivity.
Qed.

Lemma ssp_not_none node demux : bytes_eqb (ssp_bytes node demux) str_none = false.
Proof. reflexivity. Qed.

Lemma len_ok_ssp node demux : eid_wf (Dtn node demux) = true -> len_ok (ssp_bytes node demux) = true.
Proof.
  unfold eid_wf, len_ok, ssp_bytes, nlen. intros H. apply andb_prop in H. destruct H as [_ H].
  cbn [length]. rewrite app_length. cbn [length]. unfold max_raw in *. lia.
Qed.

Lemma enc_eid_some e bs : enc_eid e = Some bs -> eid_valid e = true /\ bs = enc_eid_body e.
Proof.
  unfold enc_eid. destruct (eid_valid e); [|discriminate]. intros H. split; [reflexivity|]. congruence.
Qed.

Theorem dec_eid_enc e bs r :
  eid_wf e = true -> enc_eid e = Some bs -> dec_eid (bs ++ r) = Ok e r.
Proof.
  intros Hwf Henc. apply enc_eid_some in Henc. destruct Henc as [Hv ->].
  (* all three forms start with the array head and the scheme number *)
  unfold dec_eid. destruct e as [|node demux|n s]; cbn [enc_eid_body]; rewrite <- !app_assoc;
    rewrite read_arr_enc by reflexivity; cbn [bind]; rewrite read_uint_enc by reflexivity; cbn [bind N.eqb Pos.eqb negb].
  - unfold enc_uint. rewrite read_head_head; [|left; reflexivity|lia]. reflexivity.
  - unfold enc_tstr. rewrite <- app_assoc.
    pose proof (len_ok_ssp node demux Hwf) as Hl.
    rewrite read_head_head; [|unfold major_ok; tauto|apply len_ok_lt, Hl].
    cbn [bind]. change (mText =? mUInt) with false. change (mText =? mText) with true. cbv iota.
    rewrite read_raw_app by exact Hl. cbn [bind].
    rewrite ssp_not_none, parse_ssp_ssp by exact Hv. reflexivity.
  - unfold eid_wf in Hwf. apply andb_prop in Hwf. destruct Hwf as [Hn Hs].
    rewrite read_arr_enc by reflexivity. cbn [bind N.eqb Pos.eqb negb].
    rewrite read_uint_enc by exact Hn. cbn [bind]. rewrite read_uint_enc by exact Hs. reflexivity.
Qed.

Lemma enc_eid_body_nonempty e : (1 <= length (enc_eid_body e))%nat.
Proof. destruct e; cbn [enc_eid_body]; rewrite !app_length; cbn; lia. Qed.
