(* AuxCborProofs.v - the CBOR-based auxiliary formats of AuxCbor.v: every format decodes from its own
   encoding to the same value, consuming exactly the encoding (so concatenated messages stay aligned);
   invalid code / layout fields are rejected; no decoder panics and the wire-sized allocations stay
   within alloc_k * (bytes of the input) + alloc_c0; the fuel of the item loops is never what stops
   them; the code as found (fixed = false) fails on both counts, on the inputs at the end. *)
From DTN Require Import Base ListFacts Cbor CborProofs Eid Bundle BundleWf BundleProofs AuxCbor.
From Coq Require Import ZifyBool.
Open Scope N_scope.

Lemma to_res_addc {A} c (y : ares A) : to_res (addc c y) = to_res y.
Proof. destruct y; reflexivity. Qed.

Lemma to_res_abind_ok {A B} (x : ares A) (f : A -> list N -> ares B) a r :
  to_res x = Ok a r -> to_res (abind x f) = to_res (f a r).
Proof. destruct x; cbn [to_res abind]; intros [= -> ->]. apply to_res_addc. Qed.

Lemma lift_ok {A} (x : res A) c a r : x = Ok a r -> to_res (a_lift x c) = Ok a r.
Proof. intros ->. reflexivity. Qed.

Lemma abind_uint {B} n r (f : N -> list N -> ares B) : u64_ok n = true ->
  to_res (abind (a_read_uint (enc_uint n ++ r)) f) = to_res (f n r).
Proof. intros H. apply to_res_abind_ok, lift_ok, read_uint_enc, H. Qed.
Lemma abind_arr {B} n r (f : N -> list N -> ares B) : u64_ok n = true ->
  to_res (abind (a_read_arr (enc_arr n ++ r)) f) = to_res (f n r).
Proof. intros H. apply to_res_abind_ok, lift_ok, read_arr_enc, H. Qed.
Lemma abind_bool {B} b r (f : bool -> list N -> ares B) :
  to_res (abind (a_read_bool (enc_bool b ++ r)) f) = to_res (f b r).
Proof. apply to_res_abind_ok, lift_ok, read_bool_enc. Qed.
Lemma abind_tstr {B} d r (f : list N -> list N -> ares B) : len_ok d = true ->
  to_res (abind (a_read_tstr (enc_tstr d ++ r)) f) = to_res (f d r).
Proof. intros H. apply to_res_abind_ok, lift_ok, read_tstr_enc, H. Qed.
Lemma abind_bstr {B} d r (f : list N -> list N -> ares B) : len_ok d = true ->
  to_res (abind (a_read_bstr (enc_bstr d ++ r)) f) = to_res (f d r).
Proof. intros H. apply to_res_abind_ok, lift_ok, read_bstr_enc, H. Qed.
(* ax_eid_ok is BundleWf.eid_ok written out again: the lemmas about eid_ok apply as they are *)
Lemma abind_eid {B} e r (f : eid -> list N -> ares B) : ax_eid_ok e = true ->
  to_res (abind (a_dec_eid (enc_eid_body e ++ r)) f) = to_res (f e r).
Proof. intros H. apply to_res_abind_ok, lift_ok, dec_eid_body, H. Qed.

Tactic Notation "rstep" uconstr(L) := rewrite L by (assumption || reflexivity); cbn beta.

Lemma dec_cts_enc t s r : u64_ok t = true -> u64_ok s = true -> dec_cts (enc_cts t s ++ r) = Ok (t, s) r.
Proof.
  intros Ht Hs. unfold dec_cts, adec_cts, enc_cts. rewrite <- !app_assoc.
  rstep abind_arr. tcred. rstep abind_uint. rstep abind_uint. reflexivity.
Qed.

Definition bid_bytes (b : bid) : list N :=
  enc_eid_body (bid_src b) ++ enc_cts (bid_time b) (bid_seq b)
  ++ (if bid_frag b then enc_uint (bid_off b) ++ enc_uint (bid_total b) else []).

Lemma bid_wf_parts b : bid_wf b = true ->
  ax_eid_ok (bid_src b) = true /\ u64_ok (bid_time b) = true /\ u64_ok (bid_seq b) = true /\
  u64_ok (bid_off b) = true /\ u64_ok (bid_total b) = true /\
  (bid_frag b = false -> bid_off b = 0 /\ bid_total b = 0).
Proof. unfold bid_wf. rewrite !andb_true_iff, orb_true_iff, andb_true_iff, !N.eqb_eq. intuition congruence. Qed.

Lemma enc_bid_ok b : bid_wf b = true -> enc_bid b = Some (bid_bytes b).
Proof.
  intros H. apply bid_wf_parts in H. destruct H as [He _]. unfold enc_bid. rewrite (enc_eid_ok _ He). reflexivity.
Qed.

Lemma dec_bid_enc b r : bid_wf b = true -> dec_bid (bid_frag b) (bid_bytes b ++ r) = Ok b r.
Proof.
  intros H. apply bid_wf_parts in H. destruct H as (He & Ht & Hs & Ho & Htot & Hnf).
  unfold dec_bid, adec_bid, bid_bytes. rewrite <- !app_assoc.
  rstep abind_eid. erewrite to_res_abind_ok by (apply dec_cts_enc; assumption). cbn [fst snd].
  destruct b as [src t s frag off tot]. cbn [bid_src bid_time bid_seq bid_frag bid_off bid_total] in *.
  destruct frag.
  - rewrite <- !app_assoc. rstep abind_uint. rstep abind_uint. reflexivity.
  - destruct (Hnf eq_refl) as [-> ->]. reflexivity.
Qed.

Lemma dec_sitem_enc i r : sitem_wf i = true -> dec_sitem (enc_sitem i ++ r) = Ok i r.
Proof.
  unfold sitem_wf. intros H. split_andb.
  destruct i as [a t q]. cbn [si_asserted si_time si_req] in *.
  unfold dec_sitem, adec_sitem, enc_sitem. cbn [si_asserted si_time si_req].
  destruct q.
  - subst a. cbn [andb]. rewrite <- !app_assoc. rstep abind_arr. tcred. rstep abind_bool. tcred. rstep abind_uint. reflexivity.
  - rewrite andb_false_r. rewrite <- !app_assoc. rstep abind_arr. tcred. rstep abind_bool. tcred.
    assert (t = 0) as -> by lia. reflexivity.
Qed.

Lemma enc_sitem_nonempty i : (1 <= length (enc_sitem i))%nat.
Proof. unfold enc_sitem. destruct (si_asserted i && si_req i); rewrite !app_length; cbn; lia. Qed.

(* more fuel than bytes is what the decoders give the loop *)
Lemma arepeat_enc {A} (item : list N -> ares A) (enc : A -> list N) (wf : A -> bool) per :
  (forall x r, wf x = true -> to_res (item (enc x ++ r)) = Ok x r) -> (forall x, (1 <= length (enc x))%nat) ->
  forall xs fuel r, forallb wf xs = true -> (length (concat (map enc xs) ++ r) < fuel)%nat ->
  to_res (arepeat item per fuel (nlen xs) (concat (map enc xs) ++ r)) = Ok xs r.
Proof.
  intros Hitem Hne. induction xs as [|x xs IH]; intros fuel r Hwf Hfuel.
  - destruct fuel; reflexivity.
  - cbn [forallb] in Hwf. apply andb_prop in Hwf. destruct Hwf as [Hx Hxs].
    cbn [map concat] in *. rewrite <- app_assoc in *. rewrite app_length in Hfuel. specialize (Hne x).
    destruct fuel as [|fuel]; [lia|].
    cbn [arepeat]. rewrite nlen_nonempty, nlen_cons_pred by discriminate.
    erewrite to_res_abind_ok by apply Hitem, Hx.
    erewrite to_res_abind_ok by (rewrite to_res_addc; apply IH; [exact Hxs|lia]).
    reflexivity.
Qed.

Definition sreport_bytes (s : sreport) : list N :=
  enc_arr (if bid_frag (sr_ref s) then 6 else 4)
  ++ enc_arr (nlen (sr_items s)) ++ concat (map enc_sitem (sr_items s))
  ++ enc_uint (sr_reason s) ++ bid_bytes (sr_ref s).

Definition sreport_wf_but_reason (s : sreport) : bool :=
  forallb sitem_wf (sr_items s) && u64_ok (nlen (sr_items s)) && u64_ok (sr_reason s) && bid_wf (sr_ref s).

Lemma sreport_wf_but s : sreport_wf s = true -> sreport_wf_but_reason s = true /\ sr_reason s <= max_reason.
Proof. unfold sreport_wf, sreport_wf_but_reason, u64_ok, max_reason. lia. Qed.

Lemma enc_sreport_ok s : sreport_wf_but_reason s = true -> enc_sreport s = Some (sreport_bytes s).
Proof.
  unfold sreport_wf_but_reason. intros H. split_andb. unfold enc_sreport. rewrite enc_bid_ok by assumption. reflexivity.
Qed.

(* on every otherwise well-formed report each of the twelve reason codes is accepted, and only those *)
Theorem dec_sreport_enc_reason s r : sreport_wf_but_reason s = true ->
  dec_sreport (sreport_bytes s ++ r) = if sr_reason s <=? max_reason then Ok s r else Err.
Proof.
  unfold sreport_wf_but_reason. intros H. split_andb.
  destruct s as [items reason ref]. cbn [sr_items sr_reason sr_ref] in *.
  unfold dec_sreport, adec_sreport, sreport_bytes. cbn [sr_items sr_reason sr_ref]. rewrite <- !app_assoc.
  rewrite abind_arr by (destruct (bid_frag ref); reflexivity). cbn beta.
  replace (negb (_ || _)) with false by (destruct (bid_frag ref); reflexivity).
  rstep abind_arr. erewrite to_res_abind_ok by reflexivity.
  erewrite to_res_abind_ok by (apply (arepeat_enc _ _ _ _ dec_sitem_enc enc_sitem_nonempty); [assumption|lia]).
  rstep abind_uint. cbn [andb]. rewrite N.ltb_antisym.
  destruct (reason <=? max_reason); [|reflexivity]. cbn [negb].
  replace (_ =? 6) with (bid_frag ref) by (destruct (bid_frag ref); reflexivity).
  erewrite to_res_abind_ok by (apply dec_bid_enc; assumption). reflexivity.
Qed.

Lemma dec_sreport_enc s r : sreport_wf s = true -> dec_sreport (sreport_bytes s ++ r) = Ok s r.
Proof.
  intros H. apply sreport_wf_but in H. destruct H as [Hb Hr].
  rewrite dec_sreport_enc_reason by exact Hb. replace (sr_reason s <=? max_reason) with true by lia. reflexivity.
Qed.

Definition admrec_bytes (a : admrec) : list N :=
  match a with ARStatus s => enc_arr 2 ++ enc_uint ar_type_status ++ sreport_bytes s end.

Lemma enc_admrec_ok a : admrec_wf a = true -> enc_admrec a = Some (admrec_bytes a).
Proof.
  destruct a as [s]. cbn [admrec_wf enc_admrec admrec_bytes]. intros H. apply sreport_wf_but in H. destruct H as [H _].
  rewrite enc_sreport_ok by exact H. reflexivity.
Qed.

Lemma dec_admrec_enc a r : admrec_wf a = true -> dec_admrec (admrec_bytes a ++ r) = Ok a r.
Proof.
  destruct a as [s]. cbn [admrec_wf admrec_bytes]. intros H. unfold dec_admrec, adec_admrec. rewrite <- !app_assoc.
  rstep abind_arr. tcred. rstep abind_uint. tcred.
  erewrite to_res_abind_ok by apply dec_sreport_enc, H. reflexivity.
Qed.

(* the round trip for the decoder with its account, as ReportProofs uses it *)
Definition yields {A} (x : ares A) (a : A) (r : list N) : Prop := exists c, x = AOk a r c.

Lemma yields_to_res {A} (x : ares A) a r : yields x a r -> to_res x = Ok a r.
Proof. intros [c ->]. reflexivity. Qed.
Lemma to_res_yields {A} (x : ares A) a r : to_res x = Ok a r -> yields x a r.
Proof. destruct x; cbn; intros H; inversion H; subst. eexists. reflexivity. Qed.

Lemma yields_admrec a r : admrec_wf a = true -> yields (adec_admrec true (admrec_bytes a ++ r)) a r.
Proof. intros H. apply to_res_yields, dec_admrec_enc, H. Qed.

Definition ann_bytes (a : ann) : list N :=
  enc_arr 3 ++ enc_uint (an_type a) ++ enc_eid_body (an_eid a) ++ enc_uint (an_port a).

Lemma enc_ann_ok a : ann_wf a = true -> enc_ann a = Some (ann_bytes a).
Proof. unfold ann_wf. intros H. split_andb. unfold enc_ann. rewrite enc_eid_ok by assumption. reflexivity. Qed.

Lemma dec_ann_enc a r : ann_wf a = true -> dec_ann (ann_bytes a ++ r) = Ok a r.
Proof.
  unfold ann_wf. intros H. split_andb.
  assert (Ht : u64_ok (an_type a) = true) by (unfold cla_type_ok, u64_ok in *; lia).
  destruct a as [t e p]. cbn [an_type an_eid an_port] in *.
  unfold dec_ann, adec_ann, ann_bytes. cbn [an_type an_eid an_port]. rewrite <- !app_assoc.
  rstep abind_arr. tcred. rstep abind_uint. rewrite H. cbn [negb]. rstep abind_eid. rstep abind_uint. reflexivity.
Qed.

Lemma ann_bytes_nonempty a : (1 <= length (ann_bytes a))%nat.
Proof. unfold ann_bytes. rewrite !app_length. cbn. lia. Qed.

Definition anns_bytes (l : list ann) : list N := enc_arr (nlen l) ++ concat (map ann_bytes l).

Lemma enc_ann_list_ok l : forallb ann_wf l = true -> enc_ann_list l = Some (concat (map ann_bytes l)).
Proof.
  induction l as [|a l IH]; cbn [forallb enc_ann_list map concat]; intros H; [reflexivity|].
  apply andb_prop in H. destruct H as [Ha Hl]. rewrite enc_ann_ok by exact Ha. cbn [obind]. rewrite IH by exact Hl. reflexivity.
Qed.
Lemma enc_anns_ok l : anns_wf l = true -> enc_anns l = Some (anns_bytes l).
Proof. unfold anns_wf. intros H. split_andb. unfold enc_anns. rewrite enc_ann_list_ok by assumption. reflexivity. Qed.

Lemma dec_anns_enc l r : anns_wf l = true -> dec_anns (anns_bytes l ++ r) = Ok l r.
Proof.
  unfold anns_wf. intros H. split_andb. unfold dec_anns, adec_anns, anns_bytes. rewrite <- !app_assoc.
  rstep abind_arr. erewrite to_res_abind_ok by reflexivity.
  apply (arepeat_enc _ _ _ _ dec_ann_enc ann_bytes_nonempty); [assumption|lia].
Qed.

Definition wam_body_bytes (w : wam) : list N :=
  match w with
  | WStatus m => enc_tstr m
  | WRegister e => enc_tstr e
  | WBundle b => bundle_bytes b
  | WSysReq q => enc_tstr q
  | WSysResp q p => enc_arr 2 ++ enc_tstr q ++ enc_bstr p
  end.
Definition wam_bytes (w : wam) : list N := enc_arr 2 ++ enc_uint (wam_code w) ++ wam_body_bytes w.

Definition bundle_ok (now : N) (b : bundle) : bool := bundle_wf b && check_valid now b.

Lemma enc_wam_ok now w : wam_wf (bundle_ok now) w = true -> enc_wam w = Some (wam_bytes w).
Proof.
  unfold enc_wam, wam_bytes. destruct w; cbn [wam_wf enc_wam_body wam_body_bytes obind]; intros H; try reflexivity.
  unfold bundle_ok in H. apply andb_prop in H. destruct H as [H _]. rewrite enc_bundle_ok by exact H. reflexivity.
Qed.

Lemma dec_wam_enc now w r : wam_wf (bundle_ok now) w = true -> dec_wam now (wam_bytes w ++ r) = Ok w r.
Proof.
  intros H. unfold dec_wam, adec_wam, wam_bytes. rewrite <- !app_assoc.
  destruct w as [m|e|b|q|q p]; cbn [wam_wf wam_code wam_body_bytes] in *; rstep abind_arr; tcred; rstep abind_uint; tcred.
  - rstep abind_tstr. reflexivity.
  - rstep abind_tstr. reflexivity.
  - unfold bundle_ok in H. apply andb_prop in H. destruct H as [Hw Hv].
    unfold a_dec_bundle. rewrite dec_bundle_enc by assumption. reflexivity.
  - rstep abind_tstr. reflexivity.
  - split_andb. rewrite <- !app_assoc. rstep abind_arr. tcred. rstep abind_tstr. rstep abind_bstr. reflexivity.
Qed.

Definition aux_bytes (x : aux) : list N :=
  match x with
  | XCts t s => enc_cts t s
  | XEid e => enc_eid_body e
  | XBid b => bid_bytes b
  | XSitem i => enc_sitem i
  | XSreport s => sreport_bytes s
  | XAdmrec a => admrec_bytes a
  | XAnn a => ann_bytes a
  | XAnns l => anns_bytes l
  | XWam w => wam_bytes w
  end.

Definition stream_bytes (xs : list aux) : list N := concat (map aux_bytes xs).

Lemma rmap_ok {A B} (f : A -> B) x a r : x = Ok a r -> rmap f x = Ok (f a) r.
Proof. intros ->. reflexivity. Qed.

Theorem aux_roundtrip now x r : aux_wf (bundle_ok now) x = true ->
  enc_aux x = Some (aux_bytes x) /\ dec_aux now (kind_of x) (aux_bytes x ++ r) = Ok x r.
Proof.
  intros H. destruct x as [t s|e|b|i|s|a|a|l|w]; cbn [aux_wf kind_of aux_bytes enc_aux dec_aux] in *.
  - apply andb_prop in H. destruct H as [Ht Hs].
    split; [reflexivity|apply (rmap_ok (fun ts => XCts (fst ts) (snd ts)) _ (t, s)), dec_cts_enc; assumption].
  - split; [apply enc_eid_ok, H|rewrite dec_eid_body by exact H; reflexivity].
  - split; [apply enc_bid_ok, H|apply (rmap_ok XBid), dec_bid_enc, H].
  - split; [reflexivity|apply (rmap_ok XSitem), dec_sitem_enc, H].
  - split; [apply enc_sreport_ok, sreport_wf_but, H|apply (rmap_ok XSreport), dec_sreport_enc, H].
  - split; [apply enc_admrec_ok, H|apply (rmap_ok XAdmrec), dec_admrec_enc, H].
  - split; [apply enc_ann_ok, H|apply (rmap_ok XAnn), dec_ann_enc, H].
  - split; [apply enc_anns_ok, H|apply (rmap_ok XAnns), dec_anns_enc, H].
  - split; [apply (enc_wam_ok now), H|apply (rmap_ok XWam), dec_wam_enc, H].
Qed.

Theorem stream_roundtrip now xs : forall r, forallb (aux_wf (bundle_ok now)) xs = true ->
  enc_stream xs = Some (stream_bytes xs) /\ dec_stream now (map kind_of xs) (stream_bytes xs ++ r) = Ok xs r.
Proof.
  induction xs as [|x xs IH]; intros r H; [split; reflexivity|].
  cbn [forallb] in H. apply andb_prop in H. destruct H as [Hx Hxs].
  destruct (aux_roundtrip now x (stream_bytes xs ++ r) Hx) as [Ex Dx]. destruct (IH r Hxs) as [Es Ds].
  unfold stream_bytes in *. cbn [map concat enc_stream dec_stream].
  rewrite <- app_assoc, Ex, Dx. cbn [obind bind]. rewrite Es, Ds. split; reflexivity.
Qed.

Lemma to_res_abind_inv {A B} (x : ares A) (f : A -> list N -> ares B) b r :
  to_res (abind x f) = Ok b r -> exists a r0 c, x = AOk a r0 c /\ to_res (f a r0) = Ok b r.
Proof.
  destruct x as [a r0 c|c|c]; cbn [abind]; intros H; try discriminate.
  rewrite to_res_addc in H. exists a, r0, c. split; [reflexivity|exact H].
Qed.

Tactic Notation "abinv" hyp(H) "as" simple_intropattern(a) simple_intropattern(r) simple_intropattern(E) :=
  apply to_res_abind_inv in H; destruct H as (a & r & ? & E & H).

Theorem dec_sreport_reason_known bs s r : dec_sreport bs = Ok s r -> sr_reason s <= max_reason.
Proof.
  unfold dec_sreport, adec_sreport. intros H.
  abinv H as l r0 _. destruct (negb ((l =? 4) || (l =? 6))); [discriminate|].
  abinv H as n r1 _. abinv H as u r2 _. abinv H as items r3 _. abinv H as reason r4 _.
  cbn [andb] in H. destruct (max_reason <? reason) eqn:Er; [discriminate|].
  abinv H as ref r5 _. cbn [to_res] in H. inversion H; subst. cbn [sr_reason]. lia.
Qed.

Theorem dec_admrec_reason_known bs s r : dec_admrec bs = Ok (ARStatus s) r -> sr_reason s <= max_reason.
Proof.
  unfold dec_admrec, adec_admrec. intros H.
  abinv H as l r0 _. destruct (negb (l =? 2)); [discriminate|]. abinv H as tc r1 _.
  destruct (tc =? ar_type_status); [|discriminate]. abinv H as s' r2 Es. cbn [to_res] in H. inversion H; subst.
  eapply dec_sreport_reason_known. unfold dec_sreport. rewrite Es. reflexivity.
Qed.

Theorem dec_ann_type_known bs a r : dec_ann bs = Ok a r -> cla_type_ok (an_type a) = true.
Proof.
  unfold dec_ann, adec_ann. intros H.
  abinv H as l r0 _. destruct (negb (l =? 3)); [discriminate|]. abinv H as t r1 _.
  destruct (cla_type_ok t) eqn:Et; cbn [negb] in H; [|discriminate].
  abinv H as e r2 _. abinv H as p r3 _. cbn [to_res] in H. inversion H; subst. exact Et.
Qed.

Theorem admrec_type_rejected tc body : u64_ok tc = true -> tc <> ar_type_status ->
  dec_admrec (enc_arr 2 ++ enc_uint tc ++ body) = Err.
Proof.
  intros Hu Hn. unfold dec_admrec, adec_admrec. rstep abind_arr. tcred. rstep abind_uint.
  apply N.eqb_neq in Hn. rewrite Hn. reflexivity.
Qed.

Theorem wam_code_rejected now tc body : u64_ok tc = true -> 4 < tc ->
  dec_wam now (enc_arr 2 ++ enc_uint tc ++ body) = Err.
Proof.
  intros Hu Hn. unfold dec_wam, adec_wam. rstep abind_arr. tcred. rstep abind_uint.
  rewrite !(proj2 (N.eqb_neq tc _)) by lia. reflexivity.
Qed.

Theorem ann_type_rejected t body : u64_ok t = true -> cla_type_ok t = false ->
  dec_ann (enc_arr 3 ++ enc_uint t ++ body) = Err.
Proof. intros Hu Hn. unfold dec_ann, adec_ann. rstep abind_arr. tcred. rstep abind_uint. rewrite Hn. reflexivity. Qed.

Theorem sitem_layout_rejected l body : u64_ok l = true -> l <> 1 -> l <> 2 -> dec_sitem (enc_arr l ++ body) = Err.
Proof.
  intros Hu H1 H2. unfold dec_sitem, adec_sitem. rstep abind_arr.
  rewrite !(proj2 (N.eqb_neq l _)) by assumption. reflexivity.
Qed.

Theorem sreport_layout_rejected l body : u64_ok l = true -> l <> 4 -> l <> 6 -> dec_sreport (enc_arr l ++ body) = Err.
Proof.
  intros Hu H1 H2. unfold dec_sreport, adec_sreport. rstep abind_arr.
  rewrite !(proj2 (N.eqb_neq l _)) by assumption. reflexivity.
Qed.

Theorem cts_layout_rejected l body : u64_ok l = true -> l <> 2 -> dec_cts (enc_arr l ++ body) = Err.
Proof. intros Hu H1. unfold dec_cts, adec_cts. rstep abind_arr. rewrite (proj2 (N.eqb_neq l 2)) by assumption. reflexivity. Qed.

(* the constants of C04 for this file.  136 per byte of input: 8 for the strings (within_str: ReadRawBytes
   and the copy into a Go string), and for each announcement, which takes at least one byte, ann_per = 128
   for its place in the slice (within_anns; a status item's 96 is less).  1 MiB: the one pre-allocation
   cboring makes for a string of at most that length before its bytes are there (raw_prealloc_max). *)
Definition alloc_k : N := 136.
Definition alloc_c0 : N := 1048576.

Definition within {A} (d : nat) (k : N) (bs : list N) (x : ares A) : Prop :=
  match x with
  | AOk _ r c => (length r + d <= length bs)%nat /\ c <= k * (nlen bs - nlen r)
  | AErr c => c <= k * nlen bs + alloc_c0
  | APanic _ => False
  end.

(* the statement of C04 for one decoder run *)
Definition bounded {A} (k : N) (bs : list N) (x : ares A) : Prop :=
  is_panic x = false /\ cost_of x <= k * nlen bs + alloc_c0.

Lemma within_bounded {A} d k bs (x : ares A) : within d k bs x -> bounded k bs x.
Proof.
  destruct x as [a r c|c|c]; cbn [within]; intros H; [|split; [reflexivity|exact H]|contradiction].
  split; [reflexivity|]. cbn [cost_of]. nia.
Qed.

Lemma within_weaken {A} d d' k k' bs (x : ares A) : (d' <= d)%nat -> k <= k' -> within d k bs x -> within d' k' bs x.
Proof. intros Hd Hk. destruct x as [a r c|c|c]; cbn [within]; [nia|nia|tauto]. Qed.

Lemma within_ret {A} k bs (a : A) : within 0 k bs (AOk a bs 0).
Proof. cbn. split; lia. Qed.
Lemma within_err0 {A} d k bs : within d k bs (@AErr A 0).
Proof. cbn. lia. Qed.

Lemma within_bind {A B} d d' k bs (x : ares A) (f : A -> list N -> ares B) :
  within d k bs x -> (forall a r, within 0 k r (f a r)) -> (d' <= d)%nat -> within d' k bs (abind x f).
Proof.
  destruct x as [a r c|c|c]; cbn [within abind]; intros H Hf Hd; [|exact H|exact H].
  specialize (Hf a r).
  destruct (f a r) as [b r' c'|c'|c']; cbn [within addc] in *; [| |exact Hf]; unfold nlen in *; nia.
Qed.

Lemma bounded_bind {A B} d k bs (x : ares A) (f : A -> list N -> ares B) :
  within d k bs x -> (forall a r, bounded k r (f a r)) -> bounded k bs (abind x f).
Proof.
  destruct x as [a r c|c|c]; cbn [within abind]; intros H Hf; [|split; [reflexivity|exact H]|contradiction].
  destruct (Hf a r) as [Hp Hb].
  destruct (f a r); (split; cbn [addc is_panic cost_of] in *; [assumption|unfold nlen in *; nia]).
Qed.

Lemma read_bool_shrinks bs b r : read_bool bs = Ok b r -> (length r < length bs)%nat.
Proof.
  destruct bs as [|x bs]; [discriminate|]. cbn [read_bool].
  destruct (x =? 245); [|destruct (x =? 244); [|discriminate]]; intros H; inversion H; subst; cbn; lia.
Qed.

Lemma within_lift0 {A} k bs (x : res A) :
  (forall a r, x = Ok a r -> (length r < length bs)%nat) -> within 1 k bs (a_lift x 0).
Proof.
  intros H. destruct x as [a r| |]; cbn [a_lift]; [|apply within_err0..].
  specialize (H a r eq_refl). split; [lia|apply N.le_0_l].
Qed.
Lemma within_uint k bs : within 1 k bs (a_read_uint bs).
Proof. apply within_lift0. intros a r. apply read_expect_shrinks. Qed.
Lemma within_arr k bs : within 1 k bs (a_read_arr bs).
Proof. apply within_lift0. intros a r. apply read_expect_shrinks. Qed.
Lemma within_bool k bs : within 1 k bs (a_read_bool bs).
Proof. apply within_lift0. intros a r. apply read_bool_shrinks. Qed.

Lemma raw_cost_read n bs :
  match read_raw n bs with
  | Ok _ r => nlen bs = n + nlen r /\ raw_cost n bs <= 4 * n
  | _ => raw_cost n bs <= 4 * nlen bs + alloc_c0
  end.
Proof.
  unfold read_raw, raw_cost, raw_prealloc_max, alloc_c0. destruct (max_raw <? n); [lia|].
  destruct (nlen bs <? n) eqn:E; [|unfold nlen in *; rewrite skipn_length]; destruct (n <=? 1048576) eqn:E'; lia.
Qed.

Lemma within_str m copy k bs : 8 <= k ->
  within 1 k bs (a_lift (bind (read_expect m bs) read_raw) (str_cost m copy bs)).
Proof.
  intros Hk. apply (within_weaken 1 1 8); [lia|exact Hk|]. unfold str_cost.
  destruct (read_expect m bs) as [n r0| |] eqn:E; cbn [bind a_lift]; [|apply within_err0..].
  apply read_expect_shrinks in E. pose proof (raw_cost_read n r0) as Hraw.
  destruct (read_raw n r0) as [d r1| |]; cbn [a_lift within]; unfold nlen, alloc_c0 in *; destruct copy; lia.
Qed.
Lemma within_tstr k bs : 8 <= k -> within 1 k bs (a_read_tstr bs).
Proof. apply within_str. Qed.
Lemma within_bstr k bs : 8 <= k -> within 1 k bs (a_read_bstr bs).
Proof. apply within_str. Qed.

(* [dec_eid] and its account [eid_cost] take the same path through the bytes *)
Lemma within_eid k bs : 8 <= k -> within 1 k bs (a_dec_eid bs).
Proof.
  intros Hk. apply (within_weaken 1 1 8); [lia|exact Hk|]. unfold a_dec_eid, dec_eid, eid_cost, within, nlen, alloc_c0.
  destruct (read_arr bs) as [l r1| |] eqn:E1; cbn [bind a_lift]; [|lia..].
  apply read_expect_shrinks in E1.
  destruct (negb (l =? 2)); cbn [a_lift]; [lia|].
  destruct (read_uint r1) as [scheme r2| |] eqn:E2; cbn [bind a_lift]; [|lia..].
  apply read_expect_shrinks in E2.
  destruct (scheme =? 1).
  - destruct (read_head r2) as [[m n] r3| |] eqn:E3; cbn [bind a_lift]; [|lia..].
    apply read_head_shrinks in E3.
    destruct (m =? mUInt); cbn [a_lift]; [lia|].
    destruct (m =? mText); cbn [a_lift]; [|lia].
    pose proof (raw_cost_read n r3) as Hraw. unfold nlen, alloc_c0 in Hraw.
    destruct (read_raw n r3) as [ssp r4| |]; cbn [bind a_lift]; [|lia..].
    destruct (bytes_eqb ssp str_none); cbn [a_lift]; [lia|].
    destruct (parse_ssp ssp) as [[nd dm]|]; cbn [a_lift]; lia.
  - destruct (scheme =? 2); cbn [a_lift]; [|lia].
    destruct (read_arr r2) as [l2 r3| |] eqn:E3; cbn [bind a_lift]; [|lia..].
    apply read_expect_shrinks in E3.
    destruct (negb (l2 =? 2)); cbn [a_lift]; [lia|].
    destruct (read_uint r3) as [n r4| |] eqn:E4; cbn [bind a_lift]; [|lia..].
    apply read_expect_shrinks in E4.
    destruct (read_uint r4) as [sv r5| |] eqn:E5; cbn [bind a_lift]; [|lia..].
    apply read_expect_shrinks in E5. lia.
Qed.

(* one step along the syntax of a decoder: a sequence by within_bind, a branch by cases; what holds of the
   first reader of a sequence and of a reader that stands alone comes from the hints - the primitives
   above, then each decoder once it is proved, and the two item loops - with side conditions on k taken
   from the context *)
Create HintDb within.
#[local] Hint Resolve within_ret within_err0 within_uint within_arr within_bool within_tstr within_bstr within_eid : within.
Ltac wstep :=
  lazymatch goal with
  | |- within _ _ _ (abind _ _) => eapply within_bind; [solve [auto with within] | intros ? ? | lia]
  | |- within _ _ _ (if ?c then _ else _) => destruct c
  | |- within _ _ _ _ => solve [auto with within]
  end.

Lemma within_cts k bs : within 0 k bs (adec_cts bs).
Proof. unfold adec_cts. repeat wstep. Qed.
#[local] Hint Resolve within_cts : within.

Lemma within_bid k frag bs : 8 <= k -> within 0 k bs (adec_bid frag bs).
Proof. intros Hk. unfold adec_bid. repeat wstep. Qed.
#[local] Hint Resolve within_bid : within.

Lemma within_sitem k bs : within 1 k bs (adec_sitem bs).
Proof. unfold adec_sitem. repeat wstep. Qed.

Lemma within_ann k bs : 8 <= k -> within 1 k bs (adec_ann bs).
Proof. intros Hk. unfold adec_ann. repeat wstep. Qed.

Lemma within_arepeat {A} (item : list N -> ares A) per k k' :
  (forall bs, within 1 k bs (item bs)) -> k + per <= k' ->
  forall fuel n bs, within 0 k' bs (arepeat item per fuel n bs).
Proof.
  intros Hitem Hk. induction fuel as [|fuel IH]; intros n bs; cbn [arepeat]; (destruct (n =? 0); [apply within_ret|]).
  - apply within_err0.
  - specialize (Hitem bs). destruct (item bs) as [it r c|c|c]; cbn [abind];
      [|apply (within_weaken 1 0 k); [lia|lia|exact Hitem]|exact Hitem].
    specialize (IH (n - 1) r). destruct (arepeat item per fuel (n - 1) r) as [its r' c'|c'|c']; cbn [addc abind within] in *;
      [| |exact IH].
    (* the item took at least one byte, and [k + per] for that byte pays for appending it *)
    all: unfold nlen in *; nia.
Qed.

(* more fuel than bytes never changes the result: the fuel is not what stops the loop *)
Lemma arepeat_fuel {A} (item : list N -> ares A) per k :
  (forall bs, within 1 k bs (item bs)) ->
  forall f1 f2 n bs, (length bs < f1)%nat -> (length bs < f2)%nat -> arepeat item per f1 n bs = arepeat item per f2 n bs.
Proof.
  intros Hitem. induction f1 as [|f1 IH]; intros f2 n bs H1 H2; [lia|]. destruct f2 as [|f2]; [lia|].
  cbn [arepeat]. destruct (n =? 0); [reflexivity|].
  specialize (Hitem bs). destruct (item bs) as [it r c|c|c]; cbn [abind]; try reflexivity.
  destruct Hitem as [Hl _]. rewrite (IH f2 (n - 1) r) by lia. reflexivity.
Qed.

(* the item loops at the rate that pays for the slice: 8 for the item, [per] for appending it *)
Lemma within_sitem_loop k fuel n bs : 8 + sitem_per <= k -> within 0 k bs (arepeat adec_sitem sitem_per fuel n bs).
Proof. intros Hk. exact (within_arepeat adec_sitem sitem_per 8 k (within_sitem 8) Hk fuel n bs). Qed.
Lemma within_ann_loop fuel n bs : within 0 (8 + ann_per) bs (arepeat adec_ann ann_per fuel n bs).
Proof. exact (within_arepeat adec_ann ann_per 8 _ (fun b => within_ann 8 b (N.le_refl 8)) (N.le_refl _) fuel n bs). Qed.
#[local] Hint Resolve within_sitem_loop within_ann_loop : within.

Lemma within_sreport k bs : 8 + sitem_per <= k -> within 0 k bs (adec_sreport true bs).
Proof. intros Hk. assert (8 <= k) by lia. unfold adec_sreport. cbn [andb]. repeat wstep. Qed.
#[local] Hint Resolve within_sreport : within.

Lemma within_admrec k bs : 8 + sitem_per <= k -> within 0 k bs (adec_admrec true bs).
Proof. intros Hk. unfold adec_admrec. repeat wstep. Qed.

Lemma within_anns bs : within 0 (8 + ann_per) bs (adec_anns true bs).
Proof. unfold adec_anns. repeat wstep. Qed.

(* the bundle body of a WebSocket-agent message is handed to the bundle decoder, whose account is
   outside this file (it adds nothing here) *)
Lemma bounded_wam k now bs : 8 <= k -> bounded k bs (adec_wam now bs).
Proof.
  intros Hk. unfold adec_wam.
  apply (bounded_bind 1); [apply within_arr|intros l r].
  destruct (negb (l =? 2)); [apply (within_bounded 0), within_err0|].
  apply (bounded_bind 1); [apply within_uint|intros tc r0].
  destruct (tc =? 0); [apply (within_bounded 0); repeat wstep|].
  destruct (tc =? 1); [apply (within_bounded 0); repeat wstep|].
  destruct (tc =? 2).
  - unfold a_dec_bundle. destruct (dec_bundle now r0) as [[b r1]|]; cbn [abind addc]; split; try reflexivity; cbn [cost_of]; lia.
  - apply (within_bounded 0); repeat wstep.
Qed.

Lemma to_res_amap {A B} (f : A -> B) (x : ares A) : to_res (amap f x) = rmap f (to_res x).
Proof. destruct x; reflexivity. Qed.
Lemma to_res_lift {A} (x : res A) c : to_res (a_lift x c) = nobrk x.
Proof. destruct x; reflexivity. Qed.

Lemma bounded_amap {A B} (f : A -> B) k bs (x : ares A) : bounded k bs x -> bounded k bs (amap f x).
Proof. destruct x; exact (fun h => h). Qed.

(* C04 for the decoders of this file: whatever the bytes, no panic, and the wire-sized allocations
   stay within alloc_k bytes per byte of input plus alloc_c0 *)
Theorem adec_aux_bounded now k bs : bounded alloc_k bs (adec_aux true now k bs).
Proof.
  unfold alloc_k. destruct k; cbn [adec_aux]; apply bounded_amap.
  - eapply within_bounded, within_cts.
  - eapply within_bounded, within_eid. lia.
  - eapply within_bounded, within_bid. lia.
  - eapply within_bounded, within_sitem.
  - eapply within_bounded, within_sreport. unfold sitem_per. lia.
  - eapply within_bounded, within_admrec. unfold sitem_per. lia.
  - eapply within_bounded, within_ann. lia.
  - eapply within_bounded, within_anns.
  - apply bounded_wam. lia.
Qed.

Lemma to_res_adec_aux now k bs : to_res (adec_aux true now k bs) = dec_aux now k bs.
Proof.
  destruct k; cbn [adec_aux dec_aux]; rewrite to_res_amap; try reflexivity.
  unfold a_dec_eid. rewrite to_res_lift. reflexivity.
Qed.

(* inputs on which the code as found (fixed = false) violates each clause *)
Definition killer_admrec_oom : list N := [130; 1; 132; 154; 255; 255; 255; 255].
Definition killer_admrec_panic : list N := [130; 1; 132; 155; 255; 255; 255; 255; 255; 255; 255; 255].
Definition killer_anns_oom : list N := [154; 255; 255; 255; 255].
Definition killer_anns_panic : list N := [155; 255; 255; 255; 255; 255; 255; 255; 255].

Theorem adec_unfixed_refuted :
  (exists bs, (length bs <= 12)%nat /\ ~ bounded alloc_k bs (adec_admrec false bs)) /\
  (exists bs, (length bs <= 12)%nat /\ is_panic (adec_admrec false bs) = true) /\
  (exists bs, (length bs <= 9)%nat /\ ~ bounded alloc_k bs (adec_anns false bs)) /\
  (exists bs, (length bs <= 9)%nat /\ is_panic (adec_anns false bs) = true).
Proof.
  split; [|split; [|split]].
  - exists killer_admrec_oom. split; [cbn; lia|]. intros [_ H]. vm_compute in H. apply H. reflexivity.
  - exists killer_admrec_panic. split; [cbn; lia|reflexivity].
  - exists killer_anns_oom. split; [cbn; lia|]. intros [_ H]. vm_compute in H. apply H. reflexivity.
  - exists killer_anns_panic. split; [cbn; lia|reflexivity].
Qed.

(* a status report with reason code 12, otherwise in order: accepted by the code as found, rejected after the fix *)
Definition sreport_reason12 : list N := [132; 132; 129; 245; 129; 244; 129; 244; 129; 244; 12; 130; 2; 130; 1; 1; 130; 0; 0].

Theorem adec_sreport_unfixed_reason :
  (exists s r, to_res (adec_sreport false sreport_reason12) = Ok s r /\ max_reason < sr_reason s) /\
  dec_sreport sreport_reason12 = Err.
Proof. split; [eexists; eexists; split|]; vm_compute; reflexivity. Qed.
