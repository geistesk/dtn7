(* ForwardProofs.v - proofs about Model/Forward.v: what forward does to the block list in normal
   form, preservation of CheckValid and of range well-formedness, faithfulness of every
   transmitted copy, refusal at the hop limit and at the end of the lifetime, for the first pass
   and for every retry. *)
From DTN Require Import Base ListFacts Cbor Eid Bundle BundleWf BundleProofs ValidProofs Forward.
From Coq Require Import Permutation.
Open Scope N_scope.

Lemma last_map {A B} (f : A -> B) l d : l <> [] -> last (map f l) (f d) = f (last l d).
Proof.
  destruct l as [|x l _] using rev_ind; [congruence|]. intros _. rewrite map_app. cbn [map]. rewrite !last_last. reflexivity.
Qed.

Lemma last_default_irrel {A} (l : list A) d d' : l <> [] -> last l d = last l d'.
Proof. destruct l as [|x l _] using rev_ind; [congruence|]. intros _. rewrite !last_last. reflexivity. Qed.

Lemma head_bytes_length_le m n : (length (head_bytes m n) <= 9)%nat.
Proof.
  unfold head_bytes. repeat match goal with |- context [if ?c then _ else _] => destruct c end;
    cbn [length]; rewrite ?be_encode_length; lia.
Qed.

(* 100 is slack: the values written here are at most three heads of at most 9 bytes each *)
Lemma len_ok_small d : (length d <= 100)%nat -> len_ok d = true.
Proof. unfold len_ok, nlen, max_raw. intros H. lia. Qed.

Lemma NoDup_nodup_N l : NoDup l -> nodup_N l = true.
Proof.
  induction 1 as [|x l Hnotin Hnd IH]; cbn [nodup_N]; [reflexivity|].
  rewrite IH, andb_true_r. apply negb_true_iff, not_true_iff_false. rewrite existsb_eqb_in. exact Hnotin.
Qed.

Lemma find_type_none t l : find_type t l = None -> forall c, In c l -> c_type c <> t.
Proof.
  unfold find_type. intros H c Hc Hct. apply (find_none _ _ H) in Hc. apply N.eqb_neq in Hc. contradiction.
Qed.

Lemma find_type_spec t l :
  NoDup (map c_type l) ->
  match find_type t l with
  | Some c0 => In c0 l /\ c_type c0 = t /\ forall c, In c l -> c_type c = t -> c = c0
  | None => forall c, In c l -> c_type c <> t
  end.
Proof.
  intros Hnd. destruct (find_type t l) as [c0|] eqn:F; [|apply find_type_none, F].
  apply find_type_in in F. destruct F as [Hin Ht]. split; [exact Hin|]. split; [exact Ht|].
  intros c Hc Hct. apply (NoDup_map_inj_in c_type l); auto. congruence.
Qed.

Lemma find_type_the t l c : NoDup (map c_type l) -> In c l -> c_type c = t -> find_type t l = Some c.
Proof.
  intros Hnd Hc Hct. pose proof (find_type_spec t l Hnd) as S. destruct (find_type t l) as [c0|].
  - f_equal. symmetry. apply S; assumption.
  - destruct (S c Hc Hct).
Qed.

Definition fw_upd (t : N) (v : ext) (c : cblock) : cblock := if c_type c =? t then fw_set_val c v else c.

Lemma fw_set_val_type c v : c_type (fw_set_val c v) = ext_type v.
Proof. reflexivity. Qed.
Lemma fw_upd_other t v c : c_type c <> t -> fw_upd t v c = c.
Proof. unfold fw_upd. intros H. apply N.eqb_neq in H. rewrite H. reflexivity. Qed.
Lemma fw_upd_same t v c : c_type c = t -> fw_upd t v c = fw_set_val c v.
Proof. unfold fw_upd. intros H. apply N.eqb_eq in H. rewrite H. reflexivity. Qed.
Lemma fw_upd_type t v c : ext_type v = t -> c_type (fw_upd t v c) = c_type c.
Proof. unfold fw_upd. intros H. destruct (N.eqb_spec (c_type c) t) as [E|]; [|reflexivity]. rewrite fw_set_val_type. congruence. Qed.
Lemma fw_upd_num t v c : c_num (fw_upd t v c) = c_num c.
Proof. unfold fw_upd. destruct (c_type c =? t); reflexivity. Qed.
Lemma fw_upd_flags t v c : c_flags (fw_upd t v c) = c_flags c.
Proof. unfold fw_upd. destruct (c_type c =? t); reflexivity. Qed.
Lemma fw_upd_crc t v c : c_crc (fw_upd t v c) = c_crc c.
Proof. unfold fw_upd. destruct (c_type c =? t); reflexivity. Qed.

Lemma map_upd_types t v l : ext_type v = t -> map c_type (map (fw_upd t v) l) = map c_type l.
Proof. intros H. rewrite map_map. apply map_ext. intros c. apply fw_upd_type, H. Qed.
Lemma map_upd_nums t v l : map c_num (map (fw_upd t v) l) = map c_num l.
Proof. rewrite map_map. apply map_ext. intros c. apply fw_upd_num. Qed.

Lemma map_upd_id t v l : (forall c, In c l -> c_type c <> t) -> map (fw_upd t v) l = l.
Proof.
  intros H. rewrite <- (map_id l) at 2. apply map_ext_in. intros c Hc. apply fw_upd_other, H, Hc.
Qed.

Lemma fw_set_first_map t v l : NoDup (map c_type l) -> fw_set_first t v l = map (fw_upd t v) l.
Proof.
  induction l as [|a l IH]; cbn [fw_set_first map]; intros Hnd; [reflexivity|].
  inversion Hnd as [|? ? Hnotin Hnd']; subst. unfold fw_upd at 1.
  destruct (N.eqb_spec (c_type a) t) as [E|_]; f_equal; [|apply IH, Hnd'].
  symmetry. apply map_upd_id. intros c Hc Hct. apply Hnotin. rewrite E, <- Hct. apply in_map, Hc.
Qed.

Lemma fw_insert_perm x l : Permutation (fw_insert x l) (x :: l).
Proof.
  induction l as [|y l IH]; cbn [fw_insert]; [reflexivity|].
  destruct (fw_less x y); [reflexivity|]. rewrite IH. apply perm_swap.
Qed.

Lemma fw_sort_acc_perm l : forall acc, Permutation (fold_left (fun acc x => fw_insert x acc) l acc) (l ++ acc).
Proof.
  induction l as [|x l IH]; intros acc; cbn [fold_left app]; [reflexivity|].
  rewrite IH, fw_insert_perm. symmetry. apply Permutation_middle.
Qed.

Lemma fw_sort_perm l : Permutation (fw_sort l) l.
Proof. unfold fw_sort. rewrite fw_sort_acc_perm, app_nil_r. reflexivity. Qed.

Lemma fw_insert_one x l : c_num x = 1 -> fw_insert x l = l ++ [x].
Proof.
  intros Hx. induction l as [|y l IH]; cbn [fw_insert app]; [reflexivity|].
  unfold fw_less. rewrite Hx. cbn [N.eqb Pos.eqb]. rewrite IH. reflexivity.
Qed.

Lemma fw_insert_last x pre pl :
  c_num pl = 1 -> c_num x <> 1 -> exists pre', fw_insert x (pre ++ [pl]) = pre' ++ [pl].
Proof.
  intros Hpl Hx. assert (L : fw_less x pl = true).
  { unfold fw_less. apply N.eqb_neq in Hx. rewrite Hx, Hpl. reflexivity. }
  induction pre as [|y pre (pre' & IH)]; cbn [fw_insert app].
  - rewrite L. exists [x]. reflexivity.
  - destruct (fw_less x y); [exists (x :: y :: pre)|exists (y :: pre'); rewrite IH]; reflexivity.
Qed.

(* a candidate found in [nums] is one number fewer that is >= the next candidate *)
Lemma filter_leb_succ n nums :
  (length (filter (N.leb (n + 1)) nums) + (if existsb (N.eqb n) nums then 1 else 0) <= length (filter (N.leb n) nums))%nat.
Proof.
  induction nums as [|x l IH]; cbn [existsb filter]; [reflexivity|].
  destruct (N.eqb_spec n x), (N.leb_spec (n + 1) x), (N.leb_spec n x), (existsb (N.eqb n) l); cbn [orb length]; lia.
Qed.

Lemma fw_free_num_fresh fuel : forall n nums,
  (length (filter (N.leb n) nums) < fuel)%nat -> ~ In (fw_free_num fuel n nums) nums.
Proof.
  induction fuel as [|fuel IH]; intros n nums Hlen; [lia|].
  cbn [fw_free_num]. destruct (existsb (N.eqb n) nums) eqn:E.
  2:{ intros Hin. apply Bool.not_true_iff_false in E. apply E, existsb_exists. exists n. split; [exact Hin|apply N.eqb_refl]. }
  apply IH. pose proof (filter_leb_succ n nums) as Hs. rewrite E in Hs. lia.
Qed.

Lemma fw_free_num_bounds fuel : forall n nums, n <= fw_free_num fuel n nums <= n + N.of_nat fuel.
Proof.
  induction fuel as [|fuel IH]; intros n nums; cbn [fw_free_num]; [lia|].
  destruct (existsb (N.eqb n) nums); [|lia]. specialize (IH (n + 1) nums). lia.
Qed.

Lemma fw_add_block_spec fl crc v l :
  exists num, ~ In num (map c_num l)
    /\ (if ext_type v =? 1 then 1 else 2) <= num <= (if ext_type v =? 1 then 1 else 2) + N.of_nat (S (length l))
    /\ Permutation (fw_add_block fl crc v l) ({| c_num := num; c_flags := fl; c_crc := crc; c_val := v |} :: l).
Proof.
  unfold fw_add_block. set (start := if ext_type v =? 1 then 1 else 2).
  exists (fw_free_num (S (length (map c_num l))) start (map c_num l)). split; [|split].
  - apply fw_free_num_fresh. pose proof (filter_length_le (N.leb start) (map c_num l)). lia.
  - rewrite <- (map_length c_num l). apply fw_free_num_bounds.
  - rewrite fw_sort_perm. symmetry. apply Permutation_cons_append.
Qed.

Lemma fw_add_block_last fl crc v pre pl :
  c_num pl = 1 -> ext_type v <> 1 -> exists pre', fw_add_block fl crc v (pre ++ [pl]) = pre' ++ [pl].
Proof.
  intros Hpl Hv. unfold fw_add_block, fw_sort. rewrite <- app_assoc, fold_left_app. cbn [app fold_left].
  rewrite (fw_insert_one pl) by exact Hpl. apply fw_insert_last; [exact Hpl|]. cbn [c_num].
  apply N.eqb_neq in Hv. rewrite Hv. pose proof (fw_free_num_bounds (S (length (map c_num (pre ++ [pl])))) 2 (map c_num (pre ++ [pl]))). lia.
Qed.

Definition fw_flags_ok (p : primary) (c : cblock) : bool :=
  negb (has (p_flags p) F_ADMIN || eid_eqb (p_src p) DtnNone) || negb (has (c_flags c) BF_REPORT).

Record fw_blocks_valid (p : primary) (bl : list cblock) : Prop := {
  bv_each : forall c, In c bl -> cblock_valid c = true /\ fw_flags_ok p c = true;
  bv_nums : NoDup (map c_num bl);
  bv_types : NoDup (map c_type bl);
  bv_last : exists pre pl, bl = pre ++ [pl] /\ c_type pl = 1 }.

Definition fw_age_present (p : primary) (bl : list cblock) : Prop :=
  p_time p = 0 -> exists c, In c bl /\ c_type c = 7.

Lemma check_valid_iff now b :
  check_valid now b = true <->
  primary_valid (b_pri b) = true /\ fw_blocks_valid (b_pri b) (b_blocks b) /\ fw_age_present (b_pri b) (b_blocks b)
  /\ lifetime_exceeded now b = false.
Proof.
  split.
  - intros H. apply check_valid_parts in H as (Hp & Hcb & Hrep & Hnum & Htyp & Hlast & Hage & Hlife).
    split; [exact Hp|]. split; [|split; [|exact Hlife]].
    + constructor.
      * intros c Hc. rewrite forallb_forall in Hcb. split; [apply Hcb, Hc|].
        unfold fw_flags_ok. rewrite orb_forallb in Hrep. rewrite forallb_forall in Hrep. apply Hrep, Hc.
      * apply nodup_N_NoDup, Hnum.
      * apply nodup_N_NoDup, Htyp.
      * apply last_map_split, Hlast.
    + intros Ht. destruct (Hage Ht) as [c E]. apply find_type_in in E. eauto.
  - intros (Hp & [Heach Hnums Htypes (pre & pl & Hbl & Hpl)] & Hage & Hlife).
    unfold check_valid. cbv zeta. rewrite Hp, Hlife. cbn [negb andb].
    repeat (apply andb_true_intro; split); try reflexivity.
    + apply forallb_forall. intros c Hc. apply Heach, Hc.
    + rewrite Hbl. destruct pre; reflexivity.
    + rewrite orb_forallb. apply forallb_forall. intros c Hc. apply Heach, Hc.
    + apply NoDup_nodup_N, Hnums.
    + apply NoDup_nodup_N, Htypes.
    + rewrite Hbl, map_app. cbn [map]. rewrite last_last, Hpl. reflexivity.
    + destruct (N.eqb_spec (p_time (b_pri b)) 0) as [Et|]; [|reflexivity].
      destruct (Hage Et) as (c & Hc & Hct). rewrite (find_type_the 7 _ c Htypes Hc Hct). reflexivity.
Qed.

Lemma known_not_removable c : known_type (c_type c) = true -> fw_removable c = false.
Proof. unfold fw_removable, fw_unknown. intros ->. reflexivity. Qed.

Lemma fw_strip_in c l : In c (fw_strip l) <-> In c l /\ fw_removable c = false.
Proof. unfold fw_strip. rewrite filter_In. rewrite negb_true_iff. reflexivity. Qed.

Lemma fw_blocks_valid_strip p l : fw_blocks_valid p l -> fw_blocks_valid p (fw_strip l).
Proof.
  intros [Heach Hnums Htypes (pre & pl & Hbl & Hpl)]. constructor.
  - intros c Hc. apply fw_strip_in in Hc. apply Heach, Hc.
  - apply NoDup_map_filter, Hnums.
  - apply NoDup_map_filter, Htypes.
  - exists (fw_strip pre), pl. split; [|exact Hpl]. subst l. unfold fw_strip. rewrite filter_app. cbn [filter].
    rewrite known_not_removable; [reflexivity|]. rewrite Hpl. reflexivity.
Qed.

Lemma cblock_valid_new num fl crc v :
  ext_valid v = true -> ext_type v <> 1 -> cblock_valid {| c_num := num; c_flags := fl; c_crc := crc; c_val := v |} = true.
Proof.
  intros Hval Ht. unfold cblock_valid, c_type. cbn [c_val c_num]. rewrite Hval. apply N.eqb_neq in Ht. rewrite Ht. reflexivity.
Qed.

Lemma fw_blocks_valid_upd p t v l :
  ext_type v = t -> t <> 1 -> ext_valid v = true -> fw_blocks_valid p l -> fw_blocks_valid p (map (fw_upd t v) l).
Proof.
  intros Hv Ht Hval [Heach Hnums Htypes (pre & pl & Hbl & Hpl)]. constructor.
  - intros c' Hc'. apply in_map_iff in Hc'. destruct Hc' as (c & <- & Hc). destruct (Heach c Hc) as [H1 H2].
    split.
    + unfold fw_upd. destruct (c_type c =? t); [|exact H1]. apply cblock_valid_new; congruence.
    + unfold fw_flags_ok. rewrite fw_upd_flags. exact H2.
  - rewrite map_upd_nums. exact Hnums.
  - rewrite map_upd_types by exact Hv. exact Htypes.
  - exists (map (fw_upd t v) pre), (fw_upd t v pl). split.
    + subst l. rewrite map_app. reflexivity.
    + rewrite fw_upd_type by exact Hv. exact Hpl.
Qed.

Lemma fw_blocks_valid_add p v l :
  ext_type v <> 1 -> ext_valid v = true -> (forall c, In c l -> c_type c <> ext_type v) ->
  fw_blocks_valid p l -> fw_blocks_valid p (fw_add_block 0 0 v l).
Proof.
  intros Ht Hval Hnone [Heach Hnums Htypes (pre & pl & Hbl & Hpl)].
  destruct (fw_add_block_spec 0 0 v l) as (num & Hfresh & _ & Hperm).
  constructor.
  - intros c Hc. apply (Permutation_in _ Hperm) in Hc. destruct Hc as [<-|Hc]; [|apply Heach, Hc].
    split; [apply cblock_valid_new; assumption|]. unfold fw_flags_ok. cbn [c_flags]. apply orb_true_r.
  - rewrite (Permutation_map c_num Hperm). constructor; assumption.
  - rewrite (Permutation_map c_type Hperm). constructor; [|exact Htypes]. intros Hin.
    apply in_map_iff in Hin. destruct Hin as (c & Hct & Hc). exact (Hnone c Hc Hct).
  - assert (Hnum : c_num pl = 1).
    { destruct (Heach pl) as [Hv _]; [subst l; apply in_or_app; right; left; reflexivity|].
      unfold cblock_valid in Hv. rewrite Hpl in Hv. apply andb_prop in Hv. apply N.eqb_eq, Hv. }
    subst l. destruct (fw_add_block_last 0 0 v pre pl Hnum Ht) as (pre' & ->). eauto.
Qed.

Definition fw_typed (l : list cblock) : Prop :=
  forall c, In c l -> match c_val c with XGeneric tc _ => known_type tc = false | _ => True end.

Lemma wf_typed l : forallb cblock_wf l = true -> fw_typed l.
Proof.
  intros H c Hc. rewrite forallb_forall in H. specialize (H c Hc). unfold cblock_wf in H.
  destruct (c_val c); try exact I. cbn [ext_wf] in H. rewrite !andb_true_iff, negb_true_iff in H. apply H.
Qed.

Definition fw_plain (v : ext) : Prop := match v with XGeneric _ _ => False | _ => True end.

Lemma typed_plain l c : fw_typed l -> In c l -> known_type (c_type c) = true -> fw_plain (c_val c).
Proof.
  intros H Hc Hk. specialize (H c Hc). unfold c_type in Hk.
  destruct (c_val c); try exact I. cbn [ext_type] in Hk. congruence.
Qed.

Lemma typed_hop l c : fw_typed l -> In c l -> c_type c = 10 -> exists lim k, c_val c = XHop lim k.
Proof.
  intros H Hc Ht. pose proof (typed_plain l c H Hc) as P. rewrite Ht in P. unfold c_type in Ht.
  destruct (c_val c); try discriminate Ht; [eauto|destruct (P eq_refl)].
Qed.
Lemma typed_age l c : fw_typed l -> In c l -> c_type c = 7 -> exists a, c_val c = XAge a.
Proof.
  intros H Hc Ht. pose proof (typed_plain l c H Hc) as P. rewrite Ht in P. unfold c_type in Ht.
  destruct (c_val c); try discriminate Ht; [eauto|destruct (P eq_refl)].
Qed.
Lemma typed_prev l c : fw_typed l -> In c l -> c_type c = 6 -> exists e, c_val c = XPrev e.
Proof.
  intros H Hc Ht. pose proof (typed_plain l c H Hc) as P. rewrite Ht in P. unfold c_type in Ht.
  destruct (c_val c); try discriminate Ht; [eauto|destruct (P eq_refl)].
Qed.

Lemma fw_typed_strip l : fw_typed l -> fw_typed (fw_strip l).
Proof. intros H c Hc. apply fw_strip_in in Hc. apply H, Hc. Qed.

Lemma fw_typed_upd t v l : fw_plain v -> fw_typed l -> fw_typed (map (fw_upd t v) l).
Proof.
  intros Hp Hty c' Hc'. apply in_map_iff in Hc'. destruct Hc' as (c & <- & Hc). unfold fw_upd.
  destruct (c_type c =? t); [|apply Hty, Hc]. cbn [fw_set_val c_val]. destruct v; try exact I. destruct Hp.
Qed.

(* the steps of forward: each replaces the value of the block of one type, if there is one.  Without
   such a block any value will do as the witness (0 below): map_upd_id makes the replacement the
   identity and the relation holds of no block *)
Definition fw_hop_rel (l : list cblock) (lim k' : N) : Prop :=
  k' <= lim /\ forall c, In c l -> c_type c = 10 -> exists k, c_val c = XHop lim k /\ k' = k + 1.

Lemma fw_hop_step_some l l1 :
  NoDup (map c_type l) -> fw_typed l -> fw_hop_step l = Some l1 ->
  exists lim k', fw_hop_rel l lim k' /\ l1 = map (fw_upd 10 (XHop lim k')) l.
Proof.
  intros Hnd Hty. unfold fw_hop_step. pose proof (find_type_spec 10 l Hnd) as S. destruct (find_type 10 l) as [c0|].
  - destruct S as (Hin & Ht0 & Huniq). destruct (typed_hop _ _ Hty Hin Ht0) as (lim & k & Hv).
    destruct c0 as [num fl crc val]. cbn [c_val] in Hv. subst val.
    destruct (k =? 255); [discriminate|]. destruct (N.ltb_spec lim (k + 1)); [discriminate|].
    intros [= <-]. exists lim, (k + 1). split; [|apply fw_set_first_map, Hnd]. split; [assumption|].
    intros c Hc Hct. rewrite (Huniq c Hc Hct). exists k. split; reflexivity.
  - intros [= <-]. exists 0, 0. split; [|symmetry; apply map_upd_id, S]. split; [reflexivity|].
    intros c Hc Hct. destruct (S c Hc Hct).
Qed.

Lemma fw_hop_step_none l c lim k :
  NoDup (map c_type l) -> In c l -> c_val c = XHop lim k -> lim < k + 1 -> fw_hop_step l = None.
Proof.
  intros Hnd Hc Hv Hlt. unfold fw_hop_step.
  rewrite (find_type_the 10 l c Hnd Hc) by (unfold c_type; rewrite Hv; reflexivity).
  destruct c as [num fl crc val]. cbn [c_val] in Hv. subst val.
  destruct (k =? 255); [reflexivity|]. destruct (N.ltb_spec lim (k + 1)); [reflexivity|lia].
Qed.

Definition fw_age_rel (res life : N) (l : list cblock) (a' : N) : Prop :=
  u64_ok a' = true /\
  forall c, In c l -> c_type c = 7 -> exists a, c_val c = XAge a /\ a' = fw_u64 (a + res) /\ a' < life.

Lemma fw_age_step_some res life l l2 :
  NoDup (map c_type l) -> fw_typed l -> fw_age_step res life l = Some l2 ->
  exists a', fw_age_rel res life l a' /\ l2 = map (fw_upd 7 (XAge a')) l.
Proof.
  intros Hnd Hty. unfold fw_age_step. pose proof (find_type_spec 7 l Hnd) as S. destruct (find_type 7 l) as [c0|].
  - destruct S as (Hin & Ht0 & Huniq). destruct (typed_age _ _ Hty Hin Ht0) as (a & Hv).
    destruct c0 as [num fl crc val]. cbn [c_val] in Hv. subst val.
    destruct (N.leb_spec life (fw_u64 (a + res))); [discriminate|].
    intros [= <-]. exists (fw_u64 (a + res)). split; [|apply fw_set_first_map, Hnd]. split.
    + apply N.ltb_lt, N.mod_lt. discriminate.
    + intros c Hc Hct. rewrite (Huniq c Hc Hct). exists a. repeat split. assumption.
  - intros [= <-]. exists 0. split; [|symmetry; apply map_upd_id, S]. split; [reflexivity|].
    intros c Hc Hct. destruct (S c Hc Hct).
Qed.

Lemma fw_age_step_none res life l c a :
  NoDup (map c_type l) -> In c l -> c_val c = XAge a -> life <= fw_u64 (a + res) -> fw_age_step res life l = None.
Proof.
  intros Hnd Hc Hv Hle. unfold fw_age_step.
  rewrite (find_type_the 7 l c Hnd Hc) by (unfold c_type; rewrite Hv; reflexivity).
  destruct c as [num fl crc val]. cbn [c_val] in Hv. subst val.
  destruct (N.leb_spec life (fw_u64 (a + res))); [reflexivity|lia].
Qed.

Definition fw_set_or_add (v : ext) (l : list cblock) : list cblock :=
  match find_type (ext_type v) l with
  | Some _ => fw_set_first (ext_type v) v l
  | None => fw_add_block 0 0 v l
  end.

Lemma fw_prev_step_eq node l : fw_prev_step node l = fw_set_or_add (XPrev node) l.
Proof. reflexivity. Qed.

Lemma fw_alg_touch_some n b :
  fw_alg_touch (Some n) b = {| b_pri := b_pri b; b_blocks := fw_set_or_add (XSpray n) (b_blocks b) |}.
Proof. reflexivity. Qed.

Lemma fw_set_or_add_cases v l :
  NoDup (map c_type l) ->
  (exists c0, In c0 l /\ c_type c0 = ext_type v /\ fw_set_or_add v l = map (fw_upd (ext_type v) v) l)
  \/ ((forall c, In c l -> c_type c <> ext_type v) /\ fw_set_or_add v l = fw_add_block 0 0 v l).
Proof.
  intros Hnd. unfold fw_set_or_add. pose proof (find_type_spec (ext_type v) l Hnd) as S.
  destruct (find_type (ext_type v) l) as [c0|]; [left|right; auto].
  exists c0. rewrite fw_set_first_map by exact Hnd. tauto.
Qed.

Lemma fw_blocks_valid_set_or_add p v l :
  ext_type v <> 1 -> ext_valid v = true -> fw_blocks_valid p l -> fw_blocks_valid p (fw_set_or_add v l).
Proof.
  intros Ht Hval Hl. destruct (fw_set_or_add_cases v l (bv_types _ _ Hl)) as [(_ & _ & _ & ->)|(Hnone & ->)].
  - apply fw_blocks_valid_upd; auto.
  - apply fw_blocks_valid_add; auto.
Qed.

Lemma fw_set_or_add_old v l c :
  NoDup (map c_type l) -> In c l -> In (fw_upd (ext_type v) v c) (fw_set_or_add v l).
Proof.
  intros Hnd Hc. destruct (fw_set_or_add_cases v l Hnd) as [(_ & _ & _ & ->)|(Hnone & ->)]; [apply in_map, Hc|].
  rewrite fw_upd_other by (apply Hnone, Hc). destruct (fw_add_block_spec 0 0 v l) as (num & _ & _ & Hperm).
  apply (Permutation_in _ (Permutation_sym Hperm)). right. exact Hc.
Qed.

Lemma fw_set_or_add_inv v l c' :
  NoDup (map c_type l) -> In c' (fw_set_or_add v l) ->
  (exists c, In c l /\ c' = fw_upd (ext_type v) v c)
  \/ exists num, c' = {| c_num := num; c_flags := 0; c_crc := 0; c_val := v |}.
Proof.
  intros Hnd. destruct (fw_set_or_add_cases v l Hnd) as [(_ & _ & _ & ->)|(Hnone & ->)].
  - rewrite in_map_iff. intros (c & <- & Hc). eauto.
  - destruct (fw_add_block_spec 0 0 v l) as (num & _ & _ & Hperm).
    intros Hc'. apply (Permutation_in _ Hperm) in Hc'. destruct Hc' as [<-|Hc']; [eauto|].
    left. exists c'. split; [exact Hc'|]. symmetry. apply fw_upd_other, Hnone, Hc'.
Qed.

Lemma fw_set_or_add_has v l : NoDup (map c_type l) -> exists c', In c' (fw_set_or_add v l) /\ c_val c' = v.
Proof.
  intros Hnd. destruct (fw_set_or_add_cases v l Hnd) as [(c0 & Hin & Ht & ->)|(_ & ->)].
  - exists (fw_upd (ext_type v) v c0). split; [apply in_map, Hin|]. rewrite fw_upd_same by exact Ht. reflexivity.
  - destruct (fw_add_block_spec 0 0 v l) as (num & _ & _ & Hperm).
    eexists. split; [apply (Permutation_in _ (Permutation_sym Hperm)); left; reflexivity|reflexivity].
Qed.

Lemma fw_set_or_add_other_iff v l c :
  NoDup (map c_type l) -> c_type c <> ext_type v -> (In c l <-> In c (fw_set_or_add v l)).
Proof.
  intros Hnd Hct. split.
  - intros Hc. rewrite <- (fw_upd_other (ext_type v) v c Hct). apply fw_set_or_add_old; assumption.
  - intros Hc. destruct (fw_set_or_add_inv v l c Hnd Hc) as [(c0 & Hc0 & ->)|(num & ->)]; [|destruct Hct; reflexivity].
    rewrite fw_upd_type in Hct by reflexivity. rewrite fw_upd_other by exact Hct. exact Hc0.
Qed.

Lemma fw_set_or_add_length v l : NoDup (map c_type l) -> (length (fw_set_or_add v l) <= S (length l))%nat.
Proof.
  intros Hnd. destruct (fw_set_or_add_cases v l Hnd) as [(_ & _ & _ & ->)|(_ & ->)].
  - rewrite map_length. lia.
  - destruct (fw_add_block_spec 0 0 v l) as (num & _ & _ & Hperm). rewrite (Permutation_length Hperm). reflexivity.
Qed.

Definition fw_before_prev (vh va : ext) (l : list cblock) : list cblock :=
  map (fw_upd 7 va) (map (fw_upd 10 vh) (fw_strip l)).

Lemma fw_before_prev_valid p vh va l :
  ext_type vh = 10 -> ext_valid vh = true -> ext_type va = 7 -> fw_blocks_valid p l -> fw_blocks_valid p (fw_before_prev vh va l).
Proof.
  intros H1 H2 H3 Hl. unfold fw_before_prev. apply fw_blocks_valid_upd; [exact H3|lia| |].
  - destruct va; try discriminate H3; reflexivity.
  - apply fw_blocks_valid_upd; [exact H1|lia|exact H2|]. apply fw_blocks_valid_strip, Hl.
Qed.

Lemma fw_known_6_7_10 c : c_type c = 6 \/ c_type c = 7 \/ c_type c = 10 -> fw_removable c = false.
Proof. intros H. apply known_not_removable. destruct H as [->|[->| ->]]; reflexivity. Qed.

Lemma fw_strip_keeps c l : In c l -> c_type c = 6 \/ c_type c = 7 \/ c_type c = 10 -> In c (fw_strip l).
Proof. intros Hc Ht. apply fw_strip_in. split; [exact Hc|apply fw_known_6_7_10, Ht]. Qed.

Lemma lifetime_nonzero now b b' :
  p_time (b_pri b) <> 0 -> b_pri b' = b_pri b -> lifetime_exceeded now b' = lifetime_exceeded now b.
Proof. intros H E. unfold lifetime_exceeded. rewrite E. apply N.eqb_neq in H. rewrite H. reflexivity. Qed.

Lemma fw_forward_send_inv node now res b b' :
  fw_forward node now res b = FwSend b' ->
  exists l1 l2, fw_hop_step (fw_strip (b_blocks b)) = Some l1
    /\ lifetime_exceeded now {| b_pri := b_pri b; b_blocks := l1 |} = false
    /\ fw_age_step res (p_life (b_pri b)) l1 = Some l2
    /\ b' = {| b_pri := b_pri b; b_blocks := fw_prev_step node l2 |}.
Proof.
  unfold fw_forward. destruct (fw_hop_step (fw_strip (b_blocks b))) as [l1|] eqn:E1; [|discriminate].
  destruct (lifetime_exceeded now _) eqn:L; [discriminate|].
  destruct (fw_age_step res (p_life (b_pri b)) l1) as [l2|] eqn:E2; [|discriminate].
  intros [= <-]. exists l1, l2. auto.
Qed.

(* forward in normal form.  Blocks of type 7 and 10 are never stripped, so the two relations are stated for
   the accepted list; the lifetime test sees the block list only when there is no creation time *)
Lemma fw_forward_send_spec node now res b b' :
  fw_blocks_valid (b_pri b) (b_blocks b) -> fw_typed (b_blocks b) ->
  fw_forward node now res b = FwSend b' ->
  exists lim k' a',
    fw_hop_rel (b_blocks b) lim k'
    /\ fw_age_rel res (p_life (b_pri b)) (b_blocks b) a'
    /\ (p_time (b_pri b) <> 0 -> lifetime_exceeded now b = false)
    /\ fw_blocks_valid (b_pri b) (fw_before_prev (XHop lim k') (XAge a') (b_blocks b))
    /\ b' = {| b_pri := b_pri b; b_blocks := fw_set_or_add (XPrev node) (fw_before_prev (XHop lim k') (XAge a') (b_blocks b)) |}.
Proof.
  intros Hlok Hty H. apply fw_forward_send_inv in H. destruct H as (l1 & l2 & Eh & L & Ea & ->).
  pose proof (fw_blocks_valid_strip _ _ Hlok) as Hlok0. pose proof (fw_typed_strip _ Hty) as Hty0.
  destruct (fw_hop_step_some _ _ (bv_types _ _ Hlok0) Hty0 Eh) as (lim & k' & (Hle & Hh) & ->).
  apply fw_age_step_some in Ea;
    [|rewrite map_upd_types by reflexivity; apply Hlok0|apply fw_typed_upd; [exact I|exact Hty0]].
  destruct Ea as (a' & (Hu & Ha) & ->). exists lim, k', a'. split; [|split; [|split; [|split; [|reflexivity]]]].
  - split; [exact Hle|]. intros c Hc Hct. apply Hh; [apply fw_strip_keeps; auto|exact Hct].
  - split; [exact Hu|]. intros c Hc Hct. apply Ha; [|exact Hct].
    apply in_map_iff. exists c. split; [apply fw_upd_other; lia|apply fw_strip_keeps; auto].
  - intros Ht. rewrite <- L. symmetry. apply lifetime_nonzero; [exact Ht|reflexivity].
  - apply fw_before_prev_valid; [reflexivity|apply N.leb_le, Hle|reflexivity|exact Hlok].
Qed.

Lemma fw_before_prev_in vh va l c2 :
  In c2 (fw_before_prev vh va l) <-> exists c, In c l /\ fw_removable c = false /\ c2 = fw_upd 7 va (fw_upd 10 vh c).
Proof.
  unfold fw_before_prev. rewrite map_map, in_map_iff. split.
  - intros (c & <- & Hc). apply fw_strip_in in Hc. exists c. tauto.
  - intros (c & Hc & Hr & ->). exists c. split; [reflexivity|]. apply fw_strip_in. tauto.
Qed.

Definition fw_G (vh va vp : ext) (c : cblock) : cblock := fw_upd 6 vp (fw_upd 7 va (fw_upd 10 vh c)).

Lemma fw_G_type vh va vp c : ext_type vh = 10 -> ext_type va = 7 -> ext_type vp = 6 -> c_type (fw_G vh va vp c) = c_type c.
Proof. intros. unfold fw_G. rewrite !fw_upd_type; auto. Qed.
Lemma fw_G_10 vh va vp c : ext_type vh = 10 -> c_type c = 10 -> fw_G vh va vp c = fw_set_val c vh.
Proof.
  intros Hv Hc. unfold fw_G. rewrite (fw_upd_same 10 vh c Hc).
  rewrite (fw_upd_other 7); [|rewrite fw_set_val_type; lia]. apply fw_upd_other. rewrite fw_set_val_type. lia.
Qed.
Lemma fw_G_7 vh va vp c : ext_type va = 7 -> c_type c = 7 -> fw_G vh va vp c = fw_set_val c va.
Proof.
  intros Hv Hc. unfold fw_G. rewrite (fw_upd_other 10) by lia. rewrite (fw_upd_same 7 va c Hc).
  apply fw_upd_other. rewrite fw_set_val_type. lia.
Qed.
Lemma fw_G_6 vh va vp c : c_type c = 6 -> fw_G vh va vp c = fw_set_val c vp.
Proof.
  intros Hc. unfold fw_G. rewrite (fw_upd_other 10) by lia. rewrite (fw_upd_other 7) by lia. apply fw_upd_same, Hc.
Qed.
Lemma fw_G_other vh va vp c : c_type c <> 10 -> c_type c <> 7 -> c_type c <> 6 -> fw_G vh va vp c = c.
Proof. intros. unfold fw_G. rewrite (fw_upd_other 10) by assumption. rewrite (fw_upd_other 7) by assumption. apply fw_upd_other. assumption. Qed.

Definition fw_is_some {A} (o : option A) : bool := match o with Some _ => true | None => false end.

(* What is handed to the convergence layer, block by block: the images under fw_G of the accepted blocks
   that are not removed, possibly a new previous-node block, and the algorithm's own block.  The
   algorithm's step changes blocks of type 192 only, so for every other block membership reduces to
   membership after the previous-node step ([Hiff]). *)
Lemma fw_sent_spec vh va vp copies p l :
  ext_type vh = 10 -> ext_type va = 7 -> ext_type vp = 6 -> ext_valid vp = true ->
  fw_blocks_valid p (fw_before_prev vh va l) ->
  let sent := b_blocks (fw_alg_touch copies {| b_pri := p; b_blocks := fw_set_or_add vp (fw_before_prev vh va l) |}) in
  let other c := fw_is_some copies = true -> c_type c <> 192 in
  fw_blocks_valid p sent
  /\ (forall c, In c l -> fw_removable c = false -> other c -> In (fw_G vh va vp c) sent)
  /\ (forall c', In c' sent -> other c' ->
        (exists c, In c l /\ fw_removable c = false /\ c' = fw_G vh va vp c)
        \/ exists num, c' = {| c_num := num; c_flags := 0; c_crc := 0; c_val := vp |})
  /\ exists c', In c' sent /\ c_val c' = vp.
Proof.
  intros Hvh Hva Hvp Hval Hlok2 sent other. pose proof (bv_types _ _ Hlok2) as Hnd2.
  assert (Hlok3 : fw_blocks_valid p (fw_set_or_add vp (fw_before_prev vh va l))) by (apply fw_blocks_valid_set_or_add; [lia|exact Hval|exact Hlok2]).
  assert (Hiff : forall c, other c -> (In c (fw_set_or_add vp (fw_before_prev vh va l)) <-> In c sent)).
  { subst sent other. destruct copies as [n|]; [|reflexivity]. intros c Hc.
    apply (fw_set_or_add_other_iff (XSpray n)); [apply Hlok3|apply Hc; reflexivity]. }
  split; [|split; [|split]].
  - subst sent. destruct copies as [n|]; [|exact Hlok3].
    apply (fw_blocks_valid_set_or_add _ (XSpray n)); [cbn; lia|reflexivity|exact Hlok3].
  - intros c Hc Hr Ho. apply Hiff; [unfold other; rewrite fw_G_type by assumption; exact Ho|].
    unfold fw_G. rewrite <- Hvp. apply (fw_set_or_add_old vp _ _ Hnd2), fw_before_prev_in. eauto.
  - intros c' Hc' Ho. apply Hiff in Hc'; [|exact Ho].
    destruct (fw_set_or_add_inv vp _ _ Hnd2 Hc') as [(c2 & Hc2 & ->)|?]; [left|right; assumption].
    apply fw_before_prev_in in Hc2. destruct Hc2 as (c & Hc & Hr & ->). exists c. rewrite Hvp. auto.
  - destruct (fw_set_or_add_has vp _ Hnd2) as (c' & Hc' & Hv'). exists c'. split; [|exact Hv'].
    apply Hiff; [|exact Hc']. intros _. unfold c_type. rewrite Hv', Hvp. discriminate.
Qed.

Definition fw_special (owned : bool) (t : N) : bool :=
  (t =? 6) || (t =? 7) || (t =? 10) || (owned && (t =? 192)).

(* [b'] is a faithful copy of [b] made by node [node] after a residence of [res] ms; [owned]: the
   routing algorithm's own block (type 192) may have been added or rewritten *)
Record fw_faithful (node : eid) (res : N) (owned : bool) (b b' : bundle) : Prop := {
  ff_primary : b_pri b' = b_pri b;
  ff_kept : forall c, In c (b_blocks b) -> fw_special owned (c_type c) = false -> fw_removable c = false ->
            In c (b_blocks b');
  ff_only : forall c', In c' (b_blocks b') -> fw_special owned (c_type c') = false ->
            In c' (b_blocks b) /\ fw_removable c' = false;
  ff_hop : forall c, In c (b_blocks b) -> c_type c = 10 ->
           exists lim k, c_val c = XHop lim k /\ k + 1 <= lim /\ In (fw_set_val c (XHop lim (k + 1))) (b_blocks b');
  ff_hop_only : forall c', In c' (b_blocks b') -> c_type c' = 10 ->
           exists c lim k, In c (b_blocks b) /\ c_val c = XHop lim k /\ c' = fw_set_val c (XHop lim (k + 1));
  ff_age : forall c, In c (b_blocks b) -> c_type c = 7 ->
           exists a, c_val c = XAge a /\ In (fw_set_val c (XAge (fw_u64 (a + res)))) (b_blocks b');
  ff_age_only : forall c', In c' (b_blocks b') -> c_type c' = 7 ->
           exists c a, In c (b_blocks b) /\ c_val c = XAge a /\ c' = fw_set_val c (XAge (fw_u64 (a + res)));
  ff_prev : exists c', In c' (b_blocks b') /\ c_val c' = XPrev node
            /\ (forall c'', In c'' (b_blocks b') -> c_type c'' = 6 -> c'' = c')
            /\ (forall c, In c (b_blocks b) -> c_type c = 6 -> c' = fw_set_val c (XPrev node))
            /\ ((forall c, In c (b_blocks b) -> c_type c <> 6) -> c_flags c' = 0 /\ c_crc c' = 0) }.

Lemma fw_special_false owned t : fw_special owned t = false -> t <> 6 /\ t <> 7 /\ t <> 10 /\ (owned = true -> t <> 192).
Proof. unfold fw_special. destruct owned; cbn [andb]; lia. Qed.

Lemma lifetime_zero now b c a :
  NoDup (map c_type (b_blocks b)) -> p_time (b_pri b) = 0 -> In c (b_blocks b) -> c_val c = XAge a ->
  lifetime_exceeded now b = (p_life (b_pri b) <? a).
Proof.
  intros Hnd Ht Hc Hv. unfold lifetime_exceeded. rewrite Ht. cbn [N.eqb].
  rewrite (find_type_the 7 _ c Hnd Hc) by (unfold c_type; rewrite Hv; reflexivity).
  destruct c as [num fl crc val]. cbn [c_val] in Hv. subst val. reflexivity.
Qed.

Lemma fw_forward_valid node now res copies b b' :
  eid_valid node = true -> primary_valid (b_pri b) = true ->
  fw_blocks_valid (b_pri b) (b_blocks b) -> fw_typed (b_blocks b) -> fw_age_present (b_pri b) (b_blocks b) ->
  fw_forward node now res b = FwSend b' -> check_valid now (fw_alg_touch copies b') = true.
Proof.
  intros Hnode Hpv Hlok Hty Hap H.
  destruct (fw_forward_send_spec _ _ _ _ _ Hlok Hty H) as (lim & k' & a' & _ & (_ & Ha) & Hl & Hlok2 & ->).
  set (vh := XHop lim k') in *. set (va := XAge a') in *. set (vp := XPrev node). set (l := b_blocks b) in *. set (p := b_pri b) in *.
  destruct (fw_sent_spec vh va vp copies p l eq_refl eq_refl eq_refl Hnode Hlok2) as (Hlok'' & Hold & _).
  set (b'' := fw_alg_touch copies _) in *.
  assert (Hpri : b_pri b'' = p) by (subst b''; destruct copies; reflexivity).
  assert (Hage : forall c, In c l -> c_type c = 7 -> In (fw_set_val c va) (b_blocks b'') /\ a' < p_life p).
  { intros c Hc Hct. destruct (Ha c Hc Hct) as (a & _ & _ & Hlt). split; [|exact Hlt].
    rewrite <- (fw_G_7 vh va vp c eq_refl Hct). apply Hold; [exact Hc|apply fw_known_6_7_10; auto|lia]. }
  apply check_valid_iff. rewrite Hpri. split; [exact Hpv|]. split; [exact Hlok''|]. split.
  - intros Ht. destruct (Hap Ht) as (c & Hc & Hct). exists (fw_set_val c va). split; [apply Hage; assumption|reflexivity].
  - destruct (N.eq_dec (p_time p) 0) as [Ht|Ht].
    + destruct (Hap Ht) as (c & Hc & Hct). destruct (Hage c Hc Hct) as [Hin Hlt].
      rewrite (lifetime_zero now b'' (fw_set_val c va) a' (bv_types _ _ Hlok'')), Hpri; [lia|rewrite Hpri; exact Ht|exact Hin|reflexivity].
    + rewrite <- (Hl Ht). apply lifetime_nonzero; [exact Ht|exact Hpri].
Qed.

Definition fw_val_ok (v : ext) : bool :=
  ext_wf v && match enc_ext_inner v with Some i => len_ok i | None => false end.

Lemma cblock_wf_new num fl crc v :
  u64_ok num = true -> u64_ok fl = true -> crc_type_ok crc = true -> fw_val_ok v = true ->
  cblock_wf {| c_num := num; c_flags := fl; c_crc := crc; c_val := v |} = true.
Proof. unfold cblock_wf, fw_val_ok. cbn [c_num c_flags c_crc c_val]. intros -> -> -> Hv. exact Hv. Qed.

Lemma cblock_wf_set_val c v : cblock_wf c = true -> fw_val_ok v = true -> cblock_wf (fw_set_val c v) = true.
Proof.
  unfold cblock_wf at 1. rewrite !andb_true_iff. intros ((((H1 & H2) & H3) & _) & _) Hv. apply cblock_wf_new; assumption.
Qed.

Lemma wf_upd t v l :
  (forall c, In c l -> c_type c = t -> fw_val_ok v = true) ->
  forallb cblock_wf l = true -> forallb cblock_wf (map (fw_upd t v) l) = true.
Proof.
  rewrite !forallb_forall. intros Hv Hwf c' Hc'. apply in_map_iff in Hc'. destruct Hc' as (c & <- & Hc).
  unfold fw_upd. destruct (N.eqb_spec (c_type c) t); [apply cblock_wf_set_val; eauto|apply Hwf, Hc].
Qed.

Lemma fw_val_ok_hop lim k : lim <= 255 -> k <= 255 -> fw_val_ok (XHop lim k) = true.
Proof.
  intros H1 H2. unfold fw_val_ok. cbn [ext_wf enc_ext_inner]. apply andb_true_intro. split; [lia|].
  apply len_ok_small. rewrite !app_length. unfold enc_arr, enc_uint.
  pose proof (head_bytes_length_le mArray 2). pose proof (head_bytes_length_le mUInt lim). pose proof (head_bytes_length_le mUInt k). lia.
Qed.

Lemma fw_val_ok_uint n : u64_ok n = true -> fw_val_ok (XAge n) = true /\ fw_val_ok (XSpray n) = true.
Proof.
  intros H. unfold fw_val_ok. cbn [ext_wf enc_ext_inner]. rewrite H. cbn [andb].
  assert (len_ok (enc_uint n) = true); [|auto].
  apply len_ok_small. unfold enc_uint. pose proof (head_bytes_length_le mUInt n). lia.
Qed.

(* C06's assumption on an accepted bundle: fewer than 2^32 blocks *)
Definition fw_small (l : list cblock) : Prop := nlen l < 4294967296.

(* the number of a new block is at most 2 + S (length l) (fw_add_block_spec) and has to be a uint64;
   2^62 is slack, and the 2^32 of fw_small stays below it after the two blocks that forward may add *)
Lemma fw_set_or_add_wf v l :
  NoDup (map c_type l) -> ext_type v <> 1 -> fw_val_ok v = true -> nlen l < 4611686018427387904 ->
  forallb cblock_wf l = true -> forallb cblock_wf (fw_set_or_add v l) = true.
Proof.
  intros Hnd Ht Hv Hs Hwf. destruct (fw_set_or_add_cases v l Hnd) as [(_ & _ & _ & ->)|(_ & ->)]; [apply wf_upd; auto|].
  destruct (fw_add_block_spec 0 0 v l) as (num & _ & Hrange & Hperm).
  rewrite forallb_forall in *. intros c' Hc'. apply (Permutation_in _ Hperm) in Hc'. destruct Hc' as [<-|Hc']; [|apply Hwf, Hc'].
  apply cblock_wf_new; [|reflexivity|reflexivity|exact Hv].
  apply N.eqb_neq in Ht. rewrite Ht in Hrange. unfold u64_ok, nlen in *. lia.
Qed.

Lemma fw_before_prev_length vh va l : (length (fw_before_prev vh va l) <= length l)%nat.
Proof. unfold fw_before_prev, fw_strip. rewrite !map_length. apply filter_length_le. Qed.

Definition fw_node_ok (node : eid) : bool := eid_valid node && fw_val_ok (XPrev node).

Lemma wf_hop_range c lim k : cblock_wf c = true -> c_val c = XHop lim k -> lim <= 255 /\ k <= 255.
Proof.
  unfold cblock_wf. intros H Hv. rewrite Hv in H. cbn [ext_wf] in H.
  rewrite !andb_true_iff in H. lia.
Qed.

Definition fw_copies_ok (c : option N) : Prop := match c with Some n => u64_ok n = true | None => True end.

Lemma fw_touch_wf b' copies :
  fw_copies_ok copies -> NoDup (map c_type (b_blocks b')) -> nlen (b_blocks b') < 4611686018427387904 ->
  bundle_wf b' = true -> bundle_wf (fw_alg_touch copies b') = true.
Proof.
  intros Hc Hnd Hs H. destruct copies as [n|]; [|exact H]. rewrite fw_alg_touch_some.
  unfold bundle_wf in *. cbn [b_pri b_blocks]. apply andb_prop in H. destruct H as [H1 H2]. rewrite H1. cbn [andb].
  apply fw_set_or_add_wf; [exact Hnd|cbn; lia|apply (fw_val_ok_uint _ Hc)|exact Hs|exact H2].
Qed.

Lemma fw_forward_wf node now res copies b b' :
  fw_node_ok node = true -> fw_copies_ok copies -> bundle_wf b = true -> fw_blocks_valid (b_pri b) (b_blocks b) ->
  fw_small (b_blocks b) -> fw_forward node now res b = FwSend b' -> bundle_wf (fw_alg_touch copies b') = true.
Proof.
  intros Hnode Hcop Hwf Hlok Hs H. apply andb_prop in Hwf. destruct Hwf as [Hwp Hwb].
  destruct (fw_forward_send_spec _ _ _ _ _ Hlok (wf_typed _ Hwb) H) as (lim & k' & a' & (Hle & Hh) & (Hu & _) & _ & Hlok2 & ->).
  apply andb_prop in Hnode. destruct Hnode as [Hnv Hnok]. pose proof (bv_types _ _ Hlok2) as Hnd2.
  pose proof (fw_before_prev_length (XHop lim k') (XAge a') (b_blocks b)) as Hlen.
  pose proof (fw_set_or_add_length (XPrev node) _ Hnd2) as Hlen'. unfold fw_small, nlen in Hs.
  apply fw_touch_wf; cbn [b_pri b_blocks]; [exact Hcop| |unfold nlen; lia|].
  { apply (bv_types (b_pri b)), fw_blocks_valid_set_or_add; [cbn; lia|exact Hnv|exact Hlok2]. }
  unfold bundle_wf. cbn [b_pri b_blocks]. rewrite Hwp. cbn [andb].
  apply fw_set_or_add_wf; [exact Hnd2|cbn; lia|exact Hnok|unfold nlen; lia|].
  rewrite forallb_forall in Hwb. unfold fw_before_prev. apply wf_upd; [intros _ _ _; apply (fw_val_ok_uint _ Hu)|]. apply wf_upd.
  - intros c Hc Hct. apply fw_strip_in in Hc. destruct Hc as [Hc _]. destruct (Hh c Hc Hct) as (k & Hv & _).
    destruct (wf_hop_range c lim k (Hwb c Hc) Hv) as [Hlim _]. apply fw_val_ok_hop; lia.
  - apply forallb_forall. intros c Hc. apply fw_strip_in in Hc. apply Hwb, Hc.
Qed.

Lemma fw_forward_faithful node now res copies b b' :
  eid_valid node = true ->
  fw_blocks_valid (b_pri b) (b_blocks b) -> fw_typed (b_blocks b) ->
  fw_forward node now res b = FwSend b' -> fw_faithful node res (fw_is_some copies) b (fw_alg_touch copies b').
Proof.
  intros Hnode Hlok Hty H. destruct (fw_forward_send_spec _ _ _ _ _ Hlok Hty H) as (lim & k' & a' & (Hle & Hh) & (_ & Ha) & _ & Hlok2 & ->).
  set (vh := XHop lim k') in *. set (va := XAge a') in *. set (vp := XPrev node). set (l := b_blocks b) in *.
  destruct (fw_sent_spec vh va vp copies (b_pri b) l eq_refl eq_refl eq_refl Hnode Hlok2) as (Hlok'' & Hold & Hinv & Hhas).
  set (b'' := fw_alg_touch copies _) in *.
  assert (Hpre : forall c' t, In c' (b_blocks b'') -> c_type c' = t -> t = 7 \/ t = 10 ->
            exists c, In c l /\ c_type c = t /\ c' = fw_G vh va vp c).
  { intros c' t Hc' Hct Ht. destruct (Hinv c' Hc') as [(c & Hc & _ & ->)|(num & ->)]; [lia| |cbn in Hct; lia].
    rewrite fw_G_type in Hct by reflexivity. eauto. }
  constructor.
  - subst b''. destruct copies; reflexivity.
  - intros c Hc Hs Hr. apply fw_special_false in Hs. destruct Hs as (N6 & N7 & N10 & N192).
    rewrite <- (fw_G_other vh va vp c N10 N7 N6). apply Hold; assumption.
  - intros c' Hc' Hs. apply fw_special_false in Hs. destruct Hs as (N6 & N7 & N10 & N192).
    destruct (Hinv c' Hc' N192) as [(c & Hc & Hr & ->)|(num & ->)]; [|destruct N6; reflexivity].
    rewrite fw_G_type in N6, N7, N10 by reflexivity. rewrite fw_G_other by assumption. auto.
  - intros c Hc Hct. destruct (Hh c Hc Hct) as (k & Hv & Hk). exists lim, k. rewrite <- Hk.
    rewrite <- (fw_G_10 (XHop lim k') va vp c eq_refl Hct).
    split; [exact Hv|]. split; [exact Hle|]. apply Hold; [exact Hc|apply fw_known_6_7_10; auto|lia].
  - intros c' Hc' Hct. destruct (Hpre c' 10 Hc' Hct) as (c & Hc & Hct0 & ->); [auto|].
    destruct (Hh c Hc Hct0) as (k & Hv & Hk). exists c, lim, k. rewrite <- Hk. auto using fw_G_10.
  - intros c Hc Hct. destruct (Ha c Hc Hct) as (a & Hv & Hk & _). exists a. rewrite <- Hk.
    rewrite <- (fw_G_7 vh (XAge a') vp c eq_refl Hct).
    split; [exact Hv|]. apply Hold; [exact Hc|apply fw_known_6_7_10; auto|lia].
  - intros c' Hc' Hct. destruct (Hpre c' 7 Hc' Hct) as (c & Hc & Hct0 & ->); [auto|].
    destruct (Ha c Hc Hct0) as (a & Hv & Hk & _). exists c, a. rewrite <- Hk. auto using fw_G_7.
  - destruct Hhas as (c' & Hc' & Hv'). exists c'.
    assert (Hct' : c_type c' = 6) by (unfold c_type; rewrite Hv'; reflexivity).
    assert (Huniq : forall c'', In c'' (b_blocks b'') -> c_type c'' = 6 -> c'' = c').
    { intros c'' Hc'' Hct. apply (NoDup_map_inj_in c_type _ _ _ (bv_types _ _ Hlok'') Hc'' Hc'). congruence. }
    split; [exact Hc'|]. split; [exact Hv'|]. split; [exact Huniq|]. split.
    + intros c Hc Hct. rewrite <- (fw_G_6 vh va (XPrev node) c Hct). symmetry.
      apply Huniq; [apply Hold; [exact Hc|apply fw_known_6_7_10; auto|lia]|]. rewrite fw_G_type; auto.
    + intros Hnone. destruct (Hinv c' Hc') as [(c & Hc & _ & E)|(num & ->)]; [lia| |auto].
      destruct (Hnone c Hc). rewrite <- (fw_G_type vh va vp c eq_refl eq_refl eq_refl), <- E. exact Hct'.
Qed.

Lemma fw_receive_blocks_strip l r : fw_receive_blocks l = Some r -> r = fw_strip l.
Proof.
  revert r. induction l as [|c l IH]; cbn [fw_receive_blocks]; intros r H; [inversion H; reflexivity|].
  destruct (fw_receive_blocks l) as [r0|]; [|discriminate]. specialize (IH r0 eq_refl). subst r0.
  unfold fw_strip. cbn [filter]. unfold fw_removable at 1.
  destruct (fw_unknown c); cbn [negb andb] in *; [|inversion H; reflexivity].
  destruct (has (c_flags c) BF_DELETE); [discriminate|].
  destruct (has (c_flags c) BF_REMOVE); cbn [negb]; inversion H; reflexivity.
Qed.

Lemma fw_strip_idem l : fw_strip (fw_strip l) = fw_strip l.
Proof. apply filter_idem. Qed.

Lemma fw_forward_strip node now res p l :
  fw_forward node now res {| b_pri := p; b_blocks := fw_strip l |} = fw_forward node now res {| b_pri := p; b_blocks := l |}.
Proof. unfold fw_forward. cbn [b_pri b_blocks]. rewrite fw_strip_idem. reflexivity. Qed.

Lemma fw_receive_cases node now res b :
  fw_receive node now res b = FwRefuse FwUnsupported \/ fw_receive node now res b = fw_forward node now res b.
Proof.
  unfold fw_receive. destruct (fw_receive_blocks (b_blocks b)) as [r|] eqn:E; [|left; reflexivity].
  right. rewrite (fw_receive_blocks_strip _ _ E), fw_forward_strip. destruct b; reflexivity.
Qed.

Lemma fw_receive_send node now res b b' :
  fw_receive node now res b = FwSend b' -> fw_forward node now res b = FwSend b'.
Proof. intros H. destruct (fw_receive_cases node now res b) as [E|E]; rewrite E in H; [discriminate|exact H]. Qed.

Lemma fw_retry_send node now res b b' :
  fw_retry node now res b = FwSend b' -> fw_forward node now res b = FwSend b'.
Proof. unfold fw_retry. destruct (check_valid now b); [auto|discriminate]. Qed.

Definition fw_hop_over (b : bundle) : Prop :=
  exists c lim k, In c (b_blocks b) /\ c_val c = XHop lim k /\ lim < k + 1.
Definition fw_time_over (now : N) (b : bundle) : Prop :=
  p_time (b_pri b) <> 0 /\ lifetime_exceeded now b = true.
Definition fw_age_over (res : N) (b : bundle) : Prop :=
  exists c a, In c (b_blocks b) /\ c_val c = XAge a /\ a + res < 18446744073709551616 /\ p_life (b_pri b) <= a + res.
Definition fw_must_refuse (now res : N) (b : bundle) : Prop :=
  fw_hop_over b \/ fw_time_over now b \/ fw_age_over res b.

Lemma fw_forward_not_load node now res b : fw_forward node now res b <> FwRefuse FwLoad.
Proof.
  unfold fw_forward. destruct (fw_hop_step _); [|discriminate].
  destruct (lifetime_exceeded _ _); [discriminate|]. destruct (fw_age_step _ _ _); discriminate.
Qed.

Definition fw_accepted (now : N) (b : bundle) : Prop :=
  bundle_wf b = true /\ check_valid now b = true /\ fw_small (b_blocks b).

Lemma fw_accepted_parts now b :
  fw_accepted now b ->
  primary_valid (b_pri b) = true /\ fw_blocks_valid (b_pri b) (b_blocks b) /\ fw_typed (b_blocks b)
  /\ fw_age_present (b_pri b) (b_blocks b).
Proof.
  intros (Hwf & Hv & _). apply check_valid_iff in Hv. destruct Hv as (Hp & Hlok & Hap & _).
  apply andb_prop in Hwf. destruct Hwf as [_ Hwb].
  split; [exact Hp|]. split; [exact Hlok|]. split; [apply wf_typed, Hwb|exact Hap].
Qed.

(* what is sent satisfies the hop limit, the lifetime and the age bound (fw_forward_send_spec); each
   disjunct of fw_must_refuse contradicts one of them *)
Lemma fw_forward_refuse node now0 now res b :
  fw_accepted now0 b -> fw_must_refuse now res b ->
  exists r, r <> FwLoad /\ fw_forward node now res b = FwRefuse r.
Proof.
  intros Hacc Hm. destruct (fw_accepted_parts _ _ Hacc) as (_ & Hlok & Hty & _).
  destruct (fw_forward node now res b) as [r|b'] eqn:E.
  { exists r. split; [|reflexivity]. intros ->. exact (fw_forward_not_load _ _ _ _ E). }
  exfalso. destruct (fw_forward_send_spec _ _ _ _ _ Hlok Hty E) as (lim & k' & a' & (Hle & Hh) & (_ & Ha) & Hl & _).
  destruct Hm as [(c & lim0 & k & Hc & Hv & Hlt)|[(Ht & Hx)|(c & a & Hc & Hv & Hfit & Hge)]].
  - destruct (Hh c Hc) as (k0 & Hv0 & ->); [unfold c_type; rewrite Hv; reflexivity|].
    rewrite Hv in Hv0. injection Hv0 as <- <-. lia.
  - rewrite (Hl Ht) in Hx. discriminate.
  - destruct (Ha c Hc) as (a0 & Hv0 & -> & Hlt); [unfold c_type; rewrite Hv; reflexivity|].
    rewrite Hv in Hv0. injection Hv0 as <-. unfold fw_u64 in Hlt. rewrite N.mod_small in Hlt by exact Hfit. lia.
Qed.

Lemma fw_store_after_refuse b keep r : r <> FwLoad -> fw_store_after b keep (FwRefuse r) = None.
Proof. destruct r; try reflexivity. congruence. Qed.

Lemma check_valid_time now0 now b :
  check_valid now0 b = true -> check_valid now b = negb (lifetime_exceeded now b).
Proof.
  unfold check_valid. cbv zeta. intros H. apply andb_prop in H. destruct H as [H _]. rewrite H. reflexivity.
Qed.

Lemma lifetime_zero_indep now now' b : p_time (b_pri b) = 0 -> lifetime_exceeded now b = lifetime_exceeded now' b.
Proof. intros H. unfold lifetime_exceeded. rewrite H. reflexivity. Qed.

Lemma fw_load_fails now0 now b :
  check_valid now0 b = true -> check_valid now b = false -> p_time (b_pri b) <> 0 /\ lifetime_exceeded now b = true.
Proof.
  intros H0 H. rewrite (check_valid_time now0 now b H0) in H. apply negb_false_iff in H. split; [|exact H].
  intros Ht. rewrite (lifetime_zero_indep now now0 b Ht) in H.
  apply check_valid_iff in H0. destruct H0 as (_ & _ & _ & L0). congruence.
Qed.

Lemma fw_store_expired_mono now now' b :
  p_time (b_pri b) <> 0 -> lifetime_exceeded now b = true -> now <= now' -> fw_store_expired now' b = true.
Proof.
  intros Ht Hl Hle. unfold lifetime_exceeded in Hl. apply N.eqb_neq in Ht. rewrite Ht in Hl.
  unfold fw_store_expired. apply Z.ltb_lt in Hl. apply Z.ltb_lt. unfold ms1970to2k in *. lia.
Qed.

Definition fw_out_of (node : eid) (b : bundle) (o : fw_out) : Prop :=
  fo_result o = fw_touch_result (fo_copies o) (fw_receive node (fo_now o) (fo_res o) b)
  \/ fo_result o = fw_touch_result (fo_copies o) (fw_retry node (fo_now o) (fo_res o) b).

Lemma fw_store_after_inv b keep r : fw_store_after b keep r = None \/ fw_store_after b keep r = Some b.
Proof. destruct r as [[]|]; destruct keep; cbn; auto. Qed.

(* pair equations are split by [pair_equal_spec]: [injection] and [inversion] would first normalise
   the components, among them the whole of CheckValid inside fw_retry *)
Lemma fw_step_inv node b st e st' outs :
  (st = None \/ st = Some b) -> fw_step node st e = (st', outs) ->
  (st' = None \/ st' = Some b) /\ forall o, In o outs -> fw_out_of node b o.
Proof.
  intros [->| ->]; cbn [fw_step]; intros H.
  - apply pair_equal_spec in H. destruct H as [<- <-]. split; [auto|intros o []].
  - destruct e as [now res copies keep|now]; apply pair_equal_spec in H; destruct H as [<- <-].
    + split; [apply fw_store_after_inv|]. intros o [<-|[]]. right. reflexivity.
    + split; [|intros o []]. destruct (negb (p_time (b_pri b) =? 0) && fw_store_expired now b); auto.
Qed.

Lemma fw_run_inv node b es : forall st st' outs,
  (st = None \/ st = Some b) -> fw_run node st es = (st', outs) -> forall o, In o outs -> fw_out_of node b o.
Proof.
  induction es as [|e es IH]; intros st st' outs Hst H o Ho; cbn [fw_run] in H.
  - apply pair_equal_spec in H. destruct H as [_ <-]. destruct Ho.
  - destruct (fw_step node st e) as [st1 o1] eqn:E1. destruct (fw_run node st1 es) as [st2 o2] eqn:E2.
    apply pair_equal_spec in H. destruct H as [_ <-]. destruct (fw_step_inv _ _ _ _ _ _ Hst E1) as [Hst1 Ho1].
    apply in_app_or in Ho. destruct Ho as [Ho|Ho]; [apply Ho1, Ho|exact (IH _ _ _ Hst1 E2 o Ho)].
Qed.

Lemma fw_history_inv node now res copies keep b es st outs :
  fw_history node now res copies keep b es = (st, outs) -> forall o, In o outs -> fw_out_of node b o.
Proof.
  unfold fw_history, fw_accept. intros H.
  destruct (fw_run node _ es) as [st2 o2] eqn:E2. apply pair_equal_spec in H. destruct H as [_ <-].
  intros o [<-|Ho]; [left; reflexivity|]. exact (fw_run_inv _ _ _ _ _ _ (fw_store_after_inv b keep _) E2 o Ho).
Qed.

Lemma fw_touch_result_send copies r b'' :
  fw_touch_result copies r = FwSend b'' -> exists b', r = FwSend b' /\ b'' = fw_alg_touch copies b'.
Proof. destruct r as [rr|b']; cbn [fw_touch_result]; intros [= <-]. eauto. Qed.

Lemma fw_out_send node b o b'' :
  fw_out_of node b o -> fo_result o = FwSend b'' ->
  exists b', fw_forward node (fo_now o) (fo_res o) b = FwSend b' /\ b'' = fw_alg_touch (fo_copies o) b'.
Proof.
  intros [E|E] H; rewrite E in H; apply fw_touch_result_send in H; destruct H as (b' & Hr & ->); exists b'; split; auto.
  - apply fw_receive_send, Hr.
  - apply fw_retry_send, Hr.
Qed.

(* the payload block, as found by Bundle.PayloadBlock *)
Lemma fw_faithful_payload node res owned b b' :
  fw_blocks_valid (b_pri b) (b_blocks b) -> NoDup (map c_type (b_blocks b')) ->
  fw_faithful node res owned b b' -> payload_of b' = payload_of b.
Proof.
  intros [_ _ Hnd (pre & pl & Hbl & Hpl)] Hnd' F.
  assert (Hin : In pl (b_blocks b)) by (rewrite Hbl; apply in_or_app; right; left; reflexivity).
  assert (Hin' : In pl (b_blocks b')).
  { apply (ff_kept _ _ _ _ _ F pl Hin); [rewrite Hpl; destruct owned; reflexivity|].
    apply known_not_removable. rewrite Hpl. reflexivity. }
  unfold payload_of. rewrite (find_type_the 1 _ pl Hnd Hin Hpl), (find_type_the 1 _ pl Hnd' Hin' Hpl). reflexivity.
Qed.

(* everything C06 says of the copy [b''] of [b] transmitted as output [o]: it encodes, parses back to itself,
   has the accepted bundle's primary block and payload, passes CheckValid and is faithful (grouped as in
   C06_faithful and C06_faithful_timed, which are instances) *)
Lemma fw_send_all node now0 b o b'' :
  fw_node_ok node = true -> fw_accepted now0 b -> fw_out_of node b o -> fw_copies_ok (fo_copies o) ->
  fo_result o = FwSend b'' ->
  (enc_bundle b'' = Some (bundle_bytes b'')
   /\ dec_bundle (fo_now o) (bundle_bytes b'') = Some (b'', [])
   /\ primary_bytes (b_pri b'') = primary_bytes (b_pri b)
   /\ payload_of b'' = payload_of b)
  /\ check_valid (fo_now o) b'' = true
  /\ fw_faithful node (fo_res o) (fw_is_some (fo_copies o)) b b''.
Proof.
  intros Hnode Hacc Hof Hcop Hres.
  destruct (fw_out_send _ _ _ _ Hof Hres) as (b' & Hf & ->).
  destruct (fw_accepted_parts _ _ Hacc) as (Hpv & Hlok & Hty & Hap). destruct Hacc as (Hwf & _ & Hsmall).
  pose proof Hnode as Hnv. apply andb_prop in Hnv. destruct Hnv as [Hnv _].
  pose proof (fw_forward_valid _ _ _ (fo_copies o) _ _ Hnv Hpv Hlok Hty Hap Hf) as Hv.
  pose proof (fw_forward_wf _ _ _ _ _ _ Hnode Hcop Hwf Hlok Hsmall Hf) as Hwf''.
  pose proof (fw_forward_faithful _ _ _ (fo_copies o) _ _ Hnv Hlok Hty Hf) as Hff.
  set (b'' := fw_alg_touch (fo_copies o) b') in *.
  split; [|split; assumption]. split; [apply enc_bundle_ok, Hwf''|]. split.
  - rewrite <- (app_nil_r (bundle_bytes b'')) at 1. apply dec_bundle_enc; assumption.
  - split; [rewrite (ff_primary _ _ _ _ _ Hff); reflexivity|].
    apply check_valid_iff in Hv. destruct Hv as (_ & Hlok'' & _).
    apply (fw_faithful_payload _ _ _ _ _ Hlok (bv_types _ _ Hlok'') Hff).
Qed.

Lemma fw_out_refuse node now0 b o :
  fw_accepted now0 b -> fw_out_of node b o -> fw_must_refuse (fo_now o) (fo_res o) b ->
  exists r, fo_result o = FwRefuse r.
Proof.
  intros Hacc Hof Hm. destruct (fw_forward_refuse node _ _ _ _ Hacc Hm) as (r & _ & Hr).
  destruct Hof as [E|E]; rewrite E.
  - destruct (fw_receive_cases node (fo_now o) (fo_res o) b) as [E'|E']; rewrite E'; [eexists; reflexivity|].
    rewrite Hr. eexists; reflexivity.
  - unfold fw_retry. destruct (check_valid (fo_now o) b); [rewrite Hr|]; eexists; reflexivity.
Qed.

(* a refused bundle is dropped from the store: at once, or (a stored copy that no longer loads because its
   creation-time lifetime is over) by the next clean_store sweep *)
Definition fw_gone_or_swept (node : eid) (now : N) (b : bundle) (st : option bundle) : Prop :=
  st = None
  \/ (st = Some b /\ p_time (b_pri b) <> 0 /\ lifetime_exceeded now b = true
      /\ forall now', now <= now' -> fw_step node st (FwEvClean now') = (None, [])).

Lemma fw_swept node now b :
  p_time (b_pri b) <> 0 -> lifetime_exceeded now b = true ->
  forall now', now <= now' -> fw_step node (Some b) (FwEvClean now') = (None, []).
Proof.
  intros Ht Hl now' Hle. cbn [fw_step]. rewrite (fw_store_expired_mono _ _ _ Ht Hl Hle).
  apply N.eqb_neq in Ht. rewrite Ht. reflexivity.
Qed.

Lemma fw_tstep_stored node it e st' outs :
  fw_tstep node (Some it) e = (st', outs) ->
  (st' = None \/ st' = Some it) /\ forall o, In o outs -> fw_out_of node (ti_b it) o.
Proof.
  destruct it as [b rx]. destruct e as [b2 wall delay now copies keep|wall now copies keep|now]; cbn [fw_tstep ti_b ti_rx]; intros H.
  { apply pair_equal_spec in H. destruct H as [<- <-]. split; [auto|intros o []]. }
  all: destruct (fw_step node (Some b) _) as [s o'] eqn:E; apply pair_equal_spec in H; destruct H as [<- <-];
    destruct (fw_step_inv node b _ _ _ _ (or_intror eq_refl) E) as [Hs Ho]; split; [destruct Hs as [->| ->]; cbn [fw_tlift]; auto|exact Ho].
Qed.

Lemma fw_trun_app node es1 : forall st es2,
  fw_trun node st (es1 ++ es2) =
  let '(st1, o1) := fw_trun node st es1 in let '(st2, o2) := fw_trun node st1 es2 in (st2, o1 ++ o2).
Proof.
  induction es1 as [|e es1 IH]; intros st es2; cbn [fw_trun app].
  - destruct (fw_trun node st es2); reflexivity.
  - destruct (fw_tstep node st e) as [st1 o1]. rewrite IH.
    destruct (fw_trun node st1 es1) as [st2 o2]. destruct (fw_trun node st2 es2) as [st3 o3]. rewrite app_assoc. reflexivity.
Qed.

Lemma fw_tstep_src node (P : bundle -> Prop) st e st' outs :
  (forall it, st = Some it -> P (ti_b it)) ->
  (forall b wall delay now copies keep, e = FwTRecv b wall delay now copies keep -> P b) ->
  fw_tstep node st e = (st', outs) ->
  (forall o, In o outs -> exists b, P b /\ fw_out_of node b o) /\ (forall it, st' = Some it -> P (ti_b it)).
Proof.
  intros Hst He H. destruct st as [it|].
  - destruct (fw_tstep_stored _ _ _ _ _ H) as [Hs Ho]. specialize (Hst it eq_refl). split; [eauto|].
    intros it' ->. destruct Hs as [Hs|[= ->]]; [discriminate|exact Hst].
  - destruct e as [b wall delay now copies keep|wall now copies keep|now]; cbn [fw_tstep fw_accept] in H;
      apply pair_equal_spec in H; destruct H as [<- <-]; [|split; [intros o []|discriminate]..].
    specialize (He b _ _ _ _ _ eq_refl). split.
    + intros o [<-|[]]. exists b. split; [exact He|left; reflexivity].
    + intros it'. destruct (fw_store_after_inv b keep (fw_touch_result copies (fw_receive node now delay b))) as [-> | ->];
        cbn [fw_tlift]; [discriminate|]. intros [= <-]. exact He.
Qed.

Lemma fw_trun_src node (P : bundle -> Prop) es : forall st st' outs,
  (forall it, st = Some it -> P (ti_b it)) -> (forall b, In b (fw_thanded es) -> P b) ->
  fw_trun node st es = (st', outs) ->
  forall o, In o outs -> exists b, P b /\ fw_out_of node b o.
Proof.
  induction es as [|e es IH]; intros st st' outs Hst Hes H o Ho; cbn [fw_trun] in H.
  - apply pair_equal_spec in H. destruct H as [_ <-]. destruct Ho.
  - destruct (fw_tstep node st e) as [st1 o1] eqn:E1. destruct (fw_trun node st1 es) as [st2 o2] eqn:E2.
    apply pair_equal_spec in H. destruct H as [_ <-].
    destruct (fw_tstep_src node P st e st1 o1 Hst) as [Ho1 Hst1]; [|exact E1|].
    { intros b wall delay now copies keep ->. apply Hes. left. reflexivity. }
    apply in_app_or in Ho. destruct Ho as [Ho|Ho]; [apply Ho1, Ho|].
    apply (IH st1 st2 o2 Hst1); [|exact E2|exact Ho]. intros b Hb. apply Hes. destruct e; cbn [fw_thanded]; auto using in_cons.
Qed.

Lemma fw_trun_handed node es st outs :
  fw_trun node None es = (st, outs) ->
  forall o, In o outs -> exists b, In b (fw_thanded es) /\ fw_out_of node b o.
Proof. intros H. apply (fw_trun_src node _ es None st outs); [discriminate|auto|exact H]. Qed.
