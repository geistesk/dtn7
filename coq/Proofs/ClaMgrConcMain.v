(* ClaMgrConcMain.v - puts the parallel explorations (ClaMgrConcRun0..6.v) together: every
   configuration within the C16 bound that obeys cmc_cfg_ok has only good reachable states
   ([cmc_c16_good], from which the three bounded theorems of Properties/C16_conc.v are read off). *)
From DTN Require Import Base ClaMgrConc ClaMgrConcProofs
  ClaMgrConcRun0 ClaMgrConcRun1 ClaMgrConcRun2 ClaMgrConcRun3 ClaMgrConcRun4 ClaMgrConcRun5 ClaMgrConcRun6.
Open Scope nat_scope.

Lemma cmc_slices_cover : forall n l (f : cmc_cfg -> bool), n <> 0 ->
  (forall i, i < n -> forallb f (cmc_slice n i l) = true) -> forall c, In c l -> f c = true.
Proof.
  intros n l f Hn H c Hc.
  pose proof (H _ (Nat.mod_upper_bound (cmc_cfg_code c) n Hn)) as R. rewrite forallb_forall in R. apply R.
  apply filter_In. split; [exact Hc|apply Nat.eqb_refl].
Qed.

Lemma cmc_fam1_checked : forall c, In c cmc_fam1 -> cmc_check_cfg cmc_code_as_is cmc_fuel c = true.
Proof.
  apply (cmc_slices_cover 6); [discriminate|]. intros i Hi.
  destruct i as [|[|[|[|[|[|i]]]]]]; [exact cmc_run_slice0|exact cmc_run_slice1|exact cmc_run_slice2|
    exact cmc_run_slice3|exact cmc_run_slice4|exact cmc_run_slice5|lia].
Qed.

Theorem cmc_c16_bound_checked : forall c, cmc_c16_bound c = true -> cmc_cfg_ok c = true ->
  cmc_check_cfg cmc_code_as_is cmc_fuel c = true.
Proof.
  intros c Hb Hok. unfold cmc_c16_bound in Hb. apply orb_true_iff in Hb. destruct Hb as [Hb|Hb].
  - apply andb_true_iff in Hb. destruct Hb as [Hb Hp]. apply cmc_fam1_checked. unfold cmc_fam1.
    apply filter_In. split; [apply cmc_family_complete; assumption|exact Hp].
  - pose proof cmc_run_fam2 as R. rewrite forallb_forall in R. apply R. apply cmc_family_complete; assumption.
Qed.

Theorem cmc_c16_good : forall c, cmc_c16_bound c = true -> cmc_cfg_ok c = true ->
  forall s, cmc_reach cmc_code_as_is (cf_par c) (cmc_init c) s -> cmc_state_good cmc_code_as_is (cf_par c) s.
Proof. intros c Hb Hok. apply (cmc_check_cfg_sound _ cmc_fuel). apply cmc_c16_bound_checked; assumption. Qed.
