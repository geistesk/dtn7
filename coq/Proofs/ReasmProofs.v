(* ReasmProofs.v - reassembly accepts exactly the covering sets of fragments (C10). *)
From Coq Require Import ZifyBool Permutation Sorted.
From DTN Require Import Base ListFacts Reasm.
Open Scope N_scope.

Definition covered (fs : list rs_frag) (i : N) : Prop :=
  exists f, In f fs /\ fr_off f <= i < rs_end f.
Definition covers (fs : list rs_frag) (total : N) : Prop := forall i, i < total -> covered fs i.

(* a fragment of the bundle with payload p and extension blocks bl, at any offset and of any length
   inside the payload - not only what one Fragment call yields *)
Definition frag_of (p : list N) (bl : list (N * bool)) (f : rs_frag) : Prop :=
  fr_isfrag f = true /\ fr_total f = nlen p /\ rs_end f <= nlen p /\
  fr_data f = firstn (length (fr_data f)) (skipn (N.to_nat (fr_off f)) p) /\
  fr_blocks f = (if fr_off f =? 0 then bl else rs_replicated bl).

(* the unfragmented bundle as input of Fragment *)
Definition whole (p : list N) (bl : list (N * bool)) : rs_frag :=
  {| fr_off := 0; fr_total := 0; fr_data := p; fr_isfrag := false; fr_blocks := bl |}.

Definition off_le (a b : rs_frag) : Prop := fr_off a <= fr_off b.
Definition sorted_by_off (s : list rs_frag) : Prop := StronglySorted off_le s.

Lemma covered_nil i : covered [] i <-> False.
Proof. split; [intros (f & [] & _)|contradiction]. Qed.

Lemma covered_cons f s i : covered (f :: s) i <-> (fr_off f <= i < rs_end f) \/ covered s i.
Proof.
  split.
  - intros (g & [<-|Hg] & Hr); [left; exact Hr|right; exists g; auto].
  - intros [Hr|(g & Hg & Hr)]; [exists f|exists g]; auto using in_eq, in_cons.
Qed.

Lemma covered_app : forall a b i, covered (a ++ b) i <-> covered a i \/ covered b i.
Proof.
  intros a b i; split.
  - intros [f [Hin Hr]]. apply in_app_or in Hin. destruct Hin; [left | right]; exists f; auto.
  - intros [[f [Hin Hr]] | [f [Hin Hr]]]; exists f; split; auto; apply in_or_app; auto.
Qed.

Lemma sort_perm l : Permutation (rs_sort l) l.
Proof. exact (sort_by_perm fr_off l). Qed.

Lemma sort_sorted l : sorted_by_off (rs_sort l).
Proof. exact (sort_by_sorted fr_off l). Qed.

Lemma scan_cons last f s : rs_scan last (f :: s) =
  if negb (fr_isfrag f) then inl RsNotFragment
  else if last <? fr_off f then inl RsGap else rs_scan (N.max last (rs_end f)) s.
Proof.
  cbn [rs_scan]. destruct (N.ltb_spec last (rs_end f)); [rewrite N.max_r by lia|rewrite N.max_l by lia]; reflexivity.
Qed.

Lemma scan_cons_inr last f s l : rs_scan last (f :: s) = inr l ->
  fr_isfrag f = true /\ fr_off f <= last /\ rs_scan (N.max last (rs_end f)) s = inr l.
Proof.
  rewrite scan_cons. destruct (fr_isfrag f); [|discriminate].
  destruct (N.ltb_spec last (fr_off f)); [discriminate|]. auto.
Qed.

Lemma rs_scan_spec B s : forall last, sorted_by_off s ->
  Forall (fun f => fr_isfrag f = true /\ rs_end f <= B) s -> last <= B ->
  exists u, last <= u <= B /\ (forall i, last <= i < u -> covered s i) /\ ~ covered s u
    /\ match rs_scan last s with inr l => l = u | inl _ => u < B end.
Proof.
  induction s as [|f s IH]; intros last Hs HF Hl.
  - exists last. rewrite covered_nil. split; [lia|]. split; [intros; lia|]. split; [tauto|reflexivity].
  - inversion Hs as [|? ? Hs' Hall]; subst. inversion HF as [|? ? [Hi He] HF']; subst.
    rewrite scan_cons, Hi. cbn [negb]. unfold rs_end in He.
    destruct (N.ltb_spec last (fr_off f)) as [Hgap|Hge].
    + (* a gap at last: the later elements start even further right *)
      exists last. split; [lia|]. split; [intros; lia|]. split; [|lia].
      intros (g & [<-|Hg] & Hr); [lia|].
      rewrite Forall_forall in Hall. specialize (Hall g Hg). unfold off_le in Hall. lia.
    + destruct (IH (N.max last (rs_end f)) Hs' HF') as (u & Hu & Hcov & Hnc & Hres); [unfold rs_end; lia|].
      exists u. split; [lia|]. split; [|split; [|exact Hres]].
      * intros i Hi'. apply covered_cons.
        destruct (N.lt_ge_cases i (rs_end f)); [left; lia|right; apply Hcov; lia].
      * rewrite covered_cons. intros [Hc|Hc]; [lia|exact (Hnc Hc)].
Qed.

Lemma merge_cons last acc f l : fr_off f <= last ->
  rs_merge last acc (f :: l) =
  rs_merge (N.max last (rs_end f)) (acc ++ skipn (N.to_nat (last - fr_off f)) (fr_data f)) l.
Proof.
  intros H. cbn [rs_merge]. unfold rs_end, nlen. destruct (N.ltb_spec last (fr_off f + N.of_nat (length (fr_data f)))).
  - replace (last <? fr_off f) with false by lia.
    replace (N.of_nat (length (fr_data f)) <? last - fr_off f) with false by lia.
    rewrite N.max_r by lia. reflexivity.
  - rewrite N.max_l, skipn_all2, app_nil_r by lia. reflexivity.
Qed.

Lemma merge_no_panic s : forall last last' acc,
  rs_scan last s = inr last' -> rs_merge last acc s <> None.
Proof.
  induction s as [|f s IH]; intros last last' acc H; [discriminate|].
  apply scan_cons_inr in H. destruct H as (_ & Ho & H). rewrite merge_cons by exact Ho. eapply IH, H.
Qed.

Theorem reassemble_sorted_no_panic s : rs_reassemble_sorted s <> RsPanic.
Proof.
  unfold rs_reassemble_sorted, rs_prepare_sorted.
  destruct s as [| f0 s]; [discriminate |].
  destruct (rs_scan 0 (f0 :: s)) as [e | last] eqn:Es; [discriminate |].
  destruct (fr_total f0 =? last); [| discriminate].
  destruct (rs_merge 0 [] (f0 :: s)) eqn:Em; [discriminate |].
  exfalso. eapply merge_no_panic; eauto.
Qed.

Theorem reassemble_no_panic : forall fs, rs_reassemble fs <> RsPanic.
Proof. intros fs. apply reassemble_sorted_no_panic. Qed.

Lemma merge_step_prefix (p data : list N) (o a : nat) :
  data = firstn (length data) (skipn o p) -> (o <= a)%nat ->
  firstn a p ++ skipn (a - o) data = firstn (Nat.max a (o + length data)) p.
Proof.
  intros Hd H.
  rewrite Hd at 1. rewrite skipn_firstn_comm, skipn_skipn_add.
  replace (o + (a - o))%nat with a by lia.
  rewrite firstn_app_skipn. f_equal. lia.
Qed.

Lemma merge_ok p bl s : forall last last',
  Forall (frag_of p bl) s -> rs_scan last s = inr last' ->
  rs_merge last (firstn (N.to_nat last) p) s = Some (firstn (N.to_nat last') p).
Proof.
  induction s as [|f s IH]; intros last last' HF H.
  - injection H as <-. reflexivity.
  - inversion HF as [|? ? (_ & _ & _ & Hd & _) HF']; subst.
    apply scan_cons_inr in H. destruct H as (_ & Ho & H). rewrite merge_cons by exact Ho.
    rewrite <- (IH _ _ HF' H). f_equal. unfold rs_end, nlen.
    replace (N.to_nat (last - fr_off f)) with (N.to_nat last - N.to_nat (fr_off f))%nat by lia.
    rewrite (merge_step_prefix p _ _ _ Hd) by lia. f_equal. lia.
Qed.

Lemma reassemble_sorted_spec p bl s :
  Forall (frag_of p bl) s -> sorted_by_off s ->
  match rs_prepare_sorted s with
  | None => (s <> [] /\ covers s (nlen p)) /\ rs_reassemble_sorted s = RsOk p bl
  | Some e => ~ (s <> [] /\ covers s (nlen p)) /\ rs_reassemble_sorted s = RsErr e
  end.
Proof.
  intros HF Hs. unfold rs_reassemble_sorted. destruct s as [|f0 s'].
  { split; [intros [H _]; exact (H eq_refl)|reflexivity]. }
  unfold rs_prepare_sorted.
  assert (HB : Forall (fun f => fr_isfrag f = true /\ rs_end f <= nlen p) (f0 :: s')).
  { eapply Forall_impl; [|exact HF]. intros f (Hi & _ & He & _). split; assumption. }
  destruct (rs_scan_spec _ _ 0 Hs HB (N.le_0_l _)) as (u & Hu & Hcov & Hnc & Hres).
  assert (Hf0 : frag_of p bl f0) by (inversion HF; assumption).
  destruct Hf0 as (_ & -> & _ & _ & Hb0).
  destruct (rs_scan 0 (f0 :: s')) as [e|last] eqn:Esc.
  - split; [|reflexivity]. intros [_ Hc]. exact (Hnc (Hc u Hres)).
  - subst last. destruct (N.eqb_spec (nlen p) u) as [<-|Hne].
    + split; [split; [discriminate|intros i Hi; apply Hcov; lia]|].
      pose proof (merge_ok p bl _ 0 _ HF Esc) as Hm. cbn [N.to_nat firstn] in Hm. rewrite Hm.
      destruct (scan_cons_inr _ _ _ _ Esc) as (_ & Hoff & _).
      rewrite Hb0. replace (fr_off f0) with 0 by lia. cbn [N.eqb]. f_equal.
      unfold nlen. rewrite Nat2N.id. apply firstn_all.
    + (* the total differs: the byte at u is missing *)
      split; [|reflexivity]. intros [_ Hc]. apply Hnc, Hc. lia.
Qed.

Lemma cover_perm s fs t : Permutation s fs -> (s <> [] /\ covers s t <-> fs <> [] /\ covers fs t).
Proof.
  assert (H : forall s fs, Permutation s fs -> s <> [] /\ covers s t -> fs <> [] /\ covers fs t).
  { clear s fs. intros s fs HP [Hn Hc]. split.
    - intros ->. apply Hn, Permutation_nil, Permutation_sym, HP.
    - intros i Hi. destruct (Hc i Hi) as (f & Hin & Hr). exists f. split; [eapply Permutation_in; eassumption|exact Hr]. }
  intros HP. split; apply H; [|apply Permutation_sym]; exact HP.
Qed.

(* the statement for the input in ANY order and ANY sorted permutation the sort may produce *)
Theorem reassemble_iff_cover p bl fs s :
  Forall (frag_of p bl) fs -> Permutation s fs -> sorted_by_off s ->
  (rs_is_reassemblable_sorted s = true <-> fs <> [] /\ covers fs (nlen p))
  /\ (rs_reassemble_sorted s = RsOk p bl <-> fs <> [] /\ covers fs (nlen p))
  /\ (rs_reassemble_sorted s = RsOk p bl \/ exists e, rs_reassemble_sorted s = RsErr e).
Proof.
  intros HF HP Hs.
  assert (HFs : Forall (frag_of p bl) s).
  { eapply Permutation_Forall; [apply Permutation_sym; exact HP | exact HF]. }
  pose proof (reassemble_sorted_spec p bl s HFs Hs) as H.
  rewrite <- (cover_perm s fs _ HP). unfold rs_is_reassemblable_sorted.
  destruct (rs_prepare_sorted s) as [e|]; destruct H as [HA ->].
  - split; [|split]; [split; [discriminate|tauto]|split; [discriminate|tauto]|right; exists e; reflexivity].
  - split; [|split]; [tauto|tauto|left; reflexivity].
Qed.

Definition parent_ok (p : list N) (bl : list (N * bool)) (f : rs_frag) : Prop :=
  frag_of p bl f \/ f = whole p bl.

Lemma parent_data p bl f : parent_ok p bl f ->
  fr_data f = firstn (length (fr_data f)) (skipn (N.to_nat (rs_base f)) p)
  /\ rs_base f + nlen (fr_data f) <= nlen p /\ rs_total f = nlen p
  /\ fr_blocks f = (if rs_base f =? 0 then bl else rs_replicated bl).
Proof.
  intros [(Hi & Ht & He & Hd & Hb) | ->]; unfold rs_base, rs_total.
  - rewrite Hi. auto.
  - cbn [whole fr_isfrag fr_off fr_total fr_data fr_blocks N.to_nat skipn N.eqb]. rewrite firstn_all. auto using N.le_refl.
Qed.

Lemma refrag_loop_in p bl f parts i c : parent_ok p bl f -> In c (rs_refrag_loop f i parts) ->
  frag_of p bl c /\ fr_total c = rs_total f
  /\ exists j, j < nlen (fr_data f) /\ fr_off c = rs_base f + j.
Proof.
  intros Hp. destruct (parent_data p bl f Hp) as (Pd & Pe & Pt & Pb).
  revert i c. induction parts as [|sz parts IH]; cbn [rs_refrag_loop]; intros i c H; [contradiction|].
  destruct (N.ltb_spec i (nlen (fr_data f))) as [Hi|_]; [|contradiction].
  destruct H as [<-|H]; [|exact (IH _ _ H)].
  split; [|split; [reflexivity|exists i; split; [exact Hi|reflexivity]]].
  unfold frag_of, rs_end, nlen in *. cbn [fr_isfrag fr_total fr_off fr_data fr_blocks].
  rewrite firstn_length, skipn_length. repeat split.
  - exact Pt.
  - lia.
  - rewrite (slice_slice p _ (N.to_nat (rs_base f)) _ _ Pd). f_equal. f_equal. lia.
  - rewrite Pb. destruct (N.eqb_spec i 0) as [->|Hi0].
    + rewrite N.add_0_r. reflexivity.
    + replace (rs_base f + i =? 0) with false by lia.
      destruct (rs_base f =? 0); [reflexivity|apply filter_idem].
Qed.

Lemma refrag_loop_cover f parts : forall i x,
  Forall (fun sz => 0 < sz) parts -> nlen (fr_data f) <= i + fold_right N.add 0 parts ->
  (covered (rs_refrag_loop f i parts) x <-> rs_base f + i <= x < rs_base f + nlen (fr_data f)).
Proof.
  induction parts as [| sz parts IH]; cbn [rs_refrag_loop fold_right]; intros i x Hpos Hsum.
  - rewrite covered_nil. lia.
  - inversion Hpos as [| ? ? Hsz Hpos']; subst.
    destruct (N.ltb_spec i (nlen (fr_data f))).
    + rewrite covered_cons, IH by (assumption || lia).
      unfold rs_end, nlen in *. cbn [fr_off fr_data]. rewrite firstn_length, skipn_length. lia.
    + rewrite covered_nil. lia.
Qed.

Theorem refragment_cover p bl f parts x :
  parent_ok p bl f ->
  Forall (fun sz => 0 < sz) parts -> nlen (fr_data f) <= fold_right N.add 0 parts ->
  (covered (rs_refragment f parts) x <-> covered [f] x).
Proof.
  intros Hp Hpos Hsum.
  assert (Hf : covered [f] x <-> rs_base f + 0 <= x < rs_base f + nlen (fr_data f)).
  { assert (fr_off f = rs_base f).
    { destruct Hp as [[Hi _] | ->]; unfold rs_base; [rewrite Hi; reflexivity | reflexivity]. }
    rewrite covered_cons, covered_nil. unfold rs_end. lia. }
  pose proof (refrag_loop_cover f parts 0 x Hpos ltac:(lia)) as Hl.
  unfold rs_refragment.
  destruct (rs_refrag_loop f 0 parts) as [| c [| d l]] eqn:E.
  - rewrite Hf. exact Hl.
  - reflexivity.   (* a single piece is replaced by the parent itself *)
  - rewrite Hf. exact Hl.
Qed.

(* the store's part list: no fragment is pushed after a SHORTER one with the same (offset,total) *)
Fixpoint no_later_longer (fs : list rs_frag) : Prop :=
  match fs with
  | [] => True
  | f :: l => (forall g, In g l -> fr_off g = fr_off f -> fr_total g = fr_total f ->
                         nlen (fr_data g) <= nlen (fr_data f))
              /\ no_later_longer l
  end.

Lemma store_push_spec parts f :
  (rs_store_push parts f = parts /\ exists g, In g parts /\ fr_off g = fr_off f /\ fr_total g = fr_total f)
  \/ rs_store_push parts f = parts ++ [f].
Proof.
  induction parts as [|h parts IH]; cbn [rs_store_push app]; [right; reflexivity|].
  destruct ((fr_off h =? fr_off f) && (fr_total h =? fr_total f)) eqn:E.
  - left. split; [reflexivity|]. exists h. split; [left; reflexivity|lia].
  - destruct IH as [(-> & g & Hg & H) | ->]; [left|right; reflexivity].
    split; [reflexivity|]. exists g. split; [right; exact Hg|exact H].
Qed.

Lemma store_push_in parts f g : In g (rs_store_push parts f) -> In g parts \/ g = f.
Proof.
  destruct (store_push_spec parts f) as [(-> & _) | ->]; [auto|].
  rewrite in_app_iff. cbn [In]. intuition.
Qed.

Lemma store_push_keeps parts f g : In g parts -> In g (rs_store_push parts f).
Proof.
  intros H. destruct (store_push_spec parts f) as [(-> & _) | ->]; [exact H|apply in_or_app; auto].
Qed.

Lemma store_fold_keeps fs g : forall parts, In g parts -> In g (fold_left rs_store_push fs parts).
Proof. induction fs as [|f fs IH]; cbn [fold_left]; intros parts H; [exact H|apply IH, store_push_keeps, H]. Qed.

Lemma store_fold_cover fs : forall parts,
  (forall g f, In g parts -> In f fs -> fr_off g = fr_off f -> fr_total g = fr_total f ->
               nlen (fr_data f) <= nlen (fr_data g)) ->
  no_later_longer fs ->
  (forall g, In g (fold_left rs_store_push fs parts) -> In g parts \/ In g fs)
  /\ (forall i, covered (fold_left rs_store_push fs parts) i <-> covered parts i \/ covered fs i).
Proof.
  induction fs as [| f fs IH]; cbn [fold_left no_later_longer]; intros parts H1 H2.
  - split; [auto |]. intros i. rewrite covered_nil. tauto.
  - destruct H2 as [H2 H3].
    assert (H1' : forall g f', In g (rs_store_push parts f) -> In f' fs -> fr_off g = fr_off f' ->
                               fr_total g = fr_total f' -> nlen (fr_data f') <= nlen (fr_data g)).
    { intros g f' Hg Hf' Ho Ht. apply store_push_in in Hg. destruct Hg as [Hg | ->].
      - apply (H1 g f'); auto using in_cons.
      - apply H2; auto. }
    destruct (IH (rs_store_push parts f) H1' H3) as [IHin IHcov].
    split.
    + intros g Hg. apply IHin in Hg. destruct Hg as [Hg | Hg]; [| auto using in_cons].
      apply store_push_in in Hg. destruct Hg as [Hg | ->]; auto using in_eq.
    + intros i. rewrite IHcov, covered_cons.
      assert (Hp : covered (rs_store_push parts f) i <-> covered parts i \/ (fr_off f <= i < rs_end f)).
      { destruct (store_push_spec parts f) as [(-> & g & Hg & Ho & Ht) | ->].
        - (* dropped: the recorded part with this (offset,total) is at least as long *)
          split; [auto|]. intros [Hc|Hr]; [exact Hc|]. exists g. split; [exact Hg|].
          pose proof (H1 g f Hg (or_introl eq_refl) Ho Ht). unfold rs_end in *. lia.
        - rewrite covered_app, covered_cons, covered_nil. tauto. }
      rewrite Hp. tauto.
Qed.

Theorem store_complete_iff_cover p bl fs :
  Forall (frag_of p bl) fs -> no_later_longer fs ->
  (rs_store_is_complete (rs_store_push_all fs) = true <-> fs <> [] /\ covers fs (nlen p))
  /\ (rs_store_load (rs_store_push_all fs) = RsOk p bl <-> fs <> [] /\ covers fs (nlen p))
  /\ (rs_store_load (rs_store_push_all fs) = RsOk p bl \/ exists e, rs_store_load (rs_store_push_all fs) = RsErr e).
Proof.
  intros HF Hn.
  unfold rs_store_push_all, rs_store_is_complete, rs_store_load, rs_is_reassemblable, rs_reassemble.
  destruct (store_fold_cover fs [] (fun g f H => False_ind _ H) Hn) as [Hin Hcov].
  assert (Hne : fold_left rs_store_push fs [] = [] -> fs = []).
  { (* the first pushed fragment is kept *)
    destruct fs as [|f fs']; [reflexivity|]. intros Hp.
    pose proof (store_fold_keeps fs' f [f] (or_introl eq_refl)) as Hf. cbn [fold_left rs_store_push] in Hp.
    rewrite Hp in Hf. contradiction. }
  set (parts := fold_left rs_store_push fs []) in *.
  assert (HFp : Forall (frag_of p bl) parts).
  { rewrite Forall_forall in *. intros g Hg. destruct (Hin g Hg) as [[] | H]; auto. }
  assert (Hc : (parts <> [] /\ covers parts (nlen p)) <-> (fs <> [] /\ covers fs (nlen p))).
  { assert (Hcv : covers parts (nlen p) <-> covers fs (nlen p)).
    { unfold covers. split; intros H i Hi; specialize (H i Hi); rewrite Hcov, covered_nil in *; tauto. }
    rewrite Hcv. split; intros [Hnn Hcs]; (split; [|exact Hcs]); [|auto].
    intros ->. apply Hnn. reflexivity. }
  rewrite <- Hc. exact (reassemble_iff_cover p bl parts _ HFp (sort_perm parts) (sort_sorted parts)).
Qed.

(* without the side condition: a longer fragment with a known (offset,total) is dropped *)
Theorem store_complete_refuted : exists p bl fs,
  Forall (frag_of p bl) fs /\ fs <> [] /\ covers fs (nlen p)
  /\ rs_store_is_complete (rs_store_push_all fs) = false.
Proof.
  exists [1; 2], [],
    [ {| fr_off := 0; fr_total := 2; fr_data := [1]; fr_isfrag := true; fr_blocks := [] |};
      {| fr_off := 0; fr_total := 2; fr_data := [1; 2]; fr_isfrag := true; fr_blocks := [] |} ].
  split; [| split; [discriminate | split; [| vm_compute; reflexivity]]].
  - repeat constructor; vm_compute; try reflexivity; discriminate.
  - (* the second fragment alone covers both bytes *)
    intros i Hi. eexists. split; [right; left; reflexivity|]. unfold rs_end, nlen in *. cbn [fr_off fr_data length] in *. lia.
Qed.

(* the proposed repair (keep the longer one) needs no side condition *)
Lemma store_push_longer_cover parts f i :
  covered (rs_store_push_longer parts f) i <-> covered parts i \/ (fr_off f <= i < rs_end f).
Proof.
  induction parts as [| h parts IH]; cbn [rs_store_push_longer].
  - rewrite covered_cons, covered_nil. tauto.
  - destruct ((fr_off h =? fr_off f) && (fr_total h =? fr_total f)) eqn:E.
    + (* same offset: the longer of the two covers what either covers *)
      assert (fr_off h = fr_off f) by lia. clear IH E.
      destruct (N.ltb_spec (nlen (fr_data h)) (nlen (fr_data f))); rewrite !covered_cons; unfold rs_end; intuition lia.
    + rewrite !covered_cons, IH. tauto.
Qed.

Definition mkf (o t : N) (d : list N) : rs_frag :=
  {| fr_off := o; fr_total := t; fr_data := d; fr_isfrag := true; fr_blocks := [] |}.

(* [0,10) [2,5) [5,10): passes the unfixed scan, then data[8:] of a 3-byte payload *)
Example unfixed_panics :
  rs_reassemble_sorted_unfixed
    [mkf 0 10 [0;1;2;3;4;5;6;7;8;9]; mkf 2 10 [2;3;4]; mkf 5 10 [5;6;7;8;9]] = RsPanic.
Proof. vm_compute. reflexivity. Qed.

(* [0,8) [2,5) [6,10) covers [0,10) but the unfixed scan reports a gap *)
Example unfixed_false_gap :
  rs_reassemble_sorted_unfixed
    [mkf 0 10 [0;1;2;3;4;5;6;7]; mkf 2 10 [2;3;4]; mkf 6 10 [6;7;8;9]] = RsErr RsGap.
Proof. vm_compute. reflexivity. Qed.

Example fixed_on_the_witnesses :
  rs_reassemble [mkf 5 10 [5;6;7;8;9]; mkf 2 10 [2;3;4]; mkf 0 10 [0;1;2;3;4;5;6;7;8;9]]
    = RsOk [0;1;2;3;4;5;6;7;8;9] []
  /\ rs_reassemble [mkf 6 10 [6;7;8;9]; mkf 0 10 [0;1;2;3;4;5;6;7]; mkf 2 10 [2;3;4]]
    = RsOk [0;1;2;3;4;5;6;7;8;9] [].
Proof. split; vm_compute; reflexivity. Qed.

(* second-level fragments: unfixed offsets restart at 0 with the local length as total *)
Example unfixed_refragment_loses_position :
  map (fun c => (fr_off c, fr_total c)) (rs_refrag_loop_unfixed (mkf 4 10 [4;5;6;7]) 0 [2;2])
    = [(0, 4); (2, 4)]
  /\ map (fun c => (fr_off c, fr_total c)) (rs_refragment (mkf 4 10 [4;5;6;7]) [2;2])
    = [(4, 10); (6, 10)].
Proof. split; vm_compute; reflexivity. Qed.
