(* C04Bundle.v - the loops of the bundle decoder run on fuel, and every round takes at least one
   byte of the input: fuel above the input length never runs out, so the result does not depend on it. *)
From DTN Require Import Base Cbor Eid Bundle DecodeInv.
Open Scope N_scope.

Lemma dec_cblock_shorter bs c r : dec_cblock bs = Ok c r -> (length r < length bs)%nat.
Proof. intros H. exact (proj1 (dec_cblock_inv _ _ _ H)). Qed.

Lemma dec_blocks_fuel f1 : forall f2 bs acc, (length bs < f1)%nat -> (length bs < f2)%nat ->
  dec_blocks f1 bs acc = dec_blocks f2 bs acc.
Proof.
  induction f1 as [|f1 IH]; intros [|f2] bs acc H1 H2; try lia. cbn [dec_blocks].
  destruct (starts_with 255 bs); [reflexivity|]. destruct (dec_cblock bs) as [c r| |] eqn:E; try reflexivity.
  apply dec_cblock_shorter in E. apply IH; lia.
Qed.

Lemma dec_pairs_fuel readv
  (Hshort : forall bs v r, readv bs = Ok v r -> (length r <= length bs)%nat) f1 :
  forall f2 bs cnt acc, (length bs < f1)%nat -> (length bs < f2)%nat ->
  dec_pairs f1 readv cnt acc bs = dec_pairs f2 readv cnt acc bs.
Proof.
  induction f1 as [|f1 IH]; intros [|f2] bs cnt acc H1 H2; try lia. cbn [dec_pairs].
  destruct (cnt =? 0); [reflexivity|].
  destruct (dec_eid bs) as [k r| |] eqn:E; cbn [bind]; try reflexivity. apply dec_eid_shorter in E.
  destruct (readv r) as [v r'| |] eqn:E2; cbn [bind]; try reflexivity. apply Hshort in E2. apply IH; lia.
Qed.
