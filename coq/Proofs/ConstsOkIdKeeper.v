(* ConstsOkIdKeeper.v - the literals of IdKeeper.update / IdKeeper.clean and the epoch constant in
   /repo coincide with the ones the model (Model/IdKeeper.v) is written against. *)
From Coq Require Import ZArith NArith List.
Import ListNotations.
From DTN Require Import Consts IdKeeper.
Open Scope Z_scope.

(* update: `state + 1`, `= 0`, `CreationTimestamp[1]` *)
Lemma idkeeper_update_ok :
  pkg_routing__IdKeeper_update__lits = [Z.of_N ik_incr; Z.of_N ik_first; 1]
  /\ pkg_routing__IdKeeper_update__ops = [12].
Proof. split; reflexivity. Qed.

(* clean: `DtnTimeNow() - 60*60*24`, `tpl.time < threshold && tpl.time != DtnTimeEpoch` *)
Lemma idkeeper_clean_ok :
  pkg_routing__IdKeeper_clean__lits = [60; 60; 24]
  /\ Z.of_N ik_window = 60 * 60 * 24
  /\ pkg_routing__IdKeeper_clean__ops = [13; 14; 14; 34; 40; 44]
  /\ pkg_bpv7__DtnTimeEpoch = Z.of_N ik_epoch.
Proof. repeat split; reflexivity. Qed.

(* the window is 86.4 seconds (DTN time is in milliseconds), not the hour of the comment in the code
   (id_keeper.go:64 "older an hour") *)
Lemma idkeeper_window_ms : Z.of_N ik_window = 86400 /\ Z.of_N ik_window < 3600 * 1000.
Proof. split; reflexivity. Qed.

(* the store key is the string of the scrubbed ID: source, time, sequence number *)
Lemma idkeeper_key_ok :
  pkg_bpv7__BundleID_String__lits = [0; 1] /\ pkg_bpv7__BundleID_Scrub__lits = [0; 0].
Proof. split; reflexivity. Qed.
