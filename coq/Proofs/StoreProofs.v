(* StoreProofs.v - invariants, refinement, crash safety and concurrency proofs for Model/Store.v *)
From Coq Require Import Sorted.
From DTN Require Import Base ListFacts Store.
Open Scope N_scope.

Section Assoc.
  Context {K V : Type} (eqb : K -> K -> bool).
  Hypothesis eqb_spec : forall a b, eqb a b = true <-> a = b.
  Implicit Types (l : list (K * V)).

  Lemma eqbP a b : reflect (a = b) (eqb a b).
  Proof. apply iff_reflect. symmetry. apply eqb_spec. Qed.

  Lemma alookup_adel_eq k l : alookup eqb k (adel eqb k l) = None.
  Proof.
    induction l as [|[k' v] l IH]; cbn; auto.
    destruct (eqb k k') eqn:E; auto. cbn. rewrite E. exact IH.
  Qed.
  Lemma alookup_adel_neq k k' l : k <> k' -> alookup eqb k' (adel eqb k l) = alookup eqb k' l.
  Proof.
    intros Hne. induction l as [|[k2 v] l IH]; cbn; auto.
    destruct (eqbP k k2) as [<-|_]; cbn; rewrite IH; auto.
    destruct (eqbP k' k); congruence.
  Qed.
  Lemma alookup_adel_cases k k' l :
    alookup eqb k' (adel eqb k l) = alookup eqb k' l \/ alookup eqb k' (adel eqb k l) = None.
  Proof. destruct (eqbP k k') as [<-|Hne]; [right; apply alookup_adel_eq | left; apply alookup_adel_neq, Hne]. Qed.
  Lemma alookup_aset_eq k v l : alookup eqb k (aset eqb k v l) = Some v.
  Proof. cbn. destruct (eqbP k k); congruence. Qed.
  Lemma alookup_aset_neq k k' v l : k <> k' -> alookup eqb k' (aset eqb k v l) = alookup eqb k' l.
  Proof. intros Hne. cbn. destruct (eqbP k' k); [congruence | apply alookup_adel_neq, Hne]. Qed.

  Lemma In_adel k k' v l : In (k', v) (adel eqb k l) <-> In (k', v) l /\ k' <> k.
  Proof.
    induction l as [|[k2 v2] l IH]; cbn; [tauto|].
    destruct (eqbP k k2) as [<-|Hne]; cbn; rewrite IH; intuition congruence.
  Qed.
  Lemma NoDup_adel k l : NoDup (map fst l) -> NoDup (map fst (adel eqb k l)).
  Proof.
    induction l as [|[k2 v2] l IH]; cbn; intros H; auto.
    apply NoDup_cons_iff in H as [Hni Hnd]. destruct (eqb k k2); auto. cbn. constructor; auto.
    intros ([k' v] & <- & Hin%In_adel)%in_map_iff. apply Hni, (in_map fst), Hin.
  Qed.
  Lemma alookup_None_notin k l : alookup eqb k l = None -> ~ In k (map fst l).
  Proof.
    induction l as [|[k2 v2] l IH]; cbn; [tauto|].
    destruct (eqbP k k2) as [<-|Hne]; [discriminate|]. intros H [E|Hin]; [congruence | exact (IH H Hin)].
  Qed.
  Lemma NoDup_aset k v l : NoDup (map fst l) -> NoDup (map fst (aset eqb k v l)).
  Proof.
    intros H. cbn. constructor; [apply alookup_None_notin, alookup_adel_eq | apply NoDup_adel, H].
  Qed.
  Lemma alookup_Some_in k v l : alookup eqb k l = Some v -> In (k, v) l.
  Proof.
    induction l as [|[k2 v2] l IH]; cbn; [discriminate|].
    destruct (eqbP k k2) as [<-|_]; [intros [= ->]|]; auto.
  Qed.
  Lemma alookup_In k v l : NoDup (map fst l) -> (alookup eqb k l = Some v <-> In (k, v) l).
  Proof.
    intros Hn. split; [apply alookup_Some_in|].
    induction l as [|[k2 v2] l IH]; cbn; [tauto|]. apply NoDup_cons_iff in Hn as [Hni Hnd].
    intros [[= -> ->]|Hin]; [destruct (eqbP k k); congruence|].
    destruct (eqbP k k2) as [<-|_]; auto. exfalso. apply (in_map fst) in Hin. auto.
  Qed.
  Lemma adel_notin k l : alookup eqb k l = None -> adel eqb k l = l.
  Proof.
    induction l as [|[k2 v2] l IH]; cbn; intros H; auto.
    destruct (eqb k k2); [discriminate|]. rewrite IH; auto.
  Qed.
End Assoc.

Section AssocMap.
  Context {K V W : Type} (eqb : K -> K -> bool) (f : V -> W).
  Let g := fun kv : K * V => (fst kv, f (snd kv)).
  Lemma alookup_map k (l : list (K * V)) : alookup eqb k (map g l) = option_map f (alookup eqb k l).
  Proof. induction l as [|[k2 v2] l IH]; cbn; auto. destruct (eqb k k2); auto. Qed.
  Lemma adel_map k (l : list (K * V)) : adel eqb k (map g l) = map g (adel eqb k l).
  Proof. induction l as [|[k2 v2] l IH]; cbn; auto. destruct (eqb k k2); cbn; rewrite IH; auto. Qed.
End AssocMap.

(* the index (keys N) and the file map (keys fname): ilookup, flookup, ... are alookup, ... at N.eqb and
   fname_eqb.  They are kept folded (simpl never), so the facts above are stated again for them. *)
Lemma fname_eqb_spec a b : fname_eqb a b = true <-> a = b.
Proof.
  unfold fname_eqb. rewrite !andb_true_iff, !N.eqb_eq, eqb_true_iff. destruct a, b; cbn. split.
  - intros [[[-> ->] ->] ->]. reflexivity.
  - intros [= -> -> -> ->]. auto.
Qed.

Arguments ilookup {V} _ _ : simpl never.
Arguments idel {V} _ _ : simpl never.
Arguments iset {V} _ _ _ : simpl never.
Arguments flookup _ _ : simpl never.
Arguments fdel _ _ : simpl never.
Arguments fset _ _ _ : simpl never.
Section Index.
  Context {V : Type}.
  Implicit Types (l : list (N * V)).
  Lemma il_del_eq k l : ilookup k (idel k l) = None.
  Proof. apply alookup_adel_eq. Qed.
  Lemma il_del_neq k k' l : k <> k' -> ilookup k' (idel k l) = ilookup k' l.
  Proof. apply alookup_adel_neq, N.eqb_eq. Qed.
  Lemma il_del_cases k k' l : ilookup k' (idel k l) = ilookup k' l \/ ilookup k' (idel k l) = None.
  Proof. apply alookup_adel_cases, N.eqb_eq. Qed.
  Lemma il_set_eq k v l : ilookup k (iset k v l) = Some v.
  Proof. apply alookup_aset_eq, N.eqb_eq. Qed.
  Lemma il_set_neq k k' v l : k <> k' -> ilookup k' (iset k v l) = ilookup k' l.
  Proof. apply alookup_aset_neq, N.eqb_eq. Qed.
  Lemma i_In_del k k' v l : In (k', v) (idel k l) <-> In (k', v) l /\ k' <> k.
  Proof. apply In_adel, N.eqb_eq. Qed.
  Lemma i_In_set k v k' v' l : In (k', v') (iset k v l) <-> (k' = k /\ v' = v) \/ (In (k', v') l /\ k' <> k).
  Proof. unfold iset, aset. cbn. fold (@idel V). rewrite i_In_del. intuition congruence. Qed.
  Lemma i_NoDup_del k l : NoDup (map fst l) -> NoDup (map fst (idel k l)).
  Proof. apply NoDup_adel, N.eqb_eq. Qed.
  Lemma i_NoDup_set k v l : NoDup (map fst l) -> NoDup (map fst (iset k v l)).
  Proof. apply NoDup_aset, N.eqb_eq. Qed.
  Lemma il_Some_in k v l : ilookup k l = Some v -> In (k, v) l.
  Proof. apply alookup_Some_in, N.eqb_eq. Qed.
  Lemma il_In k v l : NoDup (map fst l) -> (ilookup k l = Some v <-> In (k, v) l).
  Proof. apply alookup_In, N.eqb_eq. Qed.
  Lemma i_del_notin k l : ilookup k l = None -> idel k l = l.
  Proof. apply adel_notin. Qed.
End Index.

Lemma fl_del_eq n fs : flookup n (fdel n fs) = None.
Proof. apply alookup_adel_eq. Qed.
Lemma fl_del_neq n n' fs : n <> n' -> flookup n' (fdel n fs) = flookup n' fs.
Proof. apply alookup_adel_neq, fname_eqb_spec. Qed.
Lemma fl_del_cases n n' fs : flookup n' (fdel n fs) = flookup n' fs \/ flookup n' (fdel n fs) = None.
Proof. apply alookup_adel_cases, fname_eqb_spec. Qed.
Lemma fl_set_eq n v fs : flookup n (fset n v fs) = Some v.
Proof. apply alookup_aset_eq, fname_eqb_spec. Qed.
Lemma fl_set_neq n n' v fs : n <> n' -> flookup n' (fset n v fs) = flookup n' fs.
Proof. apply alookup_aset_neq, fname_eqb_spec. Qed.

Lemma il_fold_idel {V} k ks : forall (a : list (N * V)),
  ilookup k (fold_left (fun a k => idel k a) ks a) = if existsb (N.eqb k) ks then None else ilookup k a.
Proof.
  induction ks as [|k' ks IH]; intros a; cbn [fold_left existsb]; auto.
  rewrite IH. destruct (existsb (N.eqb k) ks); [rewrite orb_true_r; auto|]. rewrite orb_false_r.
  destruct (N.eqb_spec k k') as [->|Hne]; [apply il_del_eq | apply il_del_neq; congruence].
Qed.
Lemma In_fold_idel {V} x ks : forall (a : list (N * V)), In x (fold_left (fun a k => idel k a) ks a) -> In x a.
Proof.
  induction ks as [|k' ks IH]; intros a H; cbn [fold_left] in H; auto.
  apply IH in H. destruct x as [k v]. apply i_In_del in H. tauto.
Qed.
Lemma NoDup_fold_idel {V} ks : forall (a : list (N * V)), NoDup (map fst a) -> NoDup (map fst (fold_left (fun a k => idel k a) ks a)).
Proof. induction ks as [|k' ks IH]; intros a H; cbn [fold_left]; auto. apply IH. apply i_NoDup_del; auto. Qed.

Definition afrag_key (p : apart) : N * N := (ap_off p, ap_total p).
Definition valid_op (valid : sbundle -> Prop) (o : op) : Prop :=
  match o with OPush b => valid b | _ => True end.

Section SpecLaws.
  Variable live : sbundle -> bool.
  Implicit Types (a : list (N * arec)).

  Definition spec_push_rec (q : option arec) (b : sbundle) : option arec :=
    match q with
    | None => Some (new_arec live b)
    | Some r =>
      if b_frag b && a_frag r && negb (existsb (same_afrag b) (a_parts r))
      then Some (mkA (a_pending r) (a_exp r) (a_frag r) (a_props r) (a_parts r ++ [mkAP (b_off b) (b_total b) (view live b)]))
      else None
    end.
  Lemma spec_push_eq a b :
    spec_apply live a (OPush b) =
    match spec_push_rec (ilookup (b_id b) a) b with Some r' => iset (b_id b) r' a | None => a end.
  Proof.
    cbn [spec_apply]. destruct (ilookup (b_id b) a) as [r|]; [|reflexivity]. cbn [spec_push_rec].
    destruct (b_frag b), (a_frag r), (existsb (same_afrag b) (a_parts r)); reflexivity.
  Qed.

  Lemma spec_nodup a o : NoDup (map fst a) -> NoDup (map fst (spec_apply live a o)).
  Proof.
    intros Hn. destruct o as [b|k pe pr ex|k|now| | | | |]; try exact Hn.
    - rewrite spec_push_eq. destruct (spec_push_rec _ b); [apply i_NoDup_set|]; exact Hn.
    - cbn [spec_apply]. destruct (ilookup k a); [apply i_NoDup_set|]; exact Hn.
    - apply i_NoDup_del, Hn.
    - apply NoDup_fold_idel, Hn.
  Qed.

  Lemma spec_push_fragment_recorded a b :
    exists r, ilookup (b_id b) (spec_apply live a (OPush b)) = Some r
      /\ (b_frag b = true -> a_frag r = true -> existsb (same_afrag b) (a_parts r) = true).
  Proof.
    assert (Hself : forall d, same_afrag b (mkAP (b_off b) (b_total b) d) = true)
      by (intros d; unfold same_afrag; cbn; rewrite !N.eqb_refl; reflexivity).
    rewrite spec_push_eq. destruct (ilookup (b_id b) a) as [r|] eqn:E; cbn [spec_push_rec].
    - destruct (existsb (same_afrag b) (a_parts r)) eqn:Ee.
      + rewrite andb_false_r. exists r. auto.
      + destruct (b_frag b && a_frag r) eqn:Ef; cbn [andb negb].
        * eexists. rewrite il_set_eq. split; [reflexivity|]. intros _ _. cbn [a_parts].
          rewrite existsb_app. cbn. rewrite Hself. apply orb_true_r.
        * exists r. split; [exact E|]. intros Hb Hr. rewrite Hb, Hr in Ef. discriminate.
    - eexists. rewrite il_set_eq. split; [reflexivity|]. intros _ _. cbn. rewrite Hself. reflexivity.
  Qed.
  Lemma expired_keys_In a now k : NoDup (map fst a) ->
    (In k (expired_keys a_exp a now) <-> exists r, ilookup k a = Some r /\ (a_exp r <? now)%Z = true).
  Proof.
    intros Hn. unfold expired_keys. rewrite in_map_iff. split.
    - intros [[k' r] [<- H]]. apply filter_In in H. exists r. rewrite il_In; auto.
    - intros [r [H1 H2]]. exists (k, r). rewrite filter_In, <- il_In; auto.
  Qed.
  Lemma spec_sweep_lookup a now k : NoDup (map fst a) ->
    ilookup k (spec_apply live a (OSweep now)) =
    match ilookup k a with Some r => if (a_exp r <? now)%Z then None else Some r | None => None end.
  Proof.
    intros Hn. cbn [spec_apply]. rewrite il_fold_idel.
    destruct (existsb (N.eqb k) (expired_keys a_exp a now)) eqn:E.
    - apply existsb_eqb_in, expired_keys_In in E; auto. destruct E as [r [-> ->]]. reflexivity.
    - destruct (ilookup k a) as [r|] eqn:El; auto. destruct (a_exp r <? now)%Z eqn:Ex; auto.
      rewrite (proj2 (existsb_eqb_in _ _)) in E; [discriminate|]. apply expired_keys_In; eauto.
  Qed.
  Lemma spec_query_state a o : match o with OQueryId _ | OQueryPending | OKnows _ | OComplete _ | OReopen => spec_apply live a o = a | _ => True end.
  Proof. destruct o; auto. Qed.

  Definition part_from (P : sbundle -> Prop) (k : N) (r : arec) (p : apart) : Prop :=
    exists b, P b /\ b_id b = k /\ ap_off p = b_off b /\ ap_total p = b_total b /\ ap_data p = view live b /\ b_frag b = a_frag r.
  Definition spec_inv (P : sbundle -> Prop) a : Prop :=
    forall k r, In (k, r) a ->
      a_parts r <> [] /\ NoDup (map afrag_key (a_parts r)) /\ forall p, In p (a_parts r) -> part_from P k r p.

  Lemma spec_inv_step (P : sbundle -> Prop) a o : valid_op P o -> spec_inv P a -> spec_inv P (spec_apply live a o).
  Proof.
    intros Hp Hs. destruct o as [b|k pe pr ex|k|now| | | | |]; try exact Hs.
    - (* push: the record filed is new, or the old one with the pushed fragment appended *)
      rewrite spec_push_eq. destruct (spec_push_rec _ b) as [r'|] eqn:Er; [|exact Hs].
      intros k' r0 Hin. apply i_In_set in Hin. destruct Hin as [[-> ->]|[Hin _]]; [|apply Hs; auto].
      destruct (ilookup (b_id b) a) as [r|] eqn:El; cbn [spec_push_rec] in Er.
      + destruct (b_frag b && a_frag r) eqn:Ef; [|discriminate]. apply andb_prop in Ef.
        destruct (existsb (same_afrag b) (a_parts r)) eqn:Ee; [discriminate|]. injection Er as <-.
        apply il_Some_in in El. destruct (Hs _ _ El) as (H1 & H2 & H3). cbn [a_parts a_frag] in *. repeat split.
        * destruct (a_parts r); discriminate.
        * rewrite map_app. apply NoDup_snoc; auto. apply (existsb_key_false afrag_key), Ee.
        * intros p Hp'. apply in_app_iff in Hp'. destruct Hp' as [Hp'|[<-|[]]]; [apply H3, Hp'|].
          exists b. cbn. destruct Ef as [-> ->]. repeat split; auto.
      + injection Er as <-. cbn [new_arec a_parts a_frag] in *. repeat split.
        * discriminate.
        * constructor; [cbn; tauto | constructor].
        * intros p [<-|[]]. exists b. cbn. repeat split; auto.
    - cbn [spec_apply]. destruct (ilookup k a) as [r|] eqn:El; [|exact Hs].
      intros k' r' Hin. apply i_In_set in Hin. destruct Hin as [[-> ->]|[Hin _]]; [|apply Hs; auto].
      apply il_Some_in in El. exact (Hs _ _ El).
    - intros k' r' Hin. apply i_In_del in Hin. apply Hs, Hin.
    - intros k' r' Hin. apply In_fold_idel in Hin. apply Hs, Hin.
  Qed.
  Lemma spec_inv_run (P : sbundle -> Prop) ops : forall a, Forall (valid_op P) ops -> NoDup (map fst a) -> spec_inv P a ->
    spec_inv P (fst (spec_run live a ops)) /\ NoDup (map fst (fst (spec_run live a ops))).
  Proof.
    induction ops as [|o ops IH]; intros a Hp Hn Hs; cbn [spec_run]; [cbn; auto|].
    apply Forall_cons_iff in Hp as [Ho Hp]. specialize (IH (spec_apply live a o)).
    destruct (spec_run live (spec_apply live a o) ops) as [a' rs]. apply IH; auto using spec_nodup, spec_inv_step.
  Qed.
End SpecLaws.

Definition covered (bs : list sbundle) (x : N) : Prop := exists b, In b bs /\ b_off b <= x /\ x < b_off b + b_plen b.
Definition frag_of (t : N) (b : sbundle) : Prop := b_frag b = true /\ b_total b = t /\ b_off b + b_plen b <= t.
(* sort_by_off is ListFacts.sort_by b_off by computation *)
Lemma sort_by_off_In x l : In x (sort_by_off l) <-> In x l.
Proof. exact (sort_by_In b_off x l). Qed.
Lemma sort_by_off_sorted l : StronglySorted (key_le b_off) (sort_by_off l).
Proof. exact (sort_by_sorted b_off l). Qed.

Lemma scan_iff t l : forall hi, StronglySorted (key_le b_off) l -> Forall (frag_of t) l -> hi <= t ->
  (scan_parts hi l = Some t <-> forall x, hi <= x < t -> covered l x).
Proof.
  induction l as [|b l IH]; intros hi Hs Hf Hhi; cbn [scan_parts].
  - split.
    + intros [= ->] x Hx. lia.
    + intros Hc. destruct (N.eq_dec hi t) as [->|Hne]; [reflexivity|]. destruct (Hc hi) as [b [[] _]]. lia.
  - apply StronglySorted_inv in Hs. destruct Hs as [Hsl Hsb].
    destruct (Forall_inv Hf) as (Hb & _ & He). apply Forall_inv_tail in Hf.
    rewrite Hb. cbn [negb]. destruct (N.ltb_spec hi (b_off b)) as [Hlt|Hge].
    + (* the parts are sorted: all begin after hi *)
      split; [discriminate|]. intros Hc. destruct (Hc hi) as [b' [[<-|Hin] Hx]]; [lia | lia |].
      rewrite Forall_forall in Hsb. specialize (Hsb b' Hin). unfold key_le in Hsb. lia.
    + rewrite (IH (N.max hi (b_off b + b_plen b)) Hsl Hf) by lia. split; intros Hc x Hx.
      * destruct (N.ltb_spec x (b_off b + b_plen b)).
        -- exists b. split; [left; auto | lia].
        -- destruct (Hc x) as [b' [Hin Hx']]; [lia|]. exists b'. split; [right; auto | auto].
      * destruct (Hc x) as [b' [[<-|Hin] Hx']]; [lia | lia | exists b'; auto].
Qed.

(* l is any arrangement of the fragments bs by ascending offset: which of them the sort produces does
   not matter *)
Lemma scan_sorted_iff_cover t bs l :
  (forall b, In b l <-> In b bs) -> StronglySorted (key_le b_off) l -> Forall (frag_of t) l ->
  (scan_parts 0 l = Some t <-> forall x, x < t -> covered bs x).
Proof.
  intros Hin Hs Hf. rewrite (scan_iff t l 0 Hs Hf (N.le_0_l t)).
  split; intros H x Hx; (destruct (H x) as (b & Hb & Hc); [lia|]); exists b; (split; [apply Hin, Hb | exact Hc]).
Qed.

(* IsBundleReassemblable on fragments of one bundle = every position below the total lies in some part *)
Theorem reassemblable_iff_cover bs t : bs <> [] -> Forall (frag_of t) bs ->
  (reassemblable bs = true <-> forall x, x < t -> covered bs x).
Proof.
  intros Hne Hf. unfold reassemblable, reassemblable_with.
  assert (Hfs : Forall (frag_of t) (sort_by_off bs))
    by (rewrite Forall_forall in *; intros b Hb; apply Hf, sort_by_off_In, Hb).
  rewrite <- (scan_sorted_iff_cover t bs _ (fun b => sort_by_off_In b bs) (sort_by_off_sorted bs) Hfs).
  (* the first of the sorted parts carries the total *)
  destruct bs as [|b bs']; [congruence|]. pose proof (proj2 (sort_by_off_In b (b :: bs')) (in_eq _ _)) as Hin.
  destruct (sort_by_off (b :: bs')) as [|f s]; [destruct Hin|].
  destruct (Forall_inv Hfs) as (_ & -> & _). destruct (scan_parts 0 (f :: s)) as [h|]; [|split; discriminate].
  rewrite N.eqb_eq. split; [intros -> | intros [= ->]]; reflexivity.
Qed.

Definition part_ok (k : N) (frag : bool) (p : cpart) : Prop :=
  p_name p = if frag then mkF k true (p_off p) (p_total p) else mkF k false 0 0.
Definition frag_key (p : cpart) : N * N := (p_off p, p_total p).
Definition rec_ok (k : N) (r : crec) : Prop :=
  Forall (part_ok k (r_frag r)) (r_parts r)
  /\ r_parts r <> []
  /\ NoDup (map frag_key (r_parts r))
  /\ (r_frag r = false -> length (r_parts r) = 1%nat).
Definition wf (c : cstate) : Prop :=
  NoDup (map fst (c_idx c)) /\ forall k r, In (k, r) (c_idx c) -> rec_ok k r.

Lemma wf_init : wf store_init.
Proof. split; cbn; [constructor | tauto]. Qed.

Lemma wf_lookup c k r : wf c -> ilookup k (c_idx c) = Some r -> rec_ok k r.
Proof. intros [_ H] Hl. apply H. apply il_Some_in; auto. Qed.

Lemma rec_part_id k r p : rec_ok k r -> In p (r_parts r) -> f_id (p_name p) = k.
Proof.
  intros (Hf & _) Hp. rewrite Forall_forall in Hf. rewrite (Hf p Hp). destruct (r_frag r); reflexivity.
Qed.
Lemma bundle_name_id b : f_id (bundle_name b) = b_id b.
Proof. unfold bundle_name. destruct (b_frag b); reflexivity. Qed.

Definition mstep_ok (m : st_mstep) : Prop :=
  match m with MInsert k r | MUpdate k r => rec_ok k r | _ => True end.

Lemma wf_iset c k r : wf c -> rec_ok k r -> wf (mkC (iset k r (c_idx c)) (c_files c)).
Proof.
  intros [H1 H2] Hr. split; cbn.
  - apply i_NoDup_set; auto.
  - intros k' r' Hin. apply i_In_set in Hin. destruct Hin as [[-> ->]|[Hin _]]; auto.
Qed.
Lemma wf_idel c k : wf c -> wf (mkC (idel k (c_idx c)) (c_files c)).
Proof.
  intros [H1 H2]. split; cbn.
  - apply i_NoDup_del; auto.
  - intros k' r' Hin. apply i_In_del in Hin. destruct Hin; auto.
Qed.
Lemma wf_apply_step c m : wf c -> mstep_ok m -> wf (apply_step c m).
Proof.
  intros Hw Hs. destruct m as [n bs|n|k r|k r|k]; cbn.
  1, 2: exact Hw.
  1, 2: destruct (ilookup k (c_idx c)); auto using wf_iset.
  apply wf_idel, Hw.
Qed.
Lemma wf_apply_steps ms : forall c, wf c -> Forall mstep_ok ms -> wf (apply_steps c ms).
Proof.
  induction ms as [|m ms IH]; intros c Hw Hs; cbn; auto.
  apply Forall_cons_iff in Hs as [Hm Hs]. apply IH; auto. apply wf_apply_step; auto.
Qed.
Lemma apply_steps_app c ms1 ms2 : apply_steps c (ms1 ++ ms2) = apply_steps (apply_steps c ms1) ms2.
Proof. apply fold_left_app. Qed.
Lemma apply_steps_cons c m ms : apply_steps c (m :: ms) = apply_steps (apply_step c m) ms.
Proof. reflexivity. Qed.

Definition push_rec (q : option crec) (b : sbundle) : option crec :=
  match q with
  | None => Some (new_item b)
  | Some r =>
    if b_frag b && r_frag r && negb (existsb (same_frag b) (r_parts r))
    then Some (mkR (r_pending r) (r_exp r) (r_frag r) (r_props r) (r_parts r ++ [mk_part b]))
    else None
  end.
Lemma push_plan_rec q b :
  push_plan q b =
  match push_rec q b with
  | Some r' => [MWrite (bundle_name b) (b_bytes b);
                match q with Some _ => MUpdate (b_id b) r' | None => MInsert (b_id b) r' end]
  | None => []
  end.
Proof.
  destruct q as [r|]; [|reflexivity]. cbn.
  destruct (b_frag b), (r_frag r), (existsb (same_frag b) (r_parts r)); reflexivity.
Qed.

Definition push (c : cstate) (b : sbundle) : cstate := apply_op c (OPush b).
Lemma push_state c b :
  push c b =
  match push_rec (ilookup (b_id b) (c_idx c)) b with
  | Some r' => mkC (iset (b_id b) r' (c_idx c)) (c_files (apply_step c (MWrite (bundle_name b) (b_bytes b))))
  | None => c
  end.
Proof.
  unfold push, apply_op. cbn [op_steps]. rewrite push_plan_rec.
  destruct (push_rec _ b); [|reflexivity]. cbn [apply_steps fold_left].
  destruct (ilookup (b_id b) (c_idx c)) eqn:El; cbn; rewrite El; reflexivity.
Qed.

Lemma push_rec_ok c b r' : wf c -> push_rec (ilookup (b_id b) (c_idx c)) b = Some r' -> rec_ok (b_id b) r'.
Proof.
  assert (Hp : part_ok (b_id b) (b_frag b) (mk_part b))
    by (unfold part_ok, mk_part, bundle_name; cbn; destruct (b_frag b); reflexivity).
  intros Hw E. destruct (ilookup (b_id b) (c_idx c)) as [r|] eqn:El; cbn in E.
  - destruct (b_frag b) eqn:Eb, (r_frag r) eqn:Er, (existsb (same_frag b) (r_parts r)) eqn:Ee; try discriminate.
    injection E as <-. destruct (wf_lookup _ _ _ Hw El) as (Hf & Hne & Hnd & _). rewrite Er in Hf.
    unfold rec_ok. cbn. repeat split.
    + apply Forall_app. split; [exact Hf | constructor; [exact Hp | constructor]].
    + destruct (r_parts r); discriminate.
    + rewrite map_app. apply NoDup_snoc; auto. apply (existsb_key_false frag_key), Ee.
    + discriminate.
  - injection E as <-. unfold rec_ok, new_item. cbn. repeat split.
    + constructor; [exact Hp | constructor].
    + discriminate.
    + constructor; [cbn; tauto | constructor].
Qed.

Definition name_fresh (c : cstate) (n : fname) : Prop :=
  forall k r p, In (k, r) (c_idx c) -> In p (r_parts r) -> p_name p <> n.
Lemma push_fresh c b r' : wf c -> push_rec (ilookup (b_id b) (c_idx c)) b = Some r' -> name_fresh c (bundle_name b).
Proof.
  intros Hw E k r p Hin Hp Heq. pose proof (proj2 Hw k r Hin) as Hr.
  (* such a part belongs to the record of the bundle's ID, is a fragment, and has the bundle's offset and total *)
  pose proof (rec_part_id k r p Hr Hp) as Hk. rewrite Heq, bundle_name_id in Hk. subst k.
  apply il_In in Hin; [|apply Hw]. rewrite Hin in E. cbn in E.
  destruct (b_frag b) eqn:Eb, (r_frag r) eqn:Er, (existsb (same_frag b) (r_parts r)) eqn:Ee; try discriminate.
  apply (existsb_key_false frag_key _ _ _ Ee), in_map_iff. exists p. split; [|exact Hp].
  destruct Hr as (Hf & _). rewrite Forall_forall in Hf. pose proof (Hf p Hp) as Ho.
  unfold part_ok, bundle_name in *. rewrite Er, Heq, Eb in Ho. injection Ho as -> ->. reflexivity.
Qed.

Definition removal_for (T : N -> Prop) (m : st_mstep) : Prop :=
  match m with MRemove n => T (f_id n) | MDelete k => T k | _ => False end.
Lemma removal_msteps_ok T ms : Forall (removal_for T) ms -> Forall mstep_ok ms.
Proof. apply Forall_impl. intros [] H; cbn in *; auto; contradiction. Qed.

Lemma delete_plan_removal (T : N -> Prop) c k : wf c -> T k -> Forall (removal_for T) (delete_plan (ilookup k (c_idx c)) k).
Proof.
  intros Hw Hk. unfold delete_plan. destruct (ilookup k (c_idx c)) as [r|] eqn:El; [|constructor].
  apply Forall_app. split; [|constructor; [exact Hk | constructor]].
  apply Forall_forall. intros m Hm. apply in_map_iff in Hm. destruct Hm as [p [<- Hp]]. cbn.
  rewrite (rec_part_id k r p (wf_lookup _ _ _ Hw El) Hp). exact Hk.
Qed.
Lemma sweep_removal ks : forall c, wf c -> Forall (removal_for (fun k => In k ks)) (sweep_steps c ks).
Proof.
  induction ks as [|k ks IH]; intros c Hw; cbn [sweep_steps]; [constructor|].
  pose proof (delete_plan_removal (fun k' => In k' (k :: ks)) c k Hw (in_eq k ks)) as Hd.
  apply Forall_app. split; [exact Hd|].
  eapply Forall_impl; [|apply IH, wf_apply_steps, (removal_msteps_ok _ _ Hd); exact Hw].
  intros [] Hm; cbn in *; auto.
Qed.

Lemma op_msteps_ok c o : wf c -> Forall mstep_ok (op_steps c o).
Proof.
  intros Hw. destruct o as [b|k pe pr ex|k|now| | | | |]; cbn [op_steps]; try constructor.
  - rewrite push_plan_rec. destruct (push_rec _ b) as [r'|] eqn:E; [|constructor].
    pose proof (push_rec_ok c b r' Hw E). constructor; [exact I|]. constructor; [|constructor].
    destruct (ilookup (b_id b) (c_idx c)); assumption.
  - unfold update_plan. destruct (ilookup k (c_idx c)) as [r|] eqn:El; constructor; [|constructor].
    exact (wf_lookup _ _ _ Hw El).
  - apply (removal_msteps_ok (eq k)), delete_plan_removal; auto.
  - eapply removal_msteps_ok, sweep_removal, Hw.
Qed.
Lemma wf_apply_op c o : wf c -> wf (apply_op c o).
Proof. intros Hw. apply wf_apply_steps, op_msteps_ok; exact Hw. Qed.
Lemma wf_crash_state c o n : wf c -> wf (crash_state c o n).
Proof. intros Hw. apply wf_apply_steps, Forall_firstn, op_msteps_ok; exact Hw. Qed.

(* BundleDescriptor.Bundle() on a well-formed store never indexes an empty Parts slice *)
Lemma no_panic_wf dec c : wf c -> check_pending_outcome dec c = Finished.
Proof.
  intros Hw. unfold check_pending_outcome.
  rewrite (proj2 (forallb_forall _ _)); auto.
  intros [k r] _. cbn [fst]. unfold dispatch_outcome, descriptor_bundle.
  destruct (ilookup k (c_idx c)) as [r'|] eqn:El; auto.
  destruct (wf_lookup _ _ _ Hw El) as (_ & Hne & _). destruct (r_parts r') as [|p ps]; [congruence|].
  destruct (load dec (c_files c) (p_name p)); auto.
Qed.

Lemma apply_removes ps : forall c,
  apply_steps c (map (fun p => MRemove (p_name p)) ps) = mkC (c_idx c) (fold_left (fun fs p => fdel (p_name p) fs) ps (c_files c)).
Proof.
  induction ps as [|p ps IH]; intros c; cbn [map fold_left].
  - destruct c; reflexivity.
  - rewrite apply_steps_cons, IH. reflexivity.
Qed.
Lemma delete_idx c k : c_idx (apply_op c (ODelete k)) = idel k (c_idx c).
Proof.
  unfold apply_op. cbn [op_steps]. destruct (ilookup k (c_idx c)) as [r|] eqn:El; cbn [delete_plan].
  - rewrite apply_steps_app, apply_removes. reflexivity.
  - symmetry. apply i_del_notin, El.
Qed.
Lemma sweep_fold ks : forall c,
  apply_steps c (sweep_steps c ks) = fold_left (fun c k => apply_op c (ODelete k)) ks c.
Proof.
  induction ks as [|k ks IH]; intros c; cbn [sweep_steps fold_left]; auto.
  rewrite apply_steps_app, IH. reflexivity.
Qed.
Lemma flookup_fold_fdel_any n ps : forall fs,
  flookup n (fold_left (fun fs p => fdel (p_name p) fs) ps fs) = flookup n fs
  \/ flookup n (fold_left (fun fs p => fdel (p_name p) fs) ps fs) = None.
Proof.
  induction ps as [|p ps IH]; intros fs; cbn [fold_left]; auto.
  destruct (IH (fdel (p_name p) fs)) as [->| ->]; auto. apply fl_del_cases.
Qed.

Definition degraded_part (p' p : apart) : Prop :=
  ap_off p' = ap_off p /\ ap_total p' = ap_total p /\ (ap_data p' = ap_data p \/ ap_data p' = None).
Definition degraded_rec (r' r : arec) : Prop :=
  a_pending r' = a_pending r /\ a_exp r' = a_exp r /\ a_frag r' = a_frag r /\ a_props r' = a_props r
  /\ Forall2 degraded_part (a_parts r') (a_parts r).
Definition crash_rel (T : N -> Prop) (c c' : cstate) : Prop :=
  (forall k, ~ T k -> ilookup k (c_idx c') = ilookup k (c_idx c))
  /\ (forall k, ilookup k (c_idx c') = ilookup k (c_idx c) \/ ilookup k (c_idx c') = None)
  /\ (forall n, ~ T (f_id n) -> flookup n (c_files c') = flookup n (c_files c))
  /\ (forall n, flookup n (c_files c') = flookup n (c_files c) \/ flookup n (c_files c') = None).
Definition op_targets (c : cstate) (o : op) (k : N) : Prop :=
  match o with
  | OPush b => k = b_id b
  | OUpdate k0 _ _ _ => k = k0
  | ODelete k0 => k0 = k
  | OSweep now => In k (expired_keys r_exp (c_idx c) now)
  | _ => False
  end.
Definition is_removal (o : op) : Prop := match o with ODelete _ | OSweep _ => True | _ => False end.

Lemma crash_rel_step T c c1 m : removal_for T m -> crash_rel T c c1 -> crash_rel T c (apply_step c1 m).
Proof.
  intros Hm (R1 & R2 & R3 & R4). destruct m as [|n| | |k]; try contradiction; cbn in Hm |- *.
  - split; [exact R1|]. split; [exact R2|]. cbn. split.
    + intros n' Hn'. rewrite fl_del_neq; [auto | congruence].
    + intros n'. destruct (fl_del_cases n n' (c_files c1)) as [->| ->]; auto.
  - split; [|split; [|split; [exact R3 | exact R4]]]; cbn.
    + intros k' Hk'. rewrite il_del_neq; [auto | congruence].
    + intros k'. destruct (il_del_cases k k' (c_idx c1)) as [->| ->]; auto.
Qed.
Lemma crash_rel_steps T c ms : forall c1, Forall (removal_for T) ms -> crash_rel T c c1 -> crash_rel T c (apply_steps c1 ms).
Proof.
  induction ms as [|m ms IH]; intros c1 Hf Hr; [exact Hr|].
  apply Forall_cons_iff in Hf as [Hm Hf]. apply IH, crash_rel_step; assumption.
Qed.

Lemma crash_no_steps c o n : op_steps c o = [] -> crash_state c o n = c.
Proof. intros E. unfold crash_state. now rewrite E, firstn_nil. Qed.
Lemma crash_update c k pe pr ex n :
  crash_state c (OUpdate k pe pr ex) n = c \/ crash_state c (OUpdate k pe pr ex) n = apply_op c (OUpdate k pe pr ex).
Proof.
  unfold crash_state, apply_op. cbn [op_steps]. unfold update_plan.
  destruct (ilookup k (c_idx c)) as [r|]; [|rewrite firstn_nil; auto].
  destruct n; cbn [firstn]; [|rewrite firstn_nil]; auto.
Qed.
Lemma crash_removal c o n : wf c -> is_removal o -> crash_rel (op_targets c o) c (crash_state c o n).
Proof.
  intros Hw Hr. apply crash_rel_steps; [|unfold crash_rel; auto]. apply Forall_firstn.
  destruct o as [b|k pe pr ex|k|now| | | | |]; try contradiction; cbn [op_steps op_targets].
  - apply delete_plan_removal; [exact Hw | reflexivity].
  - apply sweep_removal, Hw.
Qed.

Section Refine.
  Variable dec : list N -> option sbundle.
  Variable live : sbundle -> bool.
  Variable valid : sbundle -> Prop.
  Hypothesis dec_ok : forall b tail, valid b -> dec (b_bytes b ++ tail) = view live b.

  Lemma abs_part_ext fs fs' p : flookup (p_name p) fs' = flookup (p_name p) fs -> abs_part dec fs' p = abs_part dec fs p.
  Proof. intros H. unfold abs_part, load. rewrite H. reflexivity. Qed.
  Lemma abs_rec_ext fs fs' r :
    (forall p, In p (r_parts r) -> flookup (p_name p) fs' = flookup (p_name p) fs) -> abs_rec dec fs' r = abs_rec dec fs r.
  Proof.
    intros H. unfold abs_rec. f_equal. apply map_ext_in. intros p Hp. apply abs_part_ext. auto.
  Qed.
  Lemma abs_ext idx fs fs' :
    (forall k r p, In (k, r) idx -> In p (r_parts r) -> flookup (p_name p) fs' = flookup (p_name p) fs) ->
    abs dec (mkC idx fs') = abs dec (mkC idx fs).
  Proof.
    intros H. unfold abs. cbn [c_idx c_files]. apply map_ext_in. intros [k r] Hin. cbn [fst snd]. f_equal.
    apply abs_rec_ext. intros p Hp. eapply H; eauto.
  Qed.
  Lemma abs_fset_fresh c n v : name_fresh c n -> abs dec (mkC (c_idx c) (fset n v (c_files c))) = abs dec c.
  Proof.
    intros Hf. destruct c as [idx fs]. cbn [c_idx c_files]. apply abs_ext. intros k r p Hin Hp.
    apply fl_set_neq. intro E. eapply Hf; eauto.
  Qed.

  Lemma abs_lookup c k : ilookup k (abs dec c) = option_map (abs_rec dec (c_files c)) (ilookup k (c_idx c)).
  Proof. apply (alookup_map N.eqb (abs_rec dec (c_files c))). Qed.
  Lemma abs_iset idx fs k r : abs dec (mkC (iset k r idx) fs) = iset k (abs_rec dec fs r) (abs dec (mkC idx fs)).
  Proof.
    unfold abs, iset, aset. cbn [c_idx c_files map fst snd]. f_equal.
    symmetry. apply (adel_map N.eqb (abs_rec dec fs)).
  Qed.
  Lemma abs_idel idx fs k : abs dec (mkC (idel k idx) fs) = idel k (abs dec (mkC idx fs)).
  Proof. symmetry. apply (adel_map N.eqb (abs_rec dec fs)). Qed.
  Lemma abs_keys c : map fst (abs dec c) = map fst (c_idx c).
  Proof. apply map_map. Qed.
  Lemma existsb_same_abs b fs ps : existsb (same_afrag b) (map (abs_part dec fs) ps) = existsb (same_frag b) ps.
  Proof. induction ps as [|p ps IH]; cbn; auto. rewrite IH. reflexivity. Qed.

  Lemma load_fset_eq n v fs : load dec (fset n v fs) n = dec v.
  Proof. unfold load. rewrite fl_set_eq. reflexivity. Qed.

  Lemma abs_push c b : wf c -> valid b -> abs dec (push c b) = spec_apply live (abs dec c) (OPush b).
  Proof.
    intros Hw Hv. rewrite push_state, spec_push_eq, abs_lookup. cbn [apply_step c_files]. set (fs1 := fset _ _ _).
    assert (Hl : load dec fs1 (bundle_name b) = view live b)
      by (unfold fs1, write_over; rewrite load_fset_eq; apply dec_ok, Hv).
    (* in both cases that write, the file written is new to [abs] *)
    destruct (ilookup (b_id b) (c_idx c)) as [r|] eqn:El; cbn [option_map push_rec spec_push_rec abs_rec a_frag a_parts].
    - rewrite existsb_same_abs. destruct (b_frag b && r_frag r && _) eqn:Ec; [|reflexivity].
      assert (Hfr : name_fresh c (bundle_name b))
        by (eapply push_fresh; [exact Hw | rewrite El; cbn [push_rec]; rewrite Ec; reflexivity]).
      rewrite abs_iset. unfold fs1 at 2. rewrite (abs_fset_fresh _ _ _ Hfr). f_equal.
      unfold abs_rec. cbn [r_pending r_exp r_frag r_props r_parts]. f_equal.
      rewrite map_app. cbn [map]. f_equal.
      + apply map_ext_in. intros p Hp. apply abs_part_ext, fl_set_neq.
        intro E. exact (Hfr _ _ _ (il_Some_in _ _ _ El) Hp (eq_sym E)).
      + unfold abs_part. cbn [mk_part p_name p_off p_total]. rewrite Hl. reflexivity.
    - assert (Hfr : name_fresh c (bundle_name b)) by (eapply push_fresh; [exact Hw | rewrite El; reflexivity]).
      rewrite abs_iset. unfold fs1 at 2. rewrite (abs_fset_fresh _ _ _ Hfr). f_equal.
      unfold abs_rec, new_item, new_arec, abs_part. cbn. rewrite Hl. reflexivity.
  Qed.
  Lemma abs_update c k pe pr ex : abs dec (apply_op c (OUpdate k pe pr ex)) = spec_apply live (abs dec c) (OUpdate k pe pr ex).
  Proof.
    unfold apply_op. cbn [op_steps spec_apply]. rewrite abs_lookup.
    destruct (ilookup k (c_idx c)) as [r|] eqn:El; cbn [option_map update_plan]; [|reflexivity].
    cbn [apply_steps fold_left apply_step]. rewrite El. rewrite abs_iset. destruct c; reflexivity.
  Qed.
  Lemma abs_delete c k : wf c -> abs dec (apply_op c (ODelete k)) = spec_apply live (abs dec c) (ODelete k).
  Proof.
    intros Hw. cbn [spec_apply].
    (* the complete Delete is the last of its crash states *)
    assert (Hr : crash_rel (eq k) c (apply_op c (ODelete k)))
      by (apply crash_rel_steps; [apply delete_plan_removal; auto | unfold crash_rel; auto]).
    destruct Hr as (_ & _ & R3 & _). pose proof (delete_idx c k) as Hi.
    destruct (apply_op c (ODelete k)) as [idx' fs']. cbn [c_idx c_files] in *. subst idx'.
    rewrite (abs_ext _ (c_files c) fs'), abs_idel; [destruct c; reflexivity|].
    (* the remaining records have another ID than k, and so have their files *)
    intros k' r' p Hin Hp. apply i_In_del in Hin. destruct Hin as [Hin Hne]. apply R3.
    rewrite (rec_part_id k' r' p (proj2 Hw _ _ Hin) Hp). congruence.
  Qed.
  Lemma abs_fold_delete ks : forall c, wf c ->
    abs dec (fold_left (fun c k => apply_op c (ODelete k)) ks c) = fold_left (fun a k => idel k a) ks (abs dec c).
  Proof.
    induction ks as [|k ks IH]; intros c Hw; cbn [fold_left]; auto.
    rewrite IH by (apply wf_apply_op; auto). rewrite abs_delete by auto. reflexivity.
  Qed.
  Lemma expired_keys_abs c now : expired_keys a_exp (abs dec c) now = expired_keys r_exp (c_idx c) now.
  Proof. unfold expired_keys, abs. rewrite filter_map_comm. apply map_map. Qed.
  Lemma abs_sweep c now : wf c -> abs dec (apply_op c (OSweep now)) = spec_apply live (abs dec c) (OSweep now).
  Proof.
    intros Hw. unfold apply_op. cbn [op_steps spec_apply]. rewrite sweep_fold, abs_fold_delete by auto.
    rewrite expired_keys_abs. reflexivity.
  Qed.

  Theorem abs_apply_op c o : wf c -> valid_op valid o -> abs dec (apply_op c o) = spec_apply live (abs dec c) o.
  Proof.
    intros Hw Hv. destruct o as [b|k pe pr ex|k|now| | | | |]; try reflexivity.
    - apply abs_push; auto.
    - apply abs_update.
    - apply abs_delete; auto.
    - apply abs_sweep; auto.
  Qed.
  (* a crash inside Push: only the file write can stand alone, and it is invisible *)
  Lemma crash_push c b n : wf c ->
    abs dec (crash_state c (OPush b) n) = abs dec c \/ crash_state c (OPush b) n = apply_op c (OPush b).
  Proof.
    intros Hw. unfold crash_state, apply_op. cbn [op_steps]. rewrite push_plan_rec.
    destruct (push_rec _ b) as [r'|] eqn:E; [|rewrite firstn_nil; auto].
    destruct n as [|[|n]]; cbn [firstn]; [auto | | rewrite firstn_nil; auto].
    left. apply abs_fset_fresh. exact (push_fresh c b r' Hw E).
  Qed.

  (* what a reader sees after a crash inside a delete / sweep: records that were not operated on are
     unchanged and read back as before; a record operated on is gone, or still indexed with its
     metadata, where each part reads back as before or not at all *)
  Theorem crash_rel_observable T c c' : wf c -> crash_rel T c c' ->
    (forall k, ~ T k -> ilookup k (abs dec c') = ilookup k (abs dec c))
    /\ (forall k r', ilookup k (abs dec c') = Some r' -> exists r, ilookup k (abs dec c) = Some r /\ degraded_rec r' r).
  Proof.
    intros Hw (R1 & R2 & R3 & R4). split.
    - intros k Hk. rewrite !abs_lookup, (R1 k Hk). destruct (ilookup k (c_idx c)) as [r|] eqn:El; cbn [option_map]; auto.
      f_equal. apply abs_rec_ext. intros p Hp. apply R3.
      rewrite (rec_part_id k r p (wf_lookup _ _ _ Hw El) Hp). exact Hk.
    - intros k r' Hl. rewrite abs_lookup in Hl. destruct (ilookup k (c_idx c')) as [r0|] eqn:El'; cbn in Hl; [|discriminate].
      injection Hl as <-. destruct (R2 k) as [E|E]; rewrite El' in E; [|discriminate].
      exists (abs_rec dec (c_files c) r0). rewrite abs_lookup, <- E. split; [reflexivity|].
      unfold degraded_rec, abs_rec. cbn. repeat split; auto.
      induction (r_parts r0) as [|p ps IH]; cbn; constructor; [|exact IH].
      unfold degraded_part, abs_part, load. cbn. repeat split; auto.
      destruct (R4 (p_name p)) as [F|F]; rewrite F; auto.
  Qed.

End Refine.

(* Progress of one thread pushing b into a store that was c0 when it looked the ID up: whatever it has
   done so far, finishing its remaining steps gives the sequential push *)
Definition push_progress (c0 : cstate) (b : sbundle) (t : tstate) (c : cstate) : Prop :=
  match t with
  | TInit => c = c0
  | TRun ms => apply_steps c ms = push c0 b
  | TDone => c = push c0 b
  end.
Lemma push_progress_step c0 b t other c t' c' : push_progress c0 b t c -> thread_step true b t other c = (t', c') ->
  (t = TInit -> is_run other = false) -> push_progress c0 b t' c'.
Proof.
  intros H E Ho. destruct t as [|[|m ms]|]; cbn in E; [rewrite Ho in E by reflexivity|..];
    injection E as <- <-; [|exact H..].
  cbn in *. subst c. reflexivity.
Qed.

(* thread 1 came first: thread 2 has not started, or thread 1 is done and thread 2 works on its result *)
Definition serial (c0 : cstate) (b1 : sbundle) (t1 : tstate) (b2 : sbundle) (t2 : tstate) (c : cstate) : Prop :=
  (t2 = TInit /\ push_progress c0 b1 t1 c) \/ (t1 = TDone /\ push_progress (push c0 b1) b2 t2 c).
Lemma serial_first c0 b1 t1 b2 t2 c t' c' : serial c0 b1 t1 b2 t2 c ->
  thread_step true b1 t1 t2 c = (t', c') -> serial c0 b1 t' b2 t2 c'.
Proof.
  intros [[-> H]|[-> H]] E.
  - left. split; [reflexivity|]. eapply push_progress_step; [exact H | exact E | reflexivity].
  - injection E as <- <-. right. auto.
Qed.
(* the second thread waits while the first one runs; when it starts from c0 it becomes the first *)
Lemma serial_second c0 b1 t1 b2 t2 c t' c' : serial c0 b1 t1 b2 t2 c ->
  thread_step true b2 t2 t1 c = (t', c') -> serial c0 b1 t1 b2 t' c' \/ serial c0 b2 t' b1 t1 c'.
Proof.
  intros [[-> H]|[-> H]] E.
  - destruct t1; cbn in E, H; injection E as <- <-; subst.
    + right. left. split; reflexivity.
    + left. left. auto.
    + left. right. split; reflexivity.
  - left. right. split; [reflexivity|]. eapply push_progress_step; [exact H | exact E | reflexivity].
Qed.

Definition linv (c0 : cstate) (ba bb : sbundle) (cf : conf) : Prop :=
  serial c0 ba (cf_a cf) bb (cf_b cf) (cf_st cf) \/ serial c0 bb (cf_b cf) ba (cf_a cf) (cf_st cf).
Lemma linv_step c0 ba bb cf who : linv c0 ba bb cf -> linv c0 ba bb (conf_step true ba bb cf who).
Proof.
  intros H. unfold conf_step. destruct who.
  - destruct (thread_step true ba _ _ _) as [t' c'] eqn:E. destruct H as [H|H].
    + left. eapply serial_first; eassumption.
    + apply or_comm. eapply serial_second; eassumption.
  - destruct (thread_step true bb _ _ _) as [t' c'] eqn:E. destruct H as [H|H].
    + eapply serial_second; eassumption.
    + right. eapply serial_first; eassumption.
Qed.
Lemma linv_run c0 ba bb sched : forall cf, linv c0 ba bb cf -> linv c0 ba bb (run_sched true ba bb cf sched).
Proof. induction sched as [|w sched IH]; intros cf H; [exact H|]. apply IH, linv_step, H. Qed.
Lemma locked_serial c0 ba bb sched :
  let cf := run_sched true ba bb (mkConf c0 TInit TInit) sched in
  cf_a cf = TDone -> cf_b cf = TDone ->
  cf_st cf = push (push c0 ba) bb \/ cf_st cf = push (push c0 bb) ba.
Proof.
  intros cf Ha Hb. assert (H : linv c0 ba bb cf) by (apply linv_run; left; left; split; reflexivity).
  unfold linv, serial in H. rewrite Ha, Hb in H.
  destruct H as [[[[=] _]|[_ H]]|[[[=] _]|[_ H]]]; auto.
Qed.

Lemma push_idx c b :
  c_idx (push c b) =
  match push_rec (ilookup (b_id b) (c_idx c)) b with Some r' => iset (b_id b) r' (c_idx c) | None => c_idx c end.
Proof. rewrite push_state. destruct (push_rec _ b); reflexivity. Qed.
Lemma push_idx_other c b k : k <> b_id b -> ilookup k (c_idx (push c b)) = ilookup k (c_idx c).
Proof.
  intros Hne. rewrite push_idx. destruct (push_rec _ b); [apply il_set_neq; congruence | reflexivity].
Qed.

Definition frag_slot_ok (c : cstate) (b : sbundle) : Prop :=
  match ilookup (b_id b) (c_idx c) with Some r => r_frag r = true | None => True end.

Lemma same_frag_self b : same_frag b (mk_part b) = true.
Proof. unfold same_frag, mk_part. cbn. rewrite !N.eqb_refl. reflexivity. Qed.

Lemma has_part_push_self c b : b_frag b = true -> frag_slot_ok c b -> has_part (push c b) b = true.
Proof.
  intros Hb Hs. unfold has_part, frag_slot_ok in *. rewrite push_idx.
  destruct (ilookup (b_id b) (c_idx c)) as [r|] eqn:El; cbn [push_rec].
  - rewrite Hb, Hs. cbn [andb]. destruct (existsb (same_frag b) (r_parts r)) eqn:Ee; cbn [negb].
    + rewrite El. exact Ee.
    + rewrite il_set_eq. cbn [r_parts]. rewrite existsb_app. cbn. rewrite same_frag_self. apply orb_true_r.
  - rewrite il_set_eq. cbn. rewrite same_frag_self. reflexivity.
Qed.
Lemma has_part_push_keep c b1 b2 : has_part c b1 = true -> has_part (push c b2) b1 = true.
Proof.
  unfold has_part. intros H. destruct (N.eq_dec (b_id b1) (b_id b2)) as [E|E]; [|rewrite push_idx_other; auto].
  rewrite push_idx. rewrite E in *. destruct (ilookup (b_id b2) (c_idx c)) as [r|] eqn:El; [|discriminate].
  cbn [push_rec]. destruct (_ && _ && _); [|rewrite El; exact H].
  rewrite il_set_eq. cbn [r_parts]. rewrite existsb_app, H. reflexivity.
Qed.
Lemma slot_ok_push c b1 b2 : b_id b1 = b_id b2 -> b_frag b2 = true -> frag_slot_ok c b2 -> frag_slot_ok (push c b2) b1.
Proof.
  unfold frag_slot_ok. intros -> Hb H. rewrite push_idx.
  destruct (ilookup (b_id b2) (c_idx c)) as [r|] eqn:El; cbn [push_rec].
  - destruct (_ && _ && _); [rewrite il_set_eq | rewrite El]; exact H.
  - rewrite il_set_eq. exact Hb.
Qed.
Lemma push_both c0 b1 b2 : b_id b1 = b_id b2 -> b_frag b1 = true -> b_frag b2 = true -> frag_slot_ok c0 b1 ->
  has_part (push (push c0 b1) b2) b1 = true /\ has_part (push (push c0 b1) b2) b2 = true
  /\ (forall k, k <> b_id b1 -> ilookup k (c_idx (push (push c0 b1) b2)) = ilookup k (c_idx c0)).
Proof.
  intros E H1 H2 Hs. split; [|split].
  - apply has_part_push_keep, has_part_push_self; auto.
  - apply has_part_push_self, slot_ok_push; auto.
  - intros k Hk. rewrite !push_idx_other; congruence.
Qed.

Definition toy_frag (off len : N) : sbundle := mkB 1 true off 10 len 5000 [1; off; len].
Example unlocked_loses_fragment :
  let ba := toy_frag 0 5 in let bb := toy_frag 5 5 in
  let cf := run_sched false ba bb (mkConf store_init TInit TInit) [true; false; true; true; true; false; false; false] in
  cf_a cf = TDone /\ cf_b cf = TDone /\ has_part (cf_st cf) ba = true /\ has_part (cf_st cf) bb = false.
Proof. vm_compute. repeat split. Qed.
Example locked_keeps_fragment :
  let ba := toy_frag 0 5 in let bb := toy_frag 5 5 in
  let cf := run_sched true ba bb (mkConf store_init TInit TInit) [true; false; true; true; true; false; false; false; false] in
  cf_a cf = TDone /\ cf_b cf = TDone /\ has_part (cf_st cf) ba = true /\ has_part (cf_st cf) bb = true.
Proof. vm_compute. repeat split. Qed.

(* the scan before the repair: [0,8) [2,4) [8,10) covers [0,10) but is reported incomplete *)
Example complete_orig_refuted :
  let bs := [toy_frag 0 8; toy_frag 2 2; toy_frag 8 2] in
  reassemblable_orig bs = false /\ reassemblable bs = true /\ Forall (frag_of 10) bs.
Proof. split; [|split]; [vm_compute; reflexivity | vm_compute; reflexivity | repeat constructor; vm_compute; congruence]. Qed.

(* the decoder hypothesis can be met: a toy prefix code *)
Definition toy_enc (b : sbundle) : list N :=
  [b_id b; b2n (b_frag b); b_off b; b_total b; b_plen b; Z.to_N (b_exp b)].
Definition toy_valid (b : sbundle) : Prop := b_bytes b = toy_enc b /\ (0 <= b_exp b)%Z.
Definition toy_dec (bs : list N) : option sbundle :=
  match bs with
  | i :: f :: o :: t :: p :: e :: _ => Some (mkB i (negb (f =? 0)) o t p (Z.of_N e) [i; f; o; t; p; e])
  | _ => None
  end.
Lemma toy_dec_ok : forall b tail, toy_valid b -> toy_dec (b_bytes b ++ tail) = view (fun _ => true) b.
Proof.
  intros [i f o t p e bs] tail [Hb He]. unfold toy_enc in *. cbn in *. subst bs. unfold view. cbn.
  rewrite Z2N.id by auto. destruct f; reflexivity.
Qed.

(* stale tail: an orphan file left by a crash holds a longer serialisation under the same name; the
   re-pushed bundle is written over it without truncation and still reads back exactly *)
Example stale_tail_example :
  let b := mkB 1 false 0 0 3 7000 [1; 0; 0; 0; 3; 7000] in
  let c0 := mkC [] [(bundle_name b, [1; 0; 0; 0; 9; 7000; 42; 42; 42])] in
  let c1 := apply_op c0 (OPush b) in
  flookup (bundle_name b) (c_files c1) = Some [1; 0; 0; 0; 3; 7000; 42; 42; 42]
  /\ abs toy_dec c1 = [(1, mkA false 7000 false 0 [mkAP 0 0 (Some b)])].
Proof. vm_compute. split; reflexivity. Qed.

(* a crash inside Delete: the part file is gone, the index entry is still there; restart entry points *)
Example crash_delete_example :
  let b := mkB 1 false 0 0 3 7000 [1; 0; 0; 0; 3; 7000] in
  let c0 := apply_op (apply_op store_init (OPush b)) (OUpdate 1 true 5 7000) in
  let c1 := crash_state c0 (ODelete 1) 1 in
  abs toy_dec c1 = [(1, mkA true 7000 false 5 [mkAP 0 0 None])]
  /\ descriptor_bundle toy_dec c1 1 = BErr
  /\ check_pending_outcome toy_dec c1 = Finished
  /\ must_bundle_outcome toy_dec c1 1 = Panicked
  /\ abs toy_dec (apply_op c1 (OSweep 8000)) = [].
Proof. vm_compute. repeat split; reflexivity. Qed.
