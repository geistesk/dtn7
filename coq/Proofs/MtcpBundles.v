(* MTCP carrying real bundles: the stream theorem of MtcpProofs.v (generic in a codec) at the bundle codec of
   Model/Bundle.v itself, for lists of bundles that are only *assumed* valid (no subset type): the server loop
   of Model/Mtcp.v, parsing with dec_bundle, hands up exactly the bundles sent. *)
From DTN Require Import Base Bundle BundleProofs BundleStreamProofs Mtcp MtcpProofs.
Open Scope N_scope.

Definition mb_parse (now : N) : N -> list N -> option (bundle * list N) := fun _ s => dec_bundle now s.
Definition mb_ev (o : option bundle) : mtcp_ev := cev bundle_bytes o.
(* what may be sent: a valid bundle whose serialisation is shorter than 2^64 bytes (Go: len is an int) *)
Definition mb_ok (now : N) (o : option bundle) : Prop :=
  match o with Some b => good now b /\ nlen (bundle_bytes b) < 2 ^ 64 | None => True end.

Lemma mb_stream now l : Forall (mb_ok now) l ->
  mtcp_server (mb_parse now) (mtcp_client_stream (map mb_ev l)) = handed_up l.
Proof.
  apply (mtcp_stream_gen bundle_bytes (mb_parse now) (fun b => good now b /\ nlen (bundle_bytes b) < 2 ^ 64)).
  - intros x _. apply bundle_bytes_ne.
  - intros x [_ Hl]. exact Hl.
  - intros x r [Hg _]. exact (dec_good now x r Hg).
Qed.
