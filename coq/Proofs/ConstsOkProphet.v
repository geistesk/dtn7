(* ConstsOkProphet.v - the operator / literal shapes of the PRoPHET update functions regenerated
   from the repository coincide with the ones the model is written against.  A changed formula
   (other operator, other order, other literal) breaks a [reflexivity] here. *)
From Coq Require Import ZArith List.
Import ListNotations.
From DTN Require Import Consts SpecProphet.
Open Scope Z_scope.

Lemma prophet_encounter_shape_ok :
  pkg_routing__Prophet_encounter__ops = prophet_encounter_ops
  /\ pkg_routing__Prophet_encounter__lits = prophet_encounter_lits.
Proof. split; reflexivity. Qed.
Lemma prophet_age_shape_ok :
  pkg_routing__Prophet_agePred__ops = prophet_age_ops
  /\ pkg_routing__Prophet_agePred__lits = prophet_age_lits.
Proof. split; reflexivity. Qed.
Lemma prophet_transitivity_shape_ok :
  pkg_routing__Prophet_transitivity__ops = prophet_transitivity_ops
  /\ pkg_routing__Prophet_transitivity__lits = prophet_transitivity_lits.
Proof. split; reflexivity. Qed.
Lemma prophet_sender_shape_ok :
  pkg_routing__Prophet_SenderForBundle__ops = prophet_sender_ops
  /\ pkg_routing__Prophet_SenderForBundle__lits = prophet_sender_lits.
Proof. split; reflexivity. Qed.
Lemma prophet_block_type_ok : pkg_bpv7__ExtBlockTypeProphetBlock = 194.
Proof. reflexivity. Qed.
