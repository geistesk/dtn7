(* BbcReuse.v - C12 (BBC part): the shared outgoing queue loses nothing and cannot deadlock: every complete
   run transmits exactly the own fragments and exactly the failure fragments, each in order.

   (The theorems on histories in which transmission ids are used again are put together in
   Properties/C12.v from handle_fragment_end_clears, handle_all_other and bbc_handle_train_any of
   BbcProofs.v.) *)
From DTN Require Import Base ListFacts Bbc.
Local Open Scope nat_scope.

Definition bq_measure (s : bbcq_state) : nat :=
  2 * (length (bq_own s) + length (bq_fail s)) + length (bq_queue s).

Definition nofail (f : fragment) : bool := negb (f_fail f).

Definition bq_inv (own fails : list fragment) (s : bbcq_state) : Prop :=
  filter nofail (bq_sent s ++ bq_queue s) ++ bq_own s = own
  /\ filter f_fail (bq_sent s ++ bq_queue s) ++ bq_fail s = fails
  /\ Forall (fun f => f_fail f = false) (bq_own s)
  /\ Forall (fun f => f_fail f = true) (bq_fail s).

(* every step uses up one unit: a fragment still to be queued counts two, a queued one one *)
Lemma bq_step_measure cap s e s' : bbcq_step cap s e = Some s' -> S (bq_measure s') = bq_measure s.
Proof.
  unfold bq_measure. destruct e; cbn [bbcq_step]; intros H.
  1: destruct (bq_own s); [discriminate|]. 2: destruct (bq_fail s); [discriminate|].
  1, 2: destruct (Nat.ltb (length (bq_queue s)) cap); [|discriminate]; injection H as <-.
  1, 2: cbn [bq_own bq_fail bq_queue length]; rewrite app_length; cbn [length]; lia.
  destruct (bq_queue s); [discriminate|]. injection H as <-. cbn [bq_own bq_fail bq_queue length]. lia.
Qed.

Lemma bq_step_inv cap own fails s e s' :
  bq_inv own fails s -> bbcq_step cap s e = Some s' -> bq_inv own fails s'.
Proof.
  intros (I1 & I2 & I3 & I4) H. unfold bq_inv. destruct e; cbn [bbcq_step] in H.
  1: destruct (bq_own s) as [|f r]; [discriminate|]; inversion I3 as [|x l Hf I3']; subst x l.
  2: destruct (bq_fail s) as [|f r]; [discriminate|]; inversion I4 as [|x l Hf I4']; subst x l.
  (* either producer: f goes from the head of its list to the end of the queue, and Hf says on which
     side of the merge it counts *)
  1, 2: destruct (Nat.ltb (length (bq_queue s)) cap); [|discriminate]; injection H as <-.
  1, 2: cbn [bq_own bq_fail bq_queue bq_sent]; rewrite app_assoc, !filter_snoc.
  1, 2: unfold nofail at 2; rewrite Hf; cbn [negb]; rewrite app_nil_r, <- app_assoc; auto.
  (* the consumer: the head of the queue becomes the end of what was sent *)
  destruct (bq_queue s) as [|f r]; [discriminate|]. injection H as <-.
  cbn [bq_own bq_fail bq_queue bq_sent]. rewrite <- app_assoc. auto.
Qed.

Lemma bq_run_inv cap own fails : forall evs s s',
  bq_inv own fails s -> bbcq_run cap s evs = Some s' ->
  bq_inv own fails s' /\ bq_measure s' + length evs = bq_measure s.
Proof.
  induction evs as [|e evs IH]; intros s s' HI H.
  - cbn in H. injection H as H. subst s'. split; [exact HI|cbn; lia].
  - cbn [bbcq_run] in H. destruct (bbcq_step cap s e) as [s1|] eqn:E1; [|discriminate].
    pose proof (bq_step_measure cap s e s1 E1) as Hm.
    destruct (IH s1 s' (bq_step_inv cap own fails s e s1 HI E1) H) as [HI' Hm'].
    split; [exact HI'|]. cbn [length]. lia.
Qed.

Lemma bq_init_inv own fails :
  Forall (fun f => f_fail f = false) own -> Forall (fun f => f_fail f = true) fails ->
  bq_inv own fails (bbcq_init own fails).
Proof. intros H1 H2. unfold bq_inv, bbcq_init. cbn. auto. Qed.

Lemma bq_inv_done own fails s : bq_inv own fails s -> bbcq_done s = true ->
  filter nofail (bq_sent s) = own /\ filter f_fail (bq_sent s) = fails /\ bq_measure s = 0.
Proof.
  intros (I1 & I2 & _) Hd. unfold bbcq_done in Hd. unfold bq_measure.
  destruct (bq_own s); [|discriminate]. destruct (bq_fail s); [|discriminate].
  destruct (bq_queue s); [|discriminate]. rewrite !app_nil_r in I1, I2. auto.
Qed.

Lemma bbc_frags_eqb_refl l : bbc_frags_eqb l l = true.
Proof.
  induction l as [|f l IH]; [reflexivity|]. cbn [bbc_frags_eqb]. unfold fragment_eqb.
  rewrite IH, !N.eqb_refl, bytes_eqb_refl. reflexivity.
Qed.

Theorem bbcq_progress cap s : 1 <= cap -> bbcq_done s = false ->
  exists e s', bbcq_step cap s e = Some s'.
Proof.
  intros Hc Hd. apply Nat.ltb_lt in Hc. unfold bbcq_done in Hd.
  destruct (bq_queue s) as [|f q] eqn:Eq.
  - (* the queue is empty, so there is room, and a producer has something left *)
    destruct (bq_own s) as [|x o] eqn:Eo; [destruct (bq_fail s) as [|y l] eqn:Ef; [discriminate|]|].
    + exists BqFail. cbn [bbcq_step]. rewrite Ef, Eq. cbn [length]. rewrite Hc. eexists. reflexivity.
    + exists BqOwn. cbn [bbcq_step]. rewrite Eo, Eq. cbn [length]. rewrite Hc. eexists. reflexivity.
  - exists BqPop. cbn [bbcq_step]. rewrite Eq. eexists. reflexivity.
Qed.

Theorem bbcq_drains_any cap s : 1 <= cap ->
  exists evs' s', bbcq_run cap s evs' = Some s' /\ bbcq_done s' = true.
Proof.
  intros Hc. remember (bq_measure s) as m eqn:Hm. revert s Hm.
  induction m as [|m IH]; intros s Hm; destruct (bbcq_done s) eqn:Hd.
  1, 3: exists [], s; auto.
  (* not drained: a step is enabled and uses up one unit, so m is not 0 *)
  all: destruct (bbcq_progress cap s Hc Hd) as (e & s1 & E1).
  all: pose proof (bq_step_measure cap s e s1 E1) as Hm1.
  - lia.
  - destruct (IH s1 ltac:(lia)) as (evs' & s' & Hr & Hdn).
    exists (e :: evs'), s'. cbn [bbcq_run]. rewrite E1. auto.
Qed.
