(* BundleProofs.v - the bundle codec round-trips: decode (encode b ++ r) = (b, r) for every
   well-formed, valid bundle; every component consumes exactly its own encoding. *)
From DTN Require Import Base ListFacts Cbor CborProofs Crc Eid EidProofs Bundle BundleWf.
From Coq Require Import ZifyN ZifyNat ZifyBool.
Open Scope N_scope.

Ltac split_andb :=
  repeat match goal with
         | H : _ && _ = true |- _ => apply andb_prop in H; destruct H
         end.

(* the input starts with the encoding of the item the next reader expects: rewrite with that reader's round trip *)
Ltac read_own :=
  first [ rewrite read_uint_enc by (assumption || reflexivity)
        | rewrite read_arr_enc by (assumption || reflexivity)
        | rewrite read_maplen_enc by (assumption || reflexivity)
        | rewrite read_f64_enc by (assumption || reflexivity)
        | rewrite read_bstr_enc by (assumption || reflexivity) ];
  cbn [bind].

(* decide closed N comparisons in the goal (type-code dispatch) without unfolding anything else *)
Ltac tcred :=
  repeat match goal with
         | |- context [N.eqb ?a ?b] =>
             let v := eval vm_compute in (N.eqb a b) in
             lazymatch v with
             | true => change (N.eqb a b) with true
             | false => change (N.eqb a b) with false
             end
         end; cbv iota; cbn [negb orb andb Bool.eqb]; cbv iota.

Lemma eid_ok_parts e : eid_ok e = true -> eid_wf e = true /\ eid_valid e = true.
Proof. unfold eid_ok. intros H. apply andb_prop in H. exact H. Qed.

Lemma enc_eid_ok e : eid_ok e = true -> enc_eid e = Some (enc_eid_body e).
Proof. intros H. apply eid_ok_parts in H. destruct H as [_ Hv]. unfold enc_eid. rewrite Hv. reflexivity. Qed.

Lemma dec_eid_body e r : eid_ok e = true -> dec_eid (enc_eid_body e ++ r) = Ok e r.
Proof. intros H. apply dec_eid_enc; [apply eid_ok_parts in H; tauto|apply enc_eid_ok, H]. Qed.

Lemma map_set_fresh k v acc :
  existsb (fun kv' => eid_eqb k (fst kv')) acc = false -> map_set k v acc = acc ++ [(k, v)].
Proof.
  induction acc as [|[k' v'] acc IH]; cbn [existsb map_set app fst]; intros H; [reflexivity|].
  apply orb_false_iff in H. destruct H as [H1 H2]. rewrite H1, (IH H2). reflexivity.
Qed.

(* The encoders as total functions, without the option: enc_pairs_body, inner_of, crc_field, cblock_bytes,
   primary_bytes, blocks_bytes, bundle_bytes.  On well-formed input the model's encoder returns them
   (enc_X x = Some (X_bytes x) under X_wf x: the lemmas enc_X_ok); the round trips here and the theorems of
   Properties about encoded bundles are stated on them. *)
Fixpoint enc_pairs_body (encv : N -> list N) (l : list (eid * N)) : list N :=
  match l with
  | [] => []
  | (k, v) :: l => enc_eid_body k ++ encv v ++ enc_pairs_body encv l
  end.

Lemma enc_pairs_ok encv l : pairs_wf l = true -> enc_pairs encv l = Some (enc_pairs_body encv l).
Proof.
  induction l as [|[k v] l IH]; cbn [pairs_wf forallb enc_pairs enc_pairs_body fst snd]; intros H; [reflexivity|].
  split_andb. rewrite enc_eid_ok by assumption. cbn [obind]. unfold pairs_wf in IH. rewrite IH by assumption. reflexivity.
Qed.

Lemma enc_pairs_body_length encv l : (length l <= length (enc_pairs_body encv l))%nat.
Proof.
  induction l as [|[k v] l IH]; cbn [enc_pairs_body length]; [lia|].
  rewrite !app_length. pose proof (enc_eid_body_nonempty k). lia.
Qed.

Lemma eid_eqb_sym a b : eid_eqb a b = eid_eqb b a.
Proof.
  destruct (eid_eqb a b) eqn:E.
  - apply eid_eqb_eq in E. subst. symmetry. apply eid_eqb_refl.
  - destruct (eid_eqb b a) eqn:E2; [|reflexivity]. apply eid_eqb_eq in E2. subst. rewrite eid_eqb_refl in E. discriminate.
Qed.

Lemma keys_nodup_mid acc kv l : keys_nodup (acc ++ kv :: l) = true ->
  existsb (fun kv' => eid_eqb (fst kv) (fst kv')) acc = false.
Proof.
  induction acc as [|a acc IH]; cbn [app keys_nodup existsb]; intros H; [reflexivity|].
  apply andb_prop in H as [Ha H]. apply negb_true_iff in Ha. rewrite existsb_app in Ha. cbn [existsb] in Ha.
  apply orb_false_iff in Ha as [_ Ha]. apply orb_false_iff in Ha as [Ha _].
  rewrite eid_eqb_sym, Ha. exact (IH H).
Qed.

Section Pairs.
Variable readv : list N -> res N.
Variable encv : N -> list N.
Hypothesis Hrt : forall v r, u64_ok v = true -> readv (encv v ++ r) = Ok v r.

(* the entries read so far followed by those still to come have distinct keys, so every insert appends *)
Lemma dec_pairs_enc l : forall fuel acc r,
  pairs_wf l = true -> keys_nodup (acc ++ l) = true -> (length l <= fuel)%nat ->
  dec_pairs fuel readv (nlen l) acc (enc_pairs_body encv l ++ r) = Ok (acc ++ l) r.
Proof.
  induction l as [|[k v] l IH]; intros fuel acc r Hwf Hnd Hfuel.
  - destruct fuel; cbn; rewrite app_nil_r; reflexivity.
  - destruct fuel as [|fuel]; [cbn in Hfuel; lia|].
    cbn [dec_pairs]. rewrite nlen_nonempty by discriminate.
    cbn [pairs_wf forallb fst snd] in Hwf. split_andb.
    cbn [enc_pairs_body]. rewrite <- !app_assoc.
    rewrite dec_eid_body by assumption. cbn [bind].
    rewrite Hrt by assumption. cbn [bind].
    rewrite nlen_cons_pred, (map_set_fresh k v acc (keys_nodup_mid _ _ _ Hnd)).
    rewrite IH; [rewrite <- app_assoc; reflexivity|assumption|rewrite <- app_assoc; exact Hnd|cbn in Hfuel; clear - Hfuel; lia].
Qed.

(* a whole map, as the block readers call dec_pairs: fuel from the input, empty accumulator *)
Lemma dec_map_enc l r : pairs_wf l = true -> keys_nodup l = true ->
  dec_pairs (S (length (enc_pairs_body encv l ++ r))) readv (nlen l) [] (enc_pairs_body encv l ++ r) = Ok l r.
Proof.
  intros Hwf Hnd. apply (dec_pairs_enc l _ [] r Hwf Hnd).
  rewrite app_length. pose proof (enc_pairs_body_length encv l). lia.
Qed.
End Pairs.

Definition inner_of (v : ext) : list N :=
  match v with
  | XPayload d => d
  | XGeneric _ d => d
  | XPrev e => enc_eid_body e
  | XAge n => enc_uint n
  | XHop l c => enc_arr 2 ++ enc_uint l ++ enc_uint c
  | XSpray n => enc_uint n
  | XDtlsr id ts peers => enc_arr 3 ++ enc_eid_body id ++ enc_uint ts ++ enc_maplen (nlen peers) ++ enc_pairs_body enc_uint peers
  | XProphet preds => enc_maplen (nlen preds) ++ enc_pairs_body enc_f64 preds
  | XSig pk sg => enc_arr 2 ++ enc_bstr pk ++ enc_bstr sg
  end.

Lemma enc_ext_inner_ok v : ext_wf v = true -> enc_ext_inner v = Some (inner_of v).
Proof.
  destruct v; cbn [ext_wf enc_ext_inner inner_of]; intros H; try reflexivity; split_andb.
  - apply enc_eid_ok. assumption.
  - rewrite enc_eid_ok by assumption. cbn [obind]. rewrite enc_pairs_ok by assumption. reflexivity.
  - rewrite enc_pairs_ok by assumption. reflexivity.
Qed.

Lemma u64_of_small n : n <= 4294967295 -> u64_ok n = true.
Proof. unfold u64_ok. lia. Qed.

Lemma hop_u64 n : n <=? 255 = true -> u64_ok n = true.
Proof. unfold u64_ok. lia. Qed.

Lemma nlen_pairs_u64 encv (l : list (eid * N)) pre :
  len_ok (pre ++ enc_pairs_body encv l) = true -> u64_ok (nlen l) = true.
Proof.
  unfold len_ok, u64_ok, nlen, max_raw. rewrite app_length. pose proof (enc_pairs_body_length encv l). lia.
Qed.

Lemma len_ok_sub a b : len_ok (a ++ b) = true -> len_ok b = true.
Proof. unfold len_ok, nlen, max_raw. rewrite app_length. lia. Qed.

Theorem dec_ext_enc v r :
  ext_wf v = true -> len_ok (inner_of v) = true ->
  dec_ext (ext_type v) (enc_bstr (inner_of v) ++ r) = Ok v r.
Proof.
  intros Hwf Hlen. unfold dec_ext. rewrite read_bstr_enc by exact Hlen. cbn [bind].
  (* the readers of the data get exactly inner_of v, with nothing behind it *)
  destruct v; cbn [ext_type inner_of ext_wf] in *.
  - tcred. reflexivity.
  - tcred. rewrite <- (app_nil_r (enc_eid_body e)). rewrite dec_eid_body by assumption. reflexivity.
  - tcred. rewrite <- (app_nil_r (enc_uint n)). read_own. reflexivity.
  - split_andb. tcred. rewrite <- (app_nil_r (enc_uint count)), <- ?app_assoc.
    read_own. tcred.
    rewrite read_uint_enc by (apply hop_u64; assumption). cbn [bind].
    replace (255 <? limit) with false by lia.
    rewrite read_uint_enc by (apply hop_u64; assumption). cbn [bind].
    replace (255 <? count) with false by lia. reflexivity.
  - tcred. rewrite <- (app_nil_r (enc_uint n)). read_own. reflexivity.
  - split_andb. tcred. rewrite <- (app_nil_r (enc_pairs_body enc_uint peers)), <- ?app_assoc.
    read_own. tcred.
    rewrite dec_eid_body by assumption. cbn [bind]. read_own.
    assert (Hn : u64_ok (nlen peers) = true).
    { eapply (nlen_pairs_u64 enc_uint peers (enc_arr 3 ++ enc_eid_body id ++ enc_uint ts ++ enc_maplen (nlen peers))).
      rewrite <- ?app_assoc. exact Hlen. }
    rewrite read_maplen_enc by exact Hn. cbn [bind].
    rewrite (dec_map_enc read_uint enc_uint read_uint_enc) by assumption. reflexivity.
  - split_andb. tcred. rewrite <- (app_nil_r (enc_pairs_body enc_f64 preds)), <- ?app_assoc.
    rewrite read_maplen_enc by exact (nlen_pairs_u64 enc_f64 preds _ Hlen). cbn [bind].
    rewrite (dec_map_enc read_f64 enc_f64 read_f64_enc) by assumption. reflexivity.
  - split_andb. tcred. rewrite <- (app_nil_r (enc_bstr sg)), <- ?app_assoc.
    read_own. tcred. read_own. read_own. reflexivity.
  - (* not one of the eight known codes: every test of the dispatch fails *)
    apply andb_prop in Hwf as [Hwf _]. apply andb_prop in Hwf as [_ Hk]. apply negb_true_iff in Hk. unfold known_type in Hk.
    repeat (apply orb_false_iff in Hk; destruct Hk as [Hk ->]). rewrite Hk. reflexivity.
Qed.

Lemma consumed_app enc r : consumed (enc ++ r) r = enc.
Proof.
  unfold consumed. rewrite app_length. replace (length enc + length r - length r)%nat with (length enc) by lia.
  apply firstn_length_app.
Qed.

Definition crc_bytes (t : N) (body : list N) : list N :=
  match crc_len t with
  | Some len => be_encode len (crc_value t (body ++ enc_bstr (zeros len)))
  | None => []
  end.
Definition crc_field (t : N) (body : list N) : list N :=
  if t =? 0 then [] else enc_bstr (crc_bytes t body).

Lemma crc_type_cases t : crc_type_ok t = true -> t = 0 \/ t = 1 \/ t = 2.
Proof. unfold crc_type_ok. lia. Qed.

Lemma crc_type_u64 t : crc_type_ok t = true -> u64_ok t = true.
Proof. unfold crc_type_ok, u64_ok. lia. Qed.

Lemma add_crc_ok t body : crc_type_ok t = true -> add_crc t body = Some (body ++ crc_field t body).
Proof.
  intros H. destruct (crc_type_cases t H) as [-> | [-> | ->]]; cbn; rewrite ?app_nil_r; reflexivity.
Qed.

Lemma zeros_length k : length (zeros k) = k.
Proof. apply repeat_length. Qed.

Definition zero_field (len : nat) (whole : list N) : list N := firstn (length whole - len) whole ++ zeros len.

Lemma zero_field_app d v len : length v = len -> zero_field len (d ++ v) = d ++ zeros len.
Proof.
  intros H. unfold zero_field. rewrite <- H at 1. fold (consumed (d ++ v) v). rewrite consumed_app. reflexivity.
Qed.

Lemma check_crc_iff t bs r0 r' : check_crc t bs r0 = Ok tt r' <->
  exists cv len, read_bstr r0 = Ok cv r' /\ crc_len t = Some len /\ length cv = len
                 /\ cv = be_encode len (crc_value t (zero_field len (consumed bs r'))).
Proof.
  unfold check_crc, zero_field. split.
  - destruct (read_bstr r0) as [cv rest| |]; cbn [bind]; try discriminate.
    destruct (crc_len t) as [len|]; [|discriminate].
    destruct (Nat.eqb (length cv) len) eqn:Elen; cbn [negb]; [|discriminate]. apply Nat.eqb_eq in Elen.
    match goal with |- (if bytes_eqb ?x cv then _ else _) = _ -> _ => destruct (bytes_eqb x cv) eqn:Eb; [|discriminate] end.
    apply bytes_eqb_eq in Eb. intros H. inversion H; subst r'. exists cv, len. auto.
  - intros (cv & len & -> & -> & Hl & Hcv). cbn [bind]. rewrite Hl, Nat.eqb_refl, <- Hcv, bytes_eqb_refl. reflexivity.
Qed.

Lemma check_crc_ok t body r :
  t = 1 \/ t = 2 ->
  check_crc t ((body ++ crc_field t body) ++ r) (crc_field t body ++ r) = Ok tt r.
Proof.
  intros Ht. unfold crc_field.
  assert (Hlen : exists len, crc_len t = Some len /\ (len <= 4)%nat /\ (t =? 0) = false).
  { destruct Ht as [-> | ->]; [exists 2%nat|exists 4%nat]; repeat split; lia. }
  destruct Hlen as (len & Hcl & Hle & Hz). rewrite Hz.
  assert (Hcvl : length (crc_bytes t body) = len) by (unfold crc_bytes; rewrite Hcl; apply be_encode_length).
  apply check_crc_iff. exists (crc_bytes t body), len. rewrite consumed_app.
  split; [apply read_bstr_enc; unfold len_ok, nlen, max_raw; lia|]. split; [exact Hcl|]. split; [exact Hcvl|].
  (* with the value zeroed, the received block is the data the sender computed the CRC over:
     the value and the zeros have the same length, hence the same byte string head *)
  unfold enc_bstr, nlen. rewrite app_assoc, zero_field_app, Hcvl, <- app_assoc by exact Hcvl.
  unfold crc_bytes, enc_bstr, nlen. rewrite Hcl, zeros_length. reflexivity.
Qed.

(* the optional CRC field that ends a block, present iff the CRC type is not 0 *)
Lemma crc_field_check {A} (x : A) t body r (present : bool) :
  crc_type_ok t = true -> present = negb (t =? 0) ->
  (if present then bind (check_crc t (body ++ crc_field t body ++ r) (crc_field t body ++ r)) (fun _ r => Ok x r)
   else Ok x (crc_field t body ++ r)) = Ok x r.
Proof.
  intros Ht ->. destruct (crc_type_cases t Ht) as [-> | Hc]; [reflexivity|].
  replace (t =? 0) with false by lia. cbn [negb]. rewrite app_assoc, check_crc_ok by exact Hc. reflexivity.
Qed.

Definition cblock_body (c : cblock) : list N :=
  enc_arr (if c_crc c =? 0 then 5 else 6) ++ enc_uint (c_type c) ++ enc_uint (c_num c) ++ enc_uint (c_flags c)
  ++ enc_uint (c_crc c) ++ enc_bstr (inner_of (c_val c)).
Definition cblock_bytes (c : cblock) : list N := cblock_body c ++ crc_field (c_crc c) (cblock_body c).

Lemma cblock_wf_parts c : cblock_wf c = true ->
  u64_ok (c_num c) = true /\ u64_ok (c_flags c) = true /\ crc_type_ok (c_crc c) = true /\ ext_wf (c_val c) = true
  /\ len_ok (inner_of (c_val c)) = true.
Proof.
  unfold cblock_wf. intros H. split_andb. rewrite enc_ext_inner_ok in * by assumption. tauto.
Qed.

Lemma enc_cblock_ok c : cblock_wf c = true -> enc_cblock c = Some (cblock_bytes c).
Proof.
  intros H. apply cblock_wf_parts in H. destruct H as (_ & _ & Hc & He & _).
  unfold enc_cblock. rewrite enc_ext_inner_ok by exact He. cbn [obind].
  rewrite add_crc_ok by exact Hc. reflexivity.
Qed.

Lemma ext_type_u64 v : ext_wf v = true -> u64_ok (ext_type v) = true.
Proof. destruct v; cbn [ext_type ext_wf]; intros H; try reflexivity. split_andb. assumption. Qed.

(* the element count of a canonical block's array says whether a CRC field follows *)
Lemma cblock_count (z : bool) :
  let l := if z then 5 else 6 in
  u64_ok l = true /\ negb ((l =? 5) || (l =? 6)) = false /\ (l =? 6) = negb z.
Proof. destruct z; repeat split. Qed.

Theorem dec_cblock_enc c r : cblock_wf c = true -> dec_cblock (cblock_bytes c ++ r) = Ok c r.
Proof.
  intros H. apply cblock_wf_parts in H. destruct H as (Hn & Hf & Hc & He & Hl).
  pose proof (ext_type_u64 _ He) as Ht. pose proof (crc_type_u64 _ Hc) as Hcu.
  destruct (cblock_count (c_crc c =? 0)) as (Hcnt & Hrange & Hpres).
  unfold dec_cblock, cblock_bytes. unfold cblock_body at 1. unfold c_type in *. rewrite <- !app_assoc.
  read_own. rewrite Hrange. read_own. read_own. read_own. read_own.
  (* clear before lia: the note on ZifyBool in CborProofs.v *)
  replace (2 <? c_crc c) with false by (unfold crc_type_ok in Hc; clear - Hc; lia).
  rewrite Hpres, eqb_reflx. cbn [negb].
  rewrite dec_ext_enc by assumption. cbn [bind]. destruct c. apply crc_field_check; [exact Hc|reflexivity].
Qed.

Lemma cblock_bytes_first c : exists b rest, cblock_bytes c = b :: rest /\ b <> 255.
Proof.
  unfold cblock_bytes, cblock_body. destruct (c_crc c =? 0).
  - exists 133. eexists. split; [reflexivity|discriminate].
  - exists 134. eexists. split; [reflexivity|discriminate].
Qed.

Definition primary_body (p : primary) : list N :=
  enc_arr (8 + (if has (p_flags p) F_FRAG then 2 else 0) + (if p_crc p =? 0 then 0 else 1))
  ++ enc_uint 7 ++ enc_uint (p_flags p) ++ enc_uint (p_crc p)
  ++ enc_eid_body (p_dst p) ++ enc_eid_body (p_src p) ++ enc_eid_body (p_rpt p)
  ++ enc_arr 2 ++ enc_uint (p_time p) ++ enc_uint (p_seq p) ++ enc_uint (p_life p)
  ++ (if has (p_flags p) F_FRAG then enc_uint (p_off p) ++ enc_uint (p_total p) else []).
Definition primary_bytes (p : primary) : list N := primary_body p ++ crc_field (p_crc p) (primary_body p).

Lemma enc_primary_ok p : primary_wf p = true -> enc_primary p = Some (primary_bytes p).
Proof.
  unfold primary_wf. intros H. split_andb. unfold enc_primary.
  rewrite !enc_eid_ok by assumption. cbn [obind]. rewrite add_crc_ok by assumption.
  unfold primary_bytes, primary_body. rewrite <- !app_assoc. reflexivity.
Qed.

(* the element count of the primary block's array says which optional fields follow *)
Lemma primary_count (frag z : bool) :
  let l := 8 + (if frag then 2 else 0) + (if z then 0 else 1) in
  u64_ok l = true /\ negb ((8 <=? l) && (l <=? 11)) = false
  /\ (l =? 9) || (l =? 11) = negb z /\ (l =? 10) || (l =? 11) = frag.
Proof. destruct frag, z; repeat split. Qed.

Theorem dec_primary_enc p r : primary_wf p = true -> dec_primary (primary_bytes p ++ r) = Ok p r.
Proof.
  unfold primary_wf. intros H. split_andb.
  match goal with H : crc_type_ok _ = true |- _ => rename H into Hc end.
  match goal with H : has _ F_FRAG || _ = true |- _ => rename H into Hfr end.
  pose proof (crc_type_u64 _ Hc) as Hcu.
  destruct (primary_count (has (p_flags p) F_FRAG) (p_crc p =? 0)) as (Hcnt & Hrange & Hpres & Hfrag).
  unfold dec_primary, primary_bytes. unfold primary_body at 1. rewrite <- !app_assoc.
  read_own. rewrite Hrange. read_own. tcred. read_own. read_own.
  replace (2 <? p_crc p) with false by (unfold crc_type_ok in Hc; clear - Hc; lia).
  rewrite Hpres, Hfrag, eqb_reflx. cbn [negb].
  rewrite dec_eid_body by assumption. cbn [bind]. rewrite dec_eid_body by assumption. cbn [bind].
  rewrite dec_eid_body by assumption. cbn [bind]. read_own. tcred. read_own. read_own. read_own.
  destruct p as [fl crc dst src rpt tm sq life off tot]. cbn [p_flags p_crc p_dst p_src p_rpt p_time p_seq p_life p_off p_total] in *.
  destruct (has fl F_FRAG).
  - rewrite <- app_assoc. read_own. read_own. cbn [fst snd]. apply crc_field_check; [exact Hc|reflexivity].
  - (* not a fragment: offset and total length are absent, and 0 in a well-formed primary block *)
    cbn [orb] in Hfr. apply andb_prop in Hfr. destruct Hfr as [Ho Ht]. apply N.eqb_eq in Ho, Ht. subst off tot.
    cbn [app bind fst snd]. apply crc_field_check; [exact Hc|reflexivity].
Qed.

Fixpoint blocks_bytes (l : list cblock) : list N :=
  match l with [] => [] | c :: l => cblock_bytes c ++ blocks_bytes l end.

Lemma enc_blocks_ok l : forallb cblock_wf l = true -> enc_blocks l = Some (blocks_bytes l).
Proof.
  induction l as [|c l IH]; cbn [forallb enc_blocks blocks_bytes]; intros H; [reflexivity|].
  apply andb_prop in H. destruct H as [Hc Hl]. rewrite enc_cblock_ok by exact Hc. cbn [obind].
  rewrite IH by exact Hl. reflexivity.
Qed.

Lemma dec_blocks_enc l : forall fuel acc r,
  forallb cblock_wf l = true -> (length l < fuel)%nat ->
  dec_blocks fuel (blocks_bytes l ++ 255 :: r) acc = Some (acc ++ l, r).
Proof.
  induction l as [|c l IH]; intros fuel acc r Hwf Hfuel.
  - destruct fuel; [cbn in Hfuel; lia|]. cbn. rewrite app_nil_r. reflexivity.
  - destruct fuel as [|fuel]; [cbn in Hfuel; lia|].
    cbn [forallb] in Hwf. apply andb_prop in Hwf. destruct Hwf as [Hc Hl].
    cbn [blocks_bytes]. rewrite <- app_assoc.
    destruct (cblock_bytes_first c) as (b & rest & Heq & Hne).
    cbn [dec_blocks].
    assert (Hm : starts_with 255 (cblock_bytes c ++ blocks_bytes l ++ 255 :: r) = false).
    { rewrite Heq. cbn [app starts_with]. apply N.eqb_neq. exact Hne. }
    rewrite Hm. rewrite dec_cblock_enc by exact Hc.
    rewrite IH; [rewrite <- app_assoc; reflexivity|exact Hl|cbn in Hfuel; lia].
Qed.

Lemma blocks_bytes_length l : (length l <= length (blocks_bytes l))%nat.
Proof.
  induction l as [|c l IH]; cbn [blocks_bytes length]; [lia|].
  rewrite app_length. destruct (cblock_bytes_first c) as (b & rest & Heq & _). rewrite Heq. cbn [length]. lia.
Qed.

Definition bundle_bytes (b : bundle) : list N :=
  159 :: primary_bytes (b_pri b) ++ blocks_bytes (b_blocks b) ++ [255].

Lemma enc_bundle_ok b : bundle_wf b = true -> enc_bundle b = Some (bundle_bytes b).
Proof.
  unfold bundle_wf. intros H. apply andb_prop in H. destruct H as [Hp Hb].
  unfold enc_bundle. rewrite enc_primary_ok by exact Hp. cbn [obind].
  rewrite enc_blocks_ok by exact Hb. reflexivity.
Qed.

Theorem dec_bundle_enc now b r :
  bundle_wf b = true -> check_valid now b = true ->
  dec_bundle now (bundle_bytes b ++ r) = Some (b, r).
Proof.
  unfold bundle_wf. intros H Hv. apply andb_prop in H. destruct H as [Hp Hb].
  unfold dec_bundle, bundle_bytes. cbn [app starts_with tl]. rewrite N.eqb_refl. rewrite <- !app_assoc.
  rewrite dec_primary_enc by exact Hp. cbn [nobrk].
  cbn [app]. rewrite dec_blocks_enc; [|exact Hb|].
  - cbn [app]. destruct b as [p bl]. cbn [b_pri b_blocks] in *. rewrite Hv. reflexivity.
  - rewrite app_length. cbn [length]. pose proof (blocks_bytes_length (b_blocks b)). lia.
Qed.

Lemma dec_bundle_enc_nil now b :
  bundle_wf b = true -> check_valid now b = true -> dec_bundle now (bundle_bytes b) = Some (b, []).
Proof. intros Hwf Hv. rewrite <- (app_nil_r (bundle_bytes b)). exact (dec_bundle_enc now b [] Hwf Hv). Qed.
