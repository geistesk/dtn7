(* ConstsOkSpray.v - the integer literals and operator shapes of the spray-and-wait functions in
   /repo (regenerated into gen/Consts.v by tools/goconsts) are the ones Model/Spray.v is written
   against.  A changed threshold / divisor / increment in the Go source breaks a [reflexivity] here.
   Token codes (go/token): 12 ADD, 13 SUB, 15 QUO, 39 EQL, 40 LSS, 44 NEQ, 1043 unary NOT,
   2037 INC statement. *)
From Coq Require Import ZArith NArith List.
Import ListNotations.
From DTN Require Import Consts SpecSpray.
Open Scope Z_scope.

(* NotifyNewBundle: a foreign bundle gets one copy (vanilla); make(..., 0) twice.  Operators: one
   "err == nil" per branch - the PreviousNodeBlock is looked up, and its node recorded in [sent], in
   both branches of SprayAndWait (fix 214aa60) and in both branches of BinarySpray (fix 2edd1c0, plus
   the test for the BinarySprayBlock); nothing is subtracted for the recorded node. *)
Lemma spray_notify_ok :
  pkg_routing__SprayAndWait_NotifyNewBundle__lits = [0; 0; Z.of_N spray_foreign_copies]
  /\ pkg_routing__SprayAndWait_NotifyNewBundle__ops = [39; 39]
  /\ pkg_routing__BinarySpray_NotifyNewBundle__lits = [0; 0]
  /\ pkg_routing__BinarySpray_NotifyNewBundle__ops = [39; 39; 39].
Proof. repeat split; reflexivity. Qed.

(* SenderForBundle: "remainingCopies < 2" (twice in the vanilla loop), "- 1" per selected peer;
   binary: "< 2" once, "/ 2" and "-" *)
Lemma spray_sender_ok :
  pkg_routing__SprayAndWait_SenderForBundle__lits
    = [Z.of_N spray_wait_threshold; Z.of_N spray_wait_threshold; Z.of_N spray_unit_copy]
  /\ pkg_routing__SprayAndWait_SenderForBundle__ops = [1043; 40; 40; 39; 1043; 13]
  /\ pkg_routing__BinarySpray_SenderForBundle__lits
    = [Z.of_N spray_wait_threshold; Z.of_N spray_binary_divisor; 0; 0]
  /\ pkg_routing__BinarySpray_SenderForBundle__ops = [1043; 40; 39; 1043; 15; 13; 39].
Proof. repeat split; reflexivity. Qed.

(* ReportFailure (repaired): loop from 0, compare with sent[i], remove (i+1), give back "+ 1"
   (vanilla) / "+ block value" (binary) inside the match *)
Lemma spray_report_failure_ok :
  pkg_routing__SprayAndWait_ReportFailure__lits = [0; 1; Z.of_N spray_unit_copy]
  /\ pkg_routing__SprayAndWait_ReportFailure__ops = [1043; 40; 2037; 39; 12; 12]
  /\ pkg_routing__BinarySpray_ReportFailure__lits = [0; 1]
  /\ pkg_routing__BinarySpray_ReportFailure__ops = [44; 1043; 40; 2037; 39; 12; 12].
Proof. repeat split; reflexivity. Qed.

Lemma spray_gc_ok :
  pkg_routing__cleanupMetaData__lits = [] /\ pkg_routing__cleanupMetaData__ops = [1043].
Proof. split; reflexivity. Qed.

Lemma spray_block_type_ok : pkg_bpv7__ExtBlockTypeBinarySprayBlock = 192.
Proof. reflexivity. Qed.
