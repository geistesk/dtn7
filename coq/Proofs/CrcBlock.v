(* CrcBlock.v - C03: what acceptance of a block that declares a CRC says about the block's own bytes
   (crc_holds), for the decoders and for what the serialiser writes; the value field is determined by
   the covered bytes (crc_holds_at).  Properties/C03.v concludes that two accepted blocks with the same
   CRC type, boundaries and transmitted value cannot differ by a short non-zero burst in the covered
   bytes, and that two with the same covered bytes carry the same value. *)
From DTN Require Import Base ListFacts Cbor Crc CrcProofs Bundle BundleWf BundleProofs DecodeInv.
Open Scope N_scope.

Lemma xorbits_bytes_app_same d1 d2 z : length d1 = length d2 ->
  xorbits (bytes_bits (d1 ++ z)) (bytes_bits (d2 ++ z))
  = xorbits (bytes_bits d1) (bytes_bits d2) ++ repeat false (8 * length z).
Proof.
  intros H. rewrite !bytes_bits_app, xorbits_app, xorbits_same, bytes_bits_length by (rewrite !bytes_bits_length, H; reflexivity).
  reflexivity.
Qed.

(* what CRC type t computes: a register of 8*len bits with polynomial P, started in init, xo added at the end *)
Definition crc_spec (t : N) (len : nat) (P init xo : N) : Prop :=
  crc_len t = Some len /\ crc_params (8 * N.of_nat len) P
  /\ init < 2 ^ (8 * N.of_nat len) /\ xo < 2 ^ (8 * N.of_nat len)
  /\ forall bs, crc_value t bs = N.lxor (crc_update P init bs) xo.

Lemma crc_spec_16 : crc_spec 1 2 poly16 ones16 ones16.
Proof. split; [reflexivity|]. split; [exact poly16_ok|]. repeat split; reflexivity. Qed.
Lemma crc_spec_32 : crc_spec 2 4 poly32c ones32 ones32.
Proof. split; [reflexivity|]. split; [exact poly32_ok|]. repeat split; reflexivity. Qed.

Lemma crc_types t : t = 1 \/ t = 2 -> exists len P init xo, crc_spec t len P init xo.
Proof.
  intros [-> | ->]; [exists 2%nat, poly16, ones16, ones16; exact crc_spec_16|exists 4%nat, poly32c, ones32, ones32; exact crc_spec_32].
Qed.

Lemma crc_value_lt t len P init xo bs : crc_spec t len P init xo -> crc_value t bs < 256 ^ N.of_nat len.
Proof.
  intros (_ & (H1 & H2 & H3) & Hi & Hx & ->). rewrite pow256, crc_update_bits.
  apply lxor_lt; [|exact Hx]. apply (run_lt _ P H1 H2 H3), Hi.
Qed.

(* what acceptance with CRC type t means for the block's own bytes w = d ++ v *)
Definition crc_holds (t : N) (w : list N) : Prop :=
  exists len d v, crc_len t = Some len /\ w = d ++ v /\ length v = len
                  /\ v = be_encode len (crc_value t (d ++ zeros len)).

Lemma crc_holds_split t len w : crc_holds t w -> crc_len t = Some len ->
  exists d v, w = d ++ v /\ length v = len /\ v = be_encode len (crc_value t (d ++ zeros len)).
Proof.
  intros (len' & d & v & Hl' & Hw & Hv & He) Hl. assert (E : len' = len) by congruence. rewrite E in *.
  exists d, v. auto.
Qed.

Lemma crc_holds_at t len d v : crc_holds t (d ++ v) -> crc_len t = Some len -> length v = len ->
  v = be_encode len (crc_value t (d ++ zeros len)).
Proof.
  intros H Hl Hv. destruct (crc_holds_split t len _ H Hl) as (d' & v' & Hw & Hv' & He).
  apply app_inv_tail_length in Hw; [|congruence]. destruct Hw as [-> ->]. exact He.
Qed.

Lemma checked_crc_holds t w r :
  crc_checked t (w ++ r) r -> crc_holds t w.
Proof.
  intros (len & cv & pre & Hl & Hcv & Hcons & Heq & _). rewrite consumed_app in Hcons, Heq.
  rewrite Hcons, zero_field_app in Heq by exact Hcv. exists len, pre, cv. auto.
Qed.

Lemma accepted_crc_holds w r c :
  dec_cblock (w ++ r) = Ok c r -> c_crc c <> 0 -> crc_holds (c_crc c) w.
Proof. intros H Hnz. exact (checked_crc_holds _ w r (dec_cblock_crc _ c r H Hnz)). Qed.

Lemma accepted_primary_crc_holds w r p :
  dec_primary (w ++ r) = Ok p r -> p_crc p <> 0 -> crc_holds (p_crc p) w.
Proof. intros H Hnz. exact (checked_crc_holds _ w r (dec_primary_crc _ p r H Hnz)). Qed.

(* what the serialiser writes satisfies the same equation (C03, "the serialiser always writes that value").
   Not by unfolding cblock_bytes / crc_field: the decoder accepts the encoding (dec_cblock_enc, where
   BundleProofs.check_crc_ok has already matched add_crc against check_crc), so the equation is read off
   the acceptance. *)
Lemma encoded_cblock_crc_holds c : cblock_wf c = true -> c_crc c <> 0 -> crc_holds (c_crc c) (cblock_bytes c).
Proof.
  intros Hwf Hnz. apply (accepted_crc_holds (cblock_bytes c) [] c); [|exact Hnz]. apply dec_cblock_enc, Hwf.
Qed.
Lemma encoded_primary_crc_holds p : primary_wf p = true -> p_crc p <> 0 -> crc_holds (p_crc p) (primary_bytes p).
Proof.
  intros Hwf Hnz. apply (accepted_primary_crc_holds (primary_bytes p) [] p); [|exact Hnz]. apply dec_primary_enc, Hwf.
Qed.

(* the two side conditions of the burst theorems for the pattern [true] (one flipped bit) at CRC-16 width;
   pre and post play no part *)
Lemma single_bit_is_burst (pre post : nat) : 
  word [true] <> 0 /\ N.of_nat (length [true]) <= 8 * N.of_nat 2.
Proof. cbn. split; [discriminate|lia]. Qed.
