(* CborProofs.v - heads and strings round-trip, with exact consumption; what a successful read
   says about its input. *)
From DTN Require Import Base ListFacts Cbor.
From Coq Require Import ZifyN ZifyNat ZifyBool.
(* Both reach every file that loads this one, Imported or not: the hook lets lia reason about / and mod;
   ZifyBool lets it read =?, <?, && ... but makes it case-split on every boolean hypothesis whose head it
   does not know (bytes_ok bs = true): clear those before calling lia. *)
Ltac Zify.zify_post_hook ::= Z.div_mod_to_equations.
Open Scope N_scope.

Lemma be_decode_acc_app a x y : be_decode_acc a (x ++ y) = be_decode_acc (be_decode_acc a x) y.
Proof. revert a; induction x as [|b x IH]; intros a; cbn; [reflexivity|apply IH]. Qed.

Definition major_ok (m : N) : Prop :=
  m = mUInt \/ m = mBytes \/ m = mText \/ m = mArray \/ m = mMap \/ m = mSimple.

Lemma major_add m a : major_ok m -> a < 28 ->
  (m + a =? 159) = false /\ (m + a =? 255) = false /\ (m + a) mod 32 = a /\ m + a - a = m.
Proof. unfold major_ok, mUInt, mBytes, mText, mArray, mMap, mSimple. lia. Qed.

Lemma read_head_head m n r : major_ok m -> n < 18446744073709551616 ->
  read_head (head_bytes m n ++ r) = Ok (m, n) r.
Proof.
  intros Hm Hn. unfold head_bytes.
  destruct (n <? 24) eqn:E1.
  { cbn [app read_head]. destruct (major_add m n Hm) as (-> & -> & -> & ->); [lia|]. rewrite E1. reflexivity. }
  assert (Hgen : forall a w, 24 <= a < 28 -> Nat.pow 2 (N.to_nat (a - 24)) = w -> n < 256 ^ N.of_nat w ->
            read_head ((m + a) :: be_encode w n ++ r) = Ok (m, n) r).
  { intros a w Ha Hw Hlt. cbn [read_head]. destruct (major_add m a Hm) as (-> & -> & -> & ->); [lia|].
    replace (a <? 24) with false by lia. replace (a <? 28) with true by lia.
    rewrite Hw. rewrite <- (be_encode_length w n) at 1. rewrite take_exact_app.
    rewrite be_decode_encode by exact Hlt. reflexivity. }
  destruct (n <? 256) eqn:E2.
  { cbn [app].
    assert (He : be_encode 1 n = [n]).
    { cbn. rewrite N.div_1_r, N.mod_small by lia. reflexivity. }
    change ((m + 24) :: n :: r) with ((m + 24) :: [n] ++ r). rewrite <- He.
    apply Hgen; [lia|reflexivity|cbn; lia]. }
  destruct (n <? 65536) eqn:E3.
  { cbn [app]. apply Hgen; [lia|reflexivity|cbn; lia]. }
  destruct (n <? 4294967296) eqn:E4.
  { cbn [app]. apply Hgen; [lia|reflexivity|cbn; lia]. }
  cbn [app]. apply Hgen; [lia|reflexivity|cbn; lia].
Qed.

Lemma read_expect_head m n r : major_ok m -> n < 18446744073709551616 ->
  read_expect m (head_bytes m n ++ r) = Ok n r.
Proof.
  intros Hm Hn. unfold read_expect. rewrite read_head_head by assumption. cbn. rewrite N.eqb_refl. reflexivity.
Qed.

Lemma u64_ok_lt n : u64_ok n = true -> n < 18446744073709551616.
Proof. unfold u64_ok. lia. Qed.

Lemma read_uint_enc n r : u64_ok n = true -> read_uint (enc_uint n ++ r) = Ok n r.
Proof. intros H. apply read_expect_head; [left; reflexivity | apply u64_ok_lt, H]. Qed.
Lemma read_arr_enc n r : u64_ok n = true -> read_arr (enc_arr n ++ r) = Ok n r.
Proof. intros H. apply read_expect_head; [unfold major_ok; tauto | apply u64_ok_lt, H]. Qed.
Lemma read_maplen_enc n r : u64_ok n = true -> read_maplen (enc_maplen n ++ r) = Ok n r.
Proof. intros H. apply read_expect_head; [unfold major_ok; tauto | apply u64_ok_lt, H]. Qed.
Lemma read_f64_enc n r : u64_ok n = true -> read_f64 (enc_f64 n ++ r) = Ok n r.
Proof. intros H. apply read_expect_head; [unfold major_ok; tauto | apply u64_ok_lt, H]. Qed.

Lemma read_raw_app d r : len_ok d = true -> read_raw (nlen d) (d ++ r) = Ok d r.
Proof.
  unfold len_ok, read_raw, nlen. intros H.
  replace (max_raw <? N.of_nat (length d)) with false by lia.
  rewrite app_length. replace (N.of_nat (length d + length r) <? N.of_nat (length d)) with false by lia.
  rewrite Nat2N.id, firstn_length_app, skipn_length_app. reflexivity.
Qed.

Lemma len_ok_lt d : len_ok d = true -> nlen d < 18446744073709551616.
Proof. unfold len_ok, max_raw. intros H. lia. Qed.

Lemma read_str_enc m d r : major_ok m -> len_ok d = true ->
  bind (read_expect m ((head_bytes m (nlen d) ++ d) ++ r)) read_raw = Ok d r.
Proof.
  intros Hm H. rewrite <- app_assoc, read_expect_head by (exact Hm || apply len_ok_lt, H).
  apply read_raw_app, H.
Qed.

Lemma read_bstr_enc d r : len_ok d = true -> read_bstr (enc_bstr d ++ r) = Ok d r.
Proof. apply read_str_enc. unfold major_ok. tauto. Qed.
Lemma read_tstr_enc d r : len_ok d = true -> read_tstr (enc_tstr d ++ r) = Ok d r.
Proof. apply read_str_enc. unfold major_ok. tauto. Qed.

Lemma read_bool_enc b r : read_bool (enc_bool b ++ r) = Ok b r.
Proof. destruct b; reflexivity. Qed.

Lemma be_decode_acc_bound x : forall a, bytes_ok x = true ->
  be_decode_acc a x < (a + 1) * 256 ^ N.of_nat (length x).
Proof.
  induction x as [|b x IH]; intros a H; cbn [be_decode_acc length].
  - cbn. lia.
  - unfold bytes_ok in H. cbn [forallb] in H. apply andb_prop in H. destruct H as [Hb Hx].
    unfold byte_ok in Hb. specialize (IH (a * 256 + b) Hx).
    rewrite Nat2N.inj_succ, N.pow_succ_r'.
    eapply N.lt_le_trans; [exact IH|].
    replace ((a + 1) * (256 * 256 ^ N.of_nat (length x))) with (((a + 1) * 256) * 256 ^ N.of_nat (length x)) by lia.
    apply N.mul_le_mono_r. lia.
Qed.

Lemma bytes_ok_app a b : bytes_ok (a ++ b) = bytes_ok a && bytes_ok b.
Proof. unfold bytes_ok. apply forallb_app. Qed.
Lemma bytes_ok_app_l a b : bytes_ok (a ++ b) = true -> bytes_ok a = true.
Proof. rewrite bytes_ok_app. intros H. apply andb_prop in H. apply H. Qed.
Lemma bytes_ok_app_r a b : bytes_ok (a ++ b) = true -> bytes_ok b = true.
Proof. rewrite bytes_ok_app. intros H. apply andb_prop in H. apply H. Qed.
Lemma bytes_ok_firstn n bs : bytes_ok bs = true -> bytes_ok (firstn n bs) = true.
Proof. rewrite <- (firstn_skipn n bs) at 1. apply bytes_ok_app_l. Qed.
Lemma bytes_ok_skipn n bs : bytes_ok bs = true -> bytes_ok (skipn n bs) = true.
Proof. rewrite <- (firstn_skipn n bs) at 1. apply bytes_ok_app_r. Qed.

Lemma be_decode_lt x : bytes_ok x = true -> be_decode x < 256 ^ N.of_nat (length x).
Proof. intros H. pose proof (be_decode_acc_bound x 0 H) as Hb. unfold be_decode. lia. Qed.

Lemma read_head_inv bs m n r : read_head bs = Ok (m, n) r ->
  exists b x, bs = b :: x ++ r
    /\ (x = [] /\ n < 24 \/ (length x = 1 \/ length x = 2 \/ length x = 4 \/ length x = 8)%nat /\ n = be_decode x).
Proof.
  destruct bs as [|b bs]; [discriminate|]. cbn [read_head].
  destruct (b =? 159); [discriminate|]. destruct (b =? 255); [discriminate|].
  destruct (b mod 32 <? 24) eqn:E1.
  - intros H. inversion H; subst. exists b, []. split; [reflexivity|]. left. split; [reflexivity|lia].
  - destruct (b mod 32 <? 28) eqn:E2; [|discriminate]. unfold take_exact.
    set (l := Nat.pow 2 (N.to_nat (b mod 32 - 24))).
    destruct (Nat.leb l (length bs)) eqn:E3; [|discriminate]. intros H. inversion H; subst. apply Nat.leb_le in E3.
    exists b, (firstn l bs). split; [rewrite firstn_skipn; reflexivity|]. right. split; [|reflexivity].
    rewrite firstn_length, Nat.min_l by exact E3. subst l.
    assert (Hc : b mod 32 - 24 = 0 \/ b mod 32 - 24 = 1 \/ b mod 32 - 24 = 2 \/ b mod 32 - 24 = 3) by lia.
    destruct Hc as [-> | [-> | [-> | ->]]]; cbn; tauto.
Qed.

Lemma read_head_shrinks bs mn r : read_head bs = Ok mn r -> (length r < length bs)%nat.
Proof.
  destruct mn as [m n]. intros H. apply read_head_inv in H as (b & x & -> & _). cbn [length]. rewrite app_length. lia.
Qed.

Lemma read_head_ok bs m n r : bytes_ok bs = true -> read_head bs = Ok (m, n) r ->
  n < 18446744073709551616 /\ bytes_ok r = true.
Proof.
  intros Hb H. apply read_head_inv in H as (b & x & -> & Hx).
  apply (bytes_ok_app_r [b]) in Hb. pose proof (bytes_ok_app_l _ _ Hb) as Hbx. split; [|exact (bytes_ok_app_r _ _ Hb)].
  destruct Hx as [[_ Hn] | [Hl ->]]; [lia|]. apply be_decode_lt in Hbx.
  assert (Hle : 256 ^ N.of_nat (length x) <= 256 ^ 8) by (apply N.pow_le_mono_r; lia).
  change (256 ^ 8) with 18446744073709551616 in Hle. lia.
Qed.

Lemma read_expect_inv mj bs n r : read_expect mj bs = Ok n r -> read_head bs = Ok (mj, n) r.
Proof.
  unfold read_expect. destruct (read_head bs) as [[m' n'] r'| |]; cbn [bind fst snd]; try discriminate.
  destruct (m' =? mj) eqn:Em; [|discriminate]. apply N.eqb_eq in Em. intros H. inversion H; subst. reflexivity.
Qed.

Lemma read_expect_shrinks m bs n r : read_expect m bs = Ok n r -> (length r < length bs)%nat.
Proof. intros H. exact (read_head_shrinks _ _ _ (read_expect_inv _ _ _ _ H)). Qed.

Lemma read_expect_ok mj bs n r : bytes_ok bs = true -> read_expect mj bs = Ok n r ->
  n < 18446744073709551616 /\ bytes_ok r = true /\ (length r < length bs)%nat.
Proof.
  intros Hb H. destruct (read_head_ok _ _ _ _ Hb (read_expect_inv _ _ _ _ H)) as [Hn Hr].
  exact (conj Hn (conj Hr (read_expect_shrinks _ _ _ _ H))).
Qed.

Lemma read_raw_inv n bs d r : read_raw n bs = Ok d r -> bs = d ++ r /\ nlen d = n /\ len_ok d = true.
Proof.
  unfold read_raw, len_ok. destruct (max_raw <? n) eqn:E1; [discriminate|]. destruct (nlen bs <? n) eqn:E2; [discriminate|].
  intros H. inversion H; subst. split; [symmetry; apply firstn_skipn|]. unfold nlen in *. rewrite firstn_length. lia.
Qed.
