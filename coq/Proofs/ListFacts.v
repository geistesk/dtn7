(* Facts that are not about any one model, shared by the proof files.
   Several models carry their own copy of the insertion sort or of the replacement function; these are
   the functions defined here by conversion, so the lemmas apply to them as they stand. *)
From Coq Require Import Permutation Sorted.
From DTN Require Import Base.
Local Open Scope N_scope.

Lemma nlen_app {A} (a b : list A) : nlen (a ++ b) = nlen a + nlen b.
Proof. unfold nlen. rewrite app_length. lia. Qed.

Lemma nlen_cons {A} (x : A) l : nlen (x :: l) = 1 + nlen l.
Proof. unfold nlen. cbn [length]. lia. Qed.

Lemma nlen_cons_pred {A} (x : A) l : nlen (x :: l) - 1 = nlen l.
Proof. rewrite nlen_cons. lia. Qed.

Lemma nlen_map {A B} (f : A -> B) l : nlen (map f l) = nlen l.
Proof. unfold nlen. rewrite map_length. reflexivity. Qed.

Lemma nlen_skipn {A} (n : nat) (l : list A) : (n <= length l)%nat -> nlen (skipn n l) + N.of_nat n = nlen l.
Proof. intros H. unfold nlen. rewrite skipn_length. lia. Qed.

Lemma nlen_pos {A} (l : list A) : l <> [] -> 1 <= nlen l.
Proof. destruct l as [|x l]; intros H; [congruence|]. rewrite nlen_cons. lia. Qed.

Lemma nlen_pos_nonempty {A} (l : list A) : 0 < nlen l -> l <> [].
Proof. intros H ->. cbn in H. lia. Qed.

Lemma nlen_nonempty {A} (l : list A) : l <> [] -> (nlen l =? 0) = false.
Proof. intros H. apply N.eqb_neq. apply nlen_pos in H. lia. Qed.

Lemma firstn_length_app {A} (x r : list A) : firstn (length x) (x ++ r) = x.
Proof. rewrite firstn_app, Nat.sub_diag, firstn_all. apply app_nil_r. Qed.

Lemma skipn_length_app {A} (x r : list A) : skipn (length x) (x ++ r) = r.
Proof. rewrite skipn_app, Nat.sub_diag, skipn_all. reflexivity. Qed.

Lemma firstn_S_nth {A} (d : A) : forall l i, (i < length l)%nat -> firstn (S i) l = firstn i l ++ [nth i l d].
Proof.
  induction l as [|x l IH]; intros i Hi; [cbn in Hi; lia|].
  destruct i as [|i]; [reflexivity|]. cbn [length] in Hi.
  change (firstn (S (S i)) (x :: l)) with (x :: firstn (S i) l). rewrite (IH i) by lia. reflexivity.
Qed.

Lemma skipn_nth {A} (d : A) : forall l j, (j < length l)%nat -> skipn j l = nth j l d :: skipn (S j) l.
Proof.
  induction l as [|a l IH]; intros j H; cbn in H; [lia|].
  destruct j; [reflexivity|]. cbn [skipn nth]. apply IH. lia.
Qed.

Lemma firstn_app_skipn {A} a k (l : list A) : firstn a l ++ firstn k (skipn a l) = firstn (a + k) l.
Proof.
  revert l. induction a as [|a IH]; intros l; [reflexivity|].
  destruct l as [|x l]; cbn [firstn skipn Nat.add app]; [apply firstn_nil|]. rewrite IH. reflexivity.
Qed.

Lemma skipn_skipn_add {A} (y x : nat) (l : list A) : skipn x (skipn y l) = skipn (y + x) l.
Proof.
  revert l. induction y as [|y IH]; intros l; [reflexivity|].
  destruct l as [|a l]; [apply skipn_nil|apply IH].
Qed.

Lemma slice_slice {A} (p d : list A) o i sz : d = firstn (length d) (skipn o p) ->
  firstn sz (skipn i d) = firstn (Nat.min sz (length d - i)) (skipn (o + i) p).
Proof. intros Hd. rewrite Hd at 1. rewrite skipn_firstn_comm, skipn_skipn_add, firstn_firstn. reflexivity. Qed.

Lemma Forall_firstn {A} (P : A -> Prop) n l : Forall P l -> Forall P (firstn n l).
Proof. intros H. rewrite <- (firstn_skipn n l) in H. apply Forall_app in H. apply H. Qed.

Lemma nil_or_not {A} (l : list A) : l = [] \/ l <> [].
Proof. destruct l; [left; reflexivity|right; discriminate]. Qed.

Lemma skipn_shorter {A} k (l : list A) : (1 <= k)%nat -> l <> [] -> (length (skipn k l) < length l)%nat.
Proof. intros Hk Hl. rewrite skipn_length. destruct l; [congruence|]. cbn [length]. lia. Qed.

Lemma firstn_nonempty {A} k (l : list A) : (1 <= k)%nat -> l <> [] -> firstn k l <> [].
Proof. destruct k, l; intros Hk Hl; [lia|lia|congruence|discriminate]. Qed.

Lemma app_inv_tail_length {A} (a1 a2 b1 b2 : list A) :
  a1 ++ b1 = a2 ++ b2 -> length b1 = length b2 -> a1 = a2 /\ b1 = b2.
Proof.
  revert a2. induction a1 as [|x a1 IH]; intros [|y a2] H Hl; cbn in *.
  - tauto.
  - exfalso. subst b1. cbn in Hl. rewrite app_length in Hl. lia.
  - exfalso. subst b2. cbn in Hl. rewrite app_length in Hl. lia.
  - injection H as -> H. destruct (IH a2 H Hl) as [-> ->]. tauto.
Qed.

Lemma app_eq_elt {A} (l1 l2 pre post : list A) x :
  l1 ++ l2 = pre ++ x :: post ->
  (exists q, l1 = pre ++ x :: q /\ post = q ++ l2) \/ (exists q, pre = l1 ++ q /\ l2 = q ++ x :: post).
Proof.
  intros E. apply app_eq_app in E as [l [[-> E]|[-> E]]]; [destruct l as [|y l]; cbn [app] in E|].
  - right. exists []. now rewrite !app_nil_r.
  - injection E as <- ->. left. now exists l.
  - right. now exists l.
Qed.

Lemma two_splits {A} (a1 a3 b1 b3 : list A) (x y : A) :
  a1 ++ x :: a3 = b1 ++ y :: b3 -> x <> y ->
  (exists m, a1 ++ x :: a3 = a1 ++ x :: m ++ y :: b3) \/ (exists m, a1 ++ x :: a3 = b1 ++ y :: m ++ x :: a3).
Proof.
  revert a3 b1 b3 x y. induction a1 as [|a a1 IH]; intros a3 b1 b3 x y E Hne; destruct b1 as [|b b1]; cbn in *.
  - congruence.
  - left. exists b1. congruence.
  - right. exists a1. congruence.
  - injection E as <- E. destruct (IH _ _ _ _ _ E Hne) as [[m Em]|[m Em]]; [left|right]; exists m; now rewrite Em.
Qed.

Lemma last_in {A} (l : list A) d : l <> [] -> In (last l d) l.
Proof.
  induction l as [|x l IH]; intros H; [congruence|].
  destruct l as [|y l]; [left; reflexivity|]. right. apply IH. discriminate.
Qed.

Lemma map_fst_combine {A B} (l1 : list A) : forall l2 : list B, length l1 = length l2 -> map fst (combine l1 l2) = l1.
Proof.
  induction l1 as [|a l1 IH]; intros [|b l2] Hl; try discriminate Hl; [reflexivity|].
  cbn [combine map fst]. f_equal. apply IH. injection Hl as Hl. exact Hl.
Qed.

Lemma flat_map_single {A B} (f : A -> B) l : flat_map (fun x => [f x]) l = map f l.
Proof. induction l; cbn; congruence. Qed.

Lemma list_sum_map_le {A} (f g : A -> nat) l :
  (forall x, In x l -> (f x <= g x)%nat) -> (list_sum (map f l) <= list_sum (map g l))%nat.
Proof.
  induction l as [|x l IH]; intros H; [reflexivity|]. simpl.
  pose proof (H x (or_introl eq_refl)). pose proof (IH (fun y Hy => H y (or_intror Hy))). lia.
Qed.

Lemma nth_tab {A} (f : nat -> A) n v dflt : nth v (map f (seq 0 n)) dflt = if (v <? n)%nat then f v else dflt.
Proof.
  destruct (Nat.ltb_spec v n) as [Hv|Hv].
  - rewrite (nth_indep _ dflt (f 0%nat)) by (rewrite map_length, seq_length; exact Hv).
    rewrite map_nth, seq_nth by exact Hv. reflexivity.
  - apply nth_overflow. rewrite map_length, seq_length. exact Hv.
Qed.

Lemma nth_in_range {A B} (f : A -> B) (d : A) l c : f (nth c l d) <> f d -> (c < length l)%nat.
Proof. intros H. destruct (Nat.lt_ge_cases c (length l)); auto. rewrite nth_overflow in H by auto. congruence. Qed.

Lemma nth_snoc_forall {A} (d : A) (P : nat -> A -> Prop) x l :
  (forall j, P j (nth j l d)) -> P (length l) x -> forall j, P j (nth j (l ++ [x]) d).
Proof.
  intros H Hx j. destruct (Compare_dec.lt_eq_lt_dec j (length l)) as [[Hj| ->]|Hj].
  - rewrite app_nth1 by auto. apply H.
  - rewrite nth_middle. exact Hx.
  - specialize (H j). rewrite nth_overflow in * by (rewrite ?app_length; cbn; lia). exact H.
Qed.

Lemma first_set (l : list bool) : l = repeat false (length l) \/ exists k r, l = repeat false k ++ true :: r.
Proof.
  induction l as [|b l IH]; [left; reflexivity|]. destruct b; [right; exists 0%nat, l; reflexivity|].
  destruct IH as [IH|(k & r & IH)]; [left|right; exists (S k), r]; cbn [length repeat app]; f_equal; exact IH.
Qed.

Lemma nth_first_set k (r : list bool) : nth k (repeat false k ++ true :: r) false = true.
Proof. rewrite <- (repeat_length false k) at 1. apply nth_middle. Qed.

Lemma filter_snoc {A} (p : A -> bool) l x : filter p (l ++ [x]) = filter p l ++ (if p x then [x] else []).
Proof. rewrite filter_app. cbn [filter]. destruct (p x); reflexivity. Qed.

Lemma filter_idem {A} (p : A -> bool) l : filter p (filter p l) = filter p l.
Proof.
  induction l as [|x l IH]; cbn [filter]; [reflexivity|].
  destruct (p x) eqn:E; cbn [filter]; rewrite ?E, IH; reflexivity.
Qed.

Lemma filter_all_true {A} (p : A -> bool) l : (forall x, In x l -> p x = true) -> filter p l = l.
Proof.
  induction l as [|x l IH]; intros H; cbn [filter]; [reflexivity|].
  rewrite (H x (or_introl eq_refl)). f_equal. apply IH. intros y Hy. apply H. right. exact Hy.
Qed.

Lemma filter_all_false {A} (p : A -> bool) l : (forall x, In x l -> p x = false) -> filter p l = [].
Proof.
  induction l as [|x l IH]; intros H; cbn [filter]; [reflexivity|].
  rewrite (H x (or_introl eq_refl)). apply IH. intros y Hy. apply H. right. exact Hy.
Qed.

Lemma filter_nil_forall {A} (f : A -> bool) l : filter f l = [] -> forall x, In x l -> f x = false.
Proof.
  induction l as [|y t IH]; intros H x Hx; [destruct Hx|].
  cbn [filter] in H. destruct (f y) eqn:Hy; [discriminate|].
  destruct Hx as [->|Hx]; auto.
Qed.

Lemma filter_length_le {A} (p : A -> bool) l : (length (filter p l) <= length l)%nat.
Proof. induction l as [|x l IH]; cbn [filter length]; [lia|]. destruct (p x); cbn [length]; lia. Qed.

Lemma filter_map_comm {A B} (g : A -> B) (p : B -> bool) l : filter p (map g l) = map g (filter (fun x => p (g x)) l).
Proof. induction l as [|x l IH]; cbn; auto. destruct (p (g x)); cbn; rewrite IH; auto. Qed.

Lemma filter_insert {A} (f : A -> bool) a m b : f m = false -> filter f (a ++ m :: b) = filter f (a ++ b).
Proof. intros E. rewrite !filter_app. cbn. now rewrite E. Qed.

Lemma filter_filter_sub {A} (f g : A -> bool) l : (forall x, f x = true -> g x = true) -> filter f (filter g l) = filter f l.
Proof.
  intros H. induction l as [|x l IH]; [reflexivity|]. cbn. destruct (g x) eqn:G; cbn; rewrite IH; [reflexivity|].
  destruct (f x) eqn:F; [|reflexivity]. rewrite (H x F) in G. discriminate.
Qed.

Definition cnt {A} (p : A -> bool) (l : list A) : nat := length (filter p l).
Arguments cnt : simpl never.

Lemma cnt_app {A} (p : A -> bool) a b : cnt p (a ++ b) = (cnt p a + cnt p b)%nat.
Proof. unfold cnt. rewrite filter_app, app_length. reflexivity. Qed.
Lemma cnt_cons {A} (p : A -> bool) x l : cnt p (x :: l) = ((if p x then 1 else 0) + cnt p l)%nat.
Proof. unfold cnt. cbn [filter]. destruct (p x); reflexivity. Qed.
Lemma cnt_zero {A} (p : A -> bool) l : cnt p l = 0%nat <-> forall x, In x l -> p x = false.
Proof.
  induction l as [|x l IH]; [split; [intros _ y [] | reflexivity]|].
  rewrite cnt_cons. destruct (p x) eqn:E; cbn [Nat.add].
  - split; [discriminate | intros H; rewrite (H x (or_introl eq_refl)) in E; discriminate].
  - rewrite IH. split; [intros H y [<-|Hy]; auto | intros H y Hy; apply H; right; exact Hy].
Qed.

Lemma forallb_filter {A} (p q : A -> bool) l : forallb p l = true -> forallb p (filter q l) = true.
Proof. rewrite !forallb_forall. intros H x Hx. apply filter_In in Hx. apply H, Hx. Qed.

Lemma forallb_map {A B} (f : B -> bool) (g : A -> B) l : forallb f (map g l) = forallb (fun x => f (g x)) l.
Proof. induction l as [|x l IH]; cbn [map forallb]; [reflexivity|]. rewrite IH. reflexivity. Qed.

Lemma forallb_snoc {A} (P : A -> bool) l x : forallb P (l ++ [x]) = forallb P l && P x.
Proof. rewrite forallb_app. cbn [forallb]. rewrite andb_true_r. reflexivity. Qed.

Lemma forallb_weaken {A} (P Q : A -> bool) l : (forall x, P x = true -> Q x = true) ->
  forallb P l = true -> forallb Q l = true.
Proof. rewrite !forallb_forall. auto. Qed.

Lemma orb_forallb {A} (a : bool) (f : A -> bool) l : a || forallb f l = forallb (fun c => a || f c) l.
Proof. induction l as [|x l IH]; cbn [forallb]; [apply orb_true_r|]. rewrite <- IH. destruct a, (f x); reflexivity. Qed.

Lemma forallb_false_ex {A} (f : A -> bool) l : forallb f l = false -> exists x, In x l /\ f x = false.
Proof.
  induction l as [|a l IH]; cbn; [discriminate|]. intros F. apply andb_false_iff in F as [F|F].
  - exists a. auto.
  - destruct (IH F) as (x & Hi & Hx). exists x. auto.
Qed.

Lemma forallb_false_nth {A} (f : A -> bool) l d : forallb f l = false ->
  exists i, (i < length l)%nat /\ f (nth i l d) = false.
Proof.
  intros (x & Hi & Hx)%forallb_false_ex. destruct (In_nth l x d Hi) as (i & Hl & <-). exists i. auto.
Qed.

Lemma existsb_eqb_in x l : existsb (N.eqb x) l = true <-> In x l.
Proof.
  rewrite existsb_exists. split; [now intros (y & Hy & ->%N.eqb_eq)|].
  intros H. exists x. split; [exact H | apply N.eqb_refl].
Qed.

Lemma existsb_perm {A} (f : A -> bool) l1 l2 : Permutation l1 l2 -> existsb f l1 = existsb f l2.
Proof.
  intros HP. apply Bool.eq_true_iff_eq. rewrite !existsb_exists. now setoid_rewrite HP.
Qed.

Lemma existsb_key_false {A} (key : A -> N * N) o t ps :
  existsb (fun p => (fst (key p) =? o) && (snd (key p) =? t)) ps = false -> ~ In (o, t) (map key ps).
Proof.
  intros H Hin. apply in_map_iff in Hin. destruct Hin as [p [Hp Hin]].
  rewrite (proj2 (existsb_exists _ _)) in H; [discriminate|].
  exists p. split; auto. rewrite Hp. cbn. rewrite !N.eqb_refl. reflexivity.
Qed.

Lemma NoDup_snoc {A} (l : list A) x : NoDup l -> ~ In x l -> NoDup (l ++ [x]).
Proof. intros H M. apply (NoDup_Add (Add_app x l [])). rewrite app_nil_r. auto. Qed.

Lemma NoDup_app_intro {A} (l1 l2 : list A) :
  NoDup l1 -> NoDup l2 -> (forall x, In x l1 -> In x l2 -> False) -> NoDup (l1 ++ l2).
Proof.
  induction l1 as [|a t IH]; intros H1 H2 Hd; [exact H2|].
  apply NoDup_cons_iff in H1. destruct H1 as [Ha Ht]. cbn [app]. constructor.
  - intro Hi. apply in_app_or in Hi. destruct Hi as [Hi|Hi]; [contradiction|].
    apply (Hd a); [left; reflexivity | exact Hi].
  - apply IH; try assumption. intros x Hx Hx'. apply (Hd x); [right; exact Hx | exact Hx'].
Qed.

Lemma NoDup_app_inv {A} (l l' : list A) : NoDup (l ++ l') -> NoDup l' /\ forall x, In x l -> ~ In x l'.
Proof.
  induction l as [|a l IH]; cbn; intros H; [split; [exact H|intros x []]|].
  inversion H as [|? ? Ha Hl]; subst. destruct (IH Hl) as [N D]. split; [exact N|].
  intros x [<-|Hx]; [|auto]. intros X. apply Ha, in_or_app. now right.
Qed.

Lemma NoDup_map_filter {A B} (f : A -> B) (p : A -> bool) l : NoDup (map f l) -> NoDup (map f (filter p l)).
Proof.
  induction l as [|x l IH]; cbn [map filter]; [trivial|]. rewrite NoDup_cons_iff. intros [Hni ND].
  destruct (p x); cbn [map]; [|now apply IH]. constructor; [|now apply IH].
  intros (y & Hy & (Hin & _)%filter_In)%in_map_iff. apply Hni, in_map_iff. now exists y.
Qed.

Lemma NoDup_map_inj_in {A B} (f : A -> B) l x y :
  NoDup (map f l) -> In x l -> In y l -> f x = f y -> x = y.
Proof.
  induction l as [|a l IH]; cbn [map]; intros Hnd Hx Hy Hf; [destruct Hx|].
  inversion Hnd as [|? ? Hnotin Hnd']; subst.
  destruct Hx as [<-|Hx], Hy as [<-|Hy]; auto.
  - exfalso. apply Hnotin. rewrite Hf. apply in_map, Hy.
  - exfalso. apply Hnotin. rewrite <- Hf. apply in_map, Hx.
Qed.

Lemma take_exact_app {A} (x r : list A) : take_exact (length x) (x ++ r) = Some (x, r).
Proof.
  unfold take_exact. rewrite app_length.
  replace (Nat.leb (length x) (length x + length r)) with true by (symmetry; apply Nat.leb_le; lia).
  rewrite firstn_length_app, skipn_length_app. reflexivity.
Qed.

Lemma take_exact_short {A} n (l : list A) : (length l < n)%nat -> take_exact n l = None.
Proof. intros H. unfold take_exact. apply Nat.leb_gt in H. rewrite H. reflexivity. Qed.

Lemma take_exact_more {A} n (l q bs r : list A) :
  take_exact n l = Some (bs, r) -> take_exact n (l ++ q) = Some (bs, r ++ q).
Proof.
  unfold take_exact. destruct (Nat.leb_spec n (length l)) as [H|_]; [|discriminate]. intros [= <- <-].
  rewrite app_length, firstn_app, skipn_app. replace (n - length l)%nat with 0%nat by lia.
  rewrite (proj2 (Nat.leb_le _ _)) by lia. cbn [firstn skipn]. rewrite app_nil_r. reflexivity.
Qed.

Lemma be_encode_length w n : length (be_encode w n) = w.
Proof. induction w; cbn [be_encode length]; congruence. Qed.

Lemma be_decode_acc_encode w : forall a n,
  be_decode_acc a (be_encode w n) = a * 256 ^ N.of_nat w + n mod 256 ^ N.of_nat w.
Proof.
  induction w as [|w IH]; intros a n.
  - cbn [be_encode be_decode_acc]. change (N.of_nat 0) with 0. rewrite N.pow_0_r, N.mod_1_r. lia.
  - cbn [be_encode be_decode_acc]. rewrite IH, Nat2N.inj_succ, N.pow_succ_r'.
    assert (Hp : 256 ^ N.of_nat w <> 0) by (apply N.pow_nonzero; lia).
    rewrite (N.mul_comm 256 (256 ^ N.of_nat w)), (N.mod_mul_r n (256 ^ N.of_nat w) 256) by (assumption || lia).
    ring.
Qed.

Lemma be_decode_encode w n : n < 256 ^ N.of_nat w -> be_decode (be_encode w n) = n.
Proof. intros H. unfold be_decode. rewrite be_decode_acc_encode, N.mod_small by exact H. reflexivity. Qed.

Lemma be_encode_inj w a b : a < 256 ^ N.of_nat w -> b < 256 ^ N.of_nat w -> be_encode w a = be_encode w b -> a = b.
Proof. intros Ha Hb H. rewrite <- (be_decode_encode w a Ha), <- (be_decode_encode w b Hb), H. reflexivity. Qed.

Lemma pow256 k : 256 ^ N.of_nat k = 2 ^ (8 * N.of_nat k).
Proof. change 256 with (2 ^ 8). rewrite <- N.pow_mul_r. reflexivity. Qed.

Lemma list_eqb_spec {A} (f : A -> A -> bool) :
  (forall x y, f x y = true <-> x = y) -> forall l l', list_eqb f l l' = true <-> l = l'.
Proof.
  intros Hf. induction l as [|x l IH]; destruct l' as [|y l']; cbn [list_eqb]; try easy.
  rewrite andb_true_iff, Hf, IH. split; [intros [-> ->]; reflexivity | intros [= -> ->]; auto].
Qed.

Lemma option_eqb_spec {A} (f : A -> A -> bool) :
  (forall x y, f x y = true <-> x = y) -> forall a b, option_eqb f a b = true <-> a = b.
Proof.
  intros Hf [x|] [y|]; cbn [option_eqb]; try easy.
  rewrite Hf. split; [intros ->; reflexivity | intros [= ->]; reflexivity].
Qed.

Lemma bytes_eqb_refl l : bytes_eqb l l = true.
Proof. apply (list_eqb_spec N.eqb N.eqb_eq). reflexivity. Qed.

Lemma bytes_eqb_eq a b : bytes_eqb a b = true -> a = b.
Proof. apply (list_eqb_spec N.eqb N.eqb_eq). Qed.

(* rs_sort (Reasm.v) is [sort_by fr_off], fg_sort (Frag.v) is [sort_by (fun f => p_off (b_pri f))] and
   sort_by_off (Store.v) is [sort_by b_off], all by computation. *)
Section SortBy.
Context {A : Type} (key : A -> N).

Fixpoint ins_by (x : A) (l : list A) : list A :=
  match l with
  | [] => [x]
  | y :: l' => if key x <=? key y then x :: l else y :: ins_by x l'
  end.
Definition sort_by (l : list A) : list A := fold_right ins_by [] l.

Definition key_le (a b : A) : Prop := key a <= key b.
Definition key_lt (a b : A) : Prop := key a < key b.

Lemma ins_by_perm x l : Permutation (ins_by x l) (x :: l).
Proof.
  induction l as [|y l IH]; cbn [ins_by]; [apply Permutation_refl|].
  destruct (key x <=? key y); [apply Permutation_refl|].
  eapply perm_trans; [apply perm_skip, IH|apply perm_swap].
Qed.

Lemma sort_by_perm l : Permutation (sort_by l) l.
Proof.
  induction l as [|x l IH]; cbn; [constructor|].
  eapply perm_trans; [apply ins_by_perm|apply perm_skip, IH].
Qed.

Lemma sort_by_In x l : In x (sort_by l) <-> In x l.
Proof. split; apply Permutation_in; [|symmetry]; apply sort_by_perm. Qed.

Lemma ins_by_sorted x l : StronglySorted key_le l -> StronglySorted key_le (ins_by x l).
Proof.
  induction 1 as [|y l Hs IH Hall]; cbn [ins_by]; [repeat constructor|].
  destruct (N.leb_spec (key x) (key y)) as [Hle|Hgt].
  - constructor; [constructor; assumption|]. constructor; [exact Hle|].
    eapply Forall_impl; [|exact Hall]. unfold key_le. intros; lia.
  - constructor; [exact IH|].
    eapply Permutation_Forall; [apply Permutation_sym, ins_by_perm|].
    constructor; [unfold key_le; lia|exact Hall].
Qed.

Lemma sort_by_sorted l : StronglySorted key_le (sort_by l).
Proof. induction l as [|x l IH]; cbn; [constructor|apply ins_by_sorted, IH]. Qed.

(* a strictly sorted list is the only sorted arrangement of its elements: the result of a sort that is
   not stable is determined when the keys are distinct *)
Lemma sorted_perm_unique l : forall s,
  Permutation s l -> StronglySorted key_le s -> StronglySorted key_lt l -> s = l.
Proof.
  induction l as [|x l IH]; intros s HP Hs Hl.
  - apply Permutation_nil, Permutation_sym, HP.
  - destruct s as [|y s]; [apply Permutation_nil in HP; discriminate|].
    inversion Hs as [|? ? Hs' Hys]; subst. inversion Hl as [|? ? Hl' Hxl]; subst.
    rewrite Forall_forall in Hxl, Hys.
    assert (y = x) as ->.
    { (* otherwise y is in l and x in s, so key x < key y <= key x *)
      assert (Hy : In y (x :: l)) by (eapply Permutation_in; [exact HP|left; reflexivity]).
      assert (Hx : In x (y :: s)) by (eapply Permutation_in; [apply Permutation_sym, HP|left; reflexivity]).
      destruct Hy as [->|Hy]; [reflexivity|]. destruct Hx as [->|Hx]; [reflexivity|].
      specialize (Hxl y Hy). specialize (Hys x Hx). unfold key_le, key_lt in *. lia. }
    f_equal. apply IH; [eapply Permutation_cons_inv, HP|assumption|assumption].
Qed.
End SortBy.

(* mxc_upd (MuxConc.v), tcn_upd (TcpclConc.v), ag_list_upd (Agents.v) and upd (Prophet.v) are this
   function, by computation. *)
Fixpoint list_upd {A} (i : nat) (v : A) (l : list A) : list A :=
  match l, i with
  | [], _ => []
  | _ :: r, O => v :: r
  | x :: r, S i => x :: list_upd i v r
  end.

Lemma list_upd_length {A} i (v : A) l : length (list_upd i v l) = length l.
Proof. revert i; induction l; destruct i; cbn; auto. Qed.

Lemma nth_error_list_upd {A} (l : list A) i x j :
  nth_error (list_upd i x l) j
  = if Nat.eqb i j then match nth_error l i with Some _ => Some x | None => None end else nth_error l j.
Proof.
  revert i j. induction l as [|y l IH]; intros i j.
  - destruct i, j; cbn [list_upd nth_error Nat.eqb]; try reflexivity. destruct (Nat.eqb i j); reflexivity.
  - destruct i as [|i], j as [|j]; cbn [list_upd nth_error Nat.eqb]; try reflexivity. apply IH.
Qed.

Lemma list_upd_all {A} (Q : nat -> A -> Prop) l i x :
  (forall j y, nth_error l j = Some y -> Q j y) -> Q i x ->
  forall j y, nth_error (list_upd i x l) j = Some y -> Q j y.
Proof.
  intros Hl Hx j y. rewrite nth_error_list_upd. destruct (Nat.eqb_spec i j) as [->|]; [|apply Hl].
  destruct (nth_error l j); intros E; inversion E; subst. exact Hx.
Qed.

Lemma nth_list_upd {A} (d : A) i v l j : (i < length l)%nat ->
  nth j (list_upd i v l) d = if Nat.eqb j i then v else nth j l d.
Proof.
  revert i j; induction l; intros i j H; cbn in H; [lia|].
  destruct i; destruct j; cbn; auto. apply IHl; lia.
Qed.

Lemma nth_list_upd_obs {A B} (d : A) (f : A -> B) i v l j :
  (j = i -> f v = f (nth i l d)) -> f (nth j (list_upd i v l) d) = f (nth j l d).
Proof. revert i j; induction l as [|a l IH]; intros [|i] [|j] H; cbn; auto. Qed.

Lemma list_upd_forall {A} (d : A) (P : nat -> A -> Prop) i v l :
  (forall j, P j (nth j l d)) -> P i v -> forall j, P j (nth j (list_upd i v l) d).
Proof.
  revert P i; induction l as [|a l IH]; intros P [|i] H Hv [|j]; cbn;
    try apply (H 0%nat); try apply (H (S j)); auto.
  apply (IH (fun j => P (S j))); auto. intros k; apply (H (S k)).
Qed.

Lemma map_list_upd {A B} (f : A -> B) (d : A) i v l :
  f v = f (nth i l d) -> map f (list_upd i v l) = map f l.
Proof.
  revert i; induction l as [|a l IH]; intros i H; destruct i; cbn in *; auto.
  - rewrite H. reflexivity.
  - rewrite IH; auto.
Qed.

Definition nrange (k : nat) : list N := map N.of_nat (seq 0 k).

Lemma forall_lt_sweep (k : nat) (P : N -> bool) :
  forallb P (nrange k) = true -> forall n, n < N.of_nat k -> P n = true.
Proof.
  intros H n Hn. rewrite forallb_forall in H. apply H, in_map_iff.
  exists (N.to_nat n). split; [lia|]. apply in_seq. lia.
Qed.
