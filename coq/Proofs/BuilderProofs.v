(* BuilderProofs.v - every bundle returned by any Build call of any call sequence of the builder
   model passes CheckValid; with in-range arguments it is range-well-formed, hence serialisable and
   accepted by the parser from its own serialisation (C02, second sentence, builder clause). *)
From DTN Require Import Base ListFacts Cbor CrcProofs Eid Bundle BundleWf BundleProofs ValidProofs DecodeWf Builder.
Open Scope N_scope.

Lemma bld_step_err now s o : bld_err s = true -> bld_step now s o = (s, None).
Proof. intros He. destruct o; cbn [bld_step]; unfold bld_build; rewrite He; reflexivity. Qed.

Lemma bld_step_result now s o s' b : bld_step now s o = (s', Some b) -> o = BoBuild.
Proof.
  destruct o as [[e|]|[e|]|[e|]|t|[l|]|f|c|fl v|c|lim fl|[ms|] fl|[e|] fl|d fl|d|]; cbn [bld_step]; try reflexivity;
    destruct (bld_err s); discriminate.
Qed.

Lemma bld_build_some now s s' b : bld_build now s = (s', Some b) ->
  let b0 := {| b_pri := bld_pri s'; b_blocks := bld_sort (bld_can s') |} in
  check_valid now b0 = true /\ b = bld_apply_crc (bld_crc s') b0.
Proof.
  unfold bld_build. destruct (bld_err s); [discriminate|]. cbv zeta.
  set (s1 := if negb (bld_rpt_set s) && bld_src_set s then _ else s). clearbody s1.
  destruct (negb (bld_src_set s1 && bld_dst_set s1)); [discriminate|].
  destruct (check_valid now _) eqn:Hv; [|discriminate]. intros H. injection H as <- <-. split; [exact Hv|reflexivity].
Qed.

Lemma bld_find_type_crc t ty l :
  find_type ty (map (bld_block_crc t) l) = option_map (bld_block_crc t) (find_type ty l).
Proof.
  unfold find_type. induction l as [|c l IH]; cbn [map find option_map]; [reflexivity|].
  change (c_type (bld_block_crc t c)) with (c_type c). destruct (c_type c =? ty); [reflexivity|exact IH].
Qed.

Lemma bld_apply_crc_valid now t b : check_valid now (bld_apply_crc t b) = check_valid now b.
Proof.
  destruct b as [p bl]. unfold check_valid, lifetime_exceeded, bld_apply_crc. cbn [b_pri b_blocks].
  rewrite !map_map, !forallb_map, bld_find_type_crc.
  (* what is left of SetCRCType are projections other than c_crc / p_crc of the rebuilt records *)
  destruct bl; destruct (find_type 7 _) as [[n f cr v]|]; reflexivity.
Qed.

Theorem bld_build_valid now s s' b : bld_build now s = (s', Some b) -> check_valid now b = true.
Proof. intros H. destruct (bld_build_some now s s' b H) as [Hv ->]. rewrite bld_apply_crc_valid. exact Hv. Qed.

Definition bld_res_valid (now : N) (r : option bundle) : Prop :=
  match r with Some b => check_valid now b = true | None => True end.

Theorem bld_run_valid now ops : forall s, Forall (bld_res_valid now) (bld_run now s ops).
Proof.
  induction ops as [|o ops IH]; intros s; cbn [bld_run]; [constructor|].
  destruct (bld_step now s o) as [s' res] eqn:Hs.
  (* only Build adds a result *)
  destruct o; try apply IH.
  constructor; [|apply IH].
  destruct res as [b|]; [|exact I]. exact (bld_build_valid now s s' b Hs).
Qed.

Definition bld_cand (fl : N) (v : ext) : cblock := {| c_num := 0; c_flags := fl; c_crc := 0; c_val := v |}.

Definition bld_op_wf (o : bld_op) : bool :=
  match o with
  | BoSource (Some e) | BoDest (Some e) | BoReportTo (Some e) => eid_wf e
  | BoTime t => u64_ok t
  | BoLifetime (Some l) => u64_ok l
  | BoFlags f => u64_ok f
  | BoCrc c => c <=? 2
  | BoCanon fl v => cblock_wf (bld_cand fl v)
  | BoCanonBlock c => cblock_wf (bld_cand (c_flags c) (c_val c))
  | BoAge (Some ms) _ => u64_ok ms
  | BoPrev (Some e) _ => cblock_wf (bld_cand BF_REPLICATE (XPrev e))
  | BoPayload d fl => cblock_wf (bld_cand fl (XPayload d))
  | BoAdmin d => cblock_wf (bld_cand 0 (XPayload d))
  | _ => true
  end.

(* a block is fine up to its number and CRC type *)
Definition bld_blk_ok (c : cblock) : bool := cblock_wf (bld_cand (c_flags c) (c_val c)).

Lemma bld_cblock_wf_of c t : bld_blk_ok c = true -> u64_ok (c_num c) = true -> t <=? 2 = true ->
  cblock_wf (bld_block_crc t c) = true.
Proof.
  unfold bld_blk_ok, cblock_wf, bld_cand, bld_block_crc, crc_type_ok. cbn [c_num c_flags c_crc c_val].
  intros H Hn Ht. split_andb. repeat (apply andb_true_intro; split); assumption.
Qed.

(* the blocks the builder makes itself have a short inner encoding: at most three CBOR heads of at most
   9 bytes each (hop count: array head and two numbers), hence the 27; any bound up to max_raw would do *)
Lemma bld_short_ok fl v inner : u64_ok fl = true -> ext_wf v = true ->
  enc_ext_inner v = Some inner -> (length inner <= 27)%nat -> bld_blk_ok (bld_cand fl v) = true.
Proof.
  intros Hf Hv Hi Hl. unfold bld_blk_ok, cblock_wf, bld_cand. cbn [c_num c_flags c_crc c_val]. rewrite Hf, Hv, Hi.
  apply N.leb_le. unfold nlen, max_raw. lia.
Qed.

(* HopCountBlock(limit): fine for every limit (uint8 conversion) *)
Lemma bld_hop_ok limit : bld_blk_ok (bld_cand BF_REPLICATE (XHop (limit mod 256) 0)) = true.
Proof.
  eapply bld_short_ok; [reflexivity| |reflexivity|].
  - cbn [ext_wf]. rewrite andb_true_r. apply N.leb_le. pose proof (N.mod_lt limit 256). lia.
  - rewrite !app_length. pose proof (head_bytes_length_le mArray 2). pose proof (head_bytes_length_le mUInt (limit mod 256)).
    pose proof (head_bytes_length_le mUInt 0). unfold enc_arr, enc_uint. lia.
Qed.

Lemma bld_age_ok ms : u64_ok ms = true -> bld_blk_ok (bld_cand BF_REPLICATE (XAge ms)) = true.
Proof.
  intros H. eapply bld_short_ok; [reflexivity|exact H|reflexivity|].
  pose proof (head_bytes_length_le mUInt ms). unfold enc_uint. lia.
Qed.

Lemma u64_lor a b : u64_ok a = true -> u64_ok b = true -> u64_ok (N.lor a b) = true.
Proof.
  unfold u64_ok. rewrite !N.ltb_lt. change 18446744073709551616 with (2 ^ 64). intros Ha Hb.
  apply lt_pow2_bits. intros j Hj. rewrite N.lor_spec, (bits_lt_pow2 a 64), (bits_lt_pow2 b 64) by assumption. reflexivity.
Qed.

Lemma u64_ldiff a b : u64_ok a = true -> u64_ok (N.ldiff a b) = true.
Proof.
  unfold u64_ok. rewrite !N.ltb_lt. change 18446744073709551616 with (2 ^ 64). intros Ha.
  apply lt_pow2_bits. intros j Hj. rewrite N.ldiff_spec, (bits_lt_pow2 a 64) by assumption. reflexivity.
Qed.

(* the invariant: what is said of the primary block, of the blocks and their numbers (k more
   can be numbered below 2^64), of the CRC type; nothing about err and the three "set" flags *)
Definition bld_pri_ok (p : primary) : Prop :=
  u64_ok (p_flags p) = true /\ u64_ok (p_time p) = true /\ p_seq p = 0 /\ u64_ok (p_life p) = true
  /\ p_off p = 0 /\ p_total p = 0
  /\ eid_wf (p_src p) = true /\ eid_wf (p_dst p) = true /\ eid_wf (p_rpt p) = true.

Definition bld_can_ok (k ctr : N) (l : list cblock) : Prop :=
  forallb bld_blk_ok l = true /\ forallb (fun c => c_num c <? ctr) l = true
  /\ ctr + k < 18446744073709551616 /\ 2 <= ctr.

Definition bld_inv (k : N) (s : bld_state) : Prop :=
  bld_pri_ok (bld_pri s) /\ bld_can_ok k (bld_ctr s) (bld_can s) /\ bld_crc s <=? 2 = true.

Lemma bld_inv_init k : 2 + k < 18446744073709551616 -> bld_inv k bld_init.
Proof. intros H. unfold bld_inv, bld_can_ok, bld_pri_ok. repeat apply conj; try reflexivity. exact H. Qed.

Lemma bld_inv_mono k s : bld_inv (k + 1) s -> bld_inv k s.
Proof.
  intros (Hp & (Hb & Hn & Hc & Hc2) & Hcrc). split; [exact Hp|]. split; [|exact Hcrc].
  repeat apply conj; try assumption. lia.
Qed.

Lemma bld_pri_ok_src p e : bld_pri_ok p -> eid_wf e = true -> bld_pri_ok (pri_with_src p e).
Proof. unfold bld_pri_ok. cbn. tauto. Qed.
Lemma bld_pri_ok_dst p e : bld_pri_ok p -> eid_wf e = true -> bld_pri_ok (pri_with_dst p e).
Proof. unfold bld_pri_ok. cbn. tauto. Qed.
Lemma bld_pri_ok_rpt p e : bld_pri_ok p -> eid_wf e = true -> bld_pri_ok (pri_with_rpt p e).
Proof. unfold bld_pri_ok. cbn. tauto. Qed.
Lemma bld_pri_ok_time p n : bld_pri_ok p -> u64_ok n = true -> bld_pri_ok (pri_with_time p n).
Proof. unfold bld_pri_ok. cbn. tauto. Qed.
Lemma bld_pri_ok_life p n : bld_pri_ok p -> u64_ok n = true -> bld_pri_ok (pri_with_life p n).
Proof. unfold bld_pri_ok. cbn. tauto. Qed.
Lemma bld_pri_ok_flags p n : bld_pri_ok p -> u64_ok n = true -> bld_pri_ok (pri_with_flags p n).
Proof. unfold bld_pri_ok. cbn. tauto. Qed.

Lemma bld_add_inv k s fl crc v : bld_inv (k + 1) s -> bld_blk_ok (bld_cand fl v) = true ->
  bld_inv k (bld_add s fl crc v).
Proof.
  intros (Hp & (Hb & Hn & Hc & Hc2) & Hcrc) Hok.
  assert (Hn1 : forallb (fun c => c_num c <? bld_ctr s + 1) (bld_can s) = true).
  { revert Hn. apply forallb_weaken. intros x Hx. apply N.ltb_lt. apply N.ltb_lt in Hx. lia. }
  assert (H1 : 1 <? bld_ctr s = true) by (apply N.ltb_lt; lia).
  assert (H2 : bld_ctr s <? bld_ctr s + 1 = true) by (apply N.ltb_lt; lia).
  unfold bld_add. destruct (ext_type v =? T_PAYLOAD); (split; [exact Hp|split; [|exact Hcrc]]);
    cbn [bld_can bld_ctr]; unfold bld_can_ok; rewrite !forallb_snoc, Hb; cbn [c_num andb].
  - rewrite Hn, H1. repeat apply conj; [exact Hok|reflexivity|lia|exact Hc2].
  - rewrite Hn1, H2. repeat apply conj; [exact Hok|reflexivity|lia|lia].
Qed.

Lemma bld_build_inv now k s : bld_inv k s -> bld_inv k (fst (bld_build now s)).
Proof.
  intros Hk. unfold bld_build. destruct (bld_err s); [exact Hk|]. cbv zeta.
  set (s1 := if negb (bld_rpt_set s) && bld_src_set s then _ else s).
  assert (H1 : bld_inv k s1).
  { subst s1. destruct (negb (bld_rpt_set s) && bld_src_set s); [|exact Hk]. destruct Hk as (Hp & Hr).
    (* report-to := source *)
    split; [|exact Hr]. apply (bld_pri_ok_rpt _ _ Hp), Hp. }
  clearbody s1. destruct (negb (bld_src_set s1 && bld_dst_set s1)); [exact H1|]. destruct (check_valid now _); exact H1.
Qed.

Lemma bld_step_inv now k s o : bld_inv (k + 1) s -> bld_op_wf o = true -> bld_inv k (fst (bld_step now s o)).
Proof.
  intros Hi Hw. pose proof (bld_inv_mono k s Hi) as Hk.
  destruct (bld_err s) eqn:He; [rewrite bld_step_err by exact He; exact Hk|].
  pose proof Hk as (Hp & Hr).
  (* a failed parse of an argument only sets err: [exact Hk] *)
  destruct o as [[e|]|[e|]|[e|]|t|[l|]|f|c|fl v|c|lim fl|[ms|] fl|[e|] fl|d fl|d|];
    cbn [bld_step bld_op_wf] in Hw |- *; rewrite ?He; cbn [fst]; try exact Hk.
  - split; [exact (bld_pri_ok_src _ e Hp Hw)|exact Hr].
  - split; [exact (bld_pri_ok_dst _ e Hp Hw)|exact Hr].
  - split; [exact (bld_pri_ok_rpt _ e Hp Hw)|exact Hr].
  - split; [exact (bld_pri_ok_time _ t Hp Hw)|exact Hr].
  - split; [exact (bld_pri_ok_life _ l Hp Hw)|exact Hr].
  - split; [exact (bld_pri_ok_flags _ f Hp Hw)|exact Hr].
  - split; [exact Hp|]. split; [exact (proj1 Hr)|exact Hw].
  - apply bld_add_inv; [exact Hi|exact Hw].
  - apply bld_add_inv; [exact Hi|exact Hw].
  - apply bld_add_inv; [exact Hi|apply bld_hop_ok].
  - apply bld_add_inv; [exact Hi|apply bld_age_ok, Hw].
  - apply bld_add_inv; [exact Hi|exact Hw].
  - apply bld_add_inv; [exact Hi|exact Hw].
  - (* AdministrativeRecord: new flag word, then a payload block *)
    apply bld_add_inv; [|exact Hw]. destruct Hi as (Hp' & Hr'). split; [|exact Hr'].
    apply (bld_pri_ok_flags _ _ Hp'), u64_ldiff, u64_lor; [apply Hp'|reflexivity].
  - apply bld_build_inv, Hk.
Qed.

Lemma bld_insert_forallb (P : cblock -> bool) c l : forallb P (bld_insert c l) = P c && forallb P l.
Proof.
  induction l as [|x l IH]; cbn [bld_insert forallb]; [reflexivity|].
  destruct (bld_before x c); cbn [forallb]; [|reflexivity].
  rewrite IH. destruct (P x), (P c); reflexivity.
Qed.
Lemma bld_sort_forallb (P : cblock -> bool) l : forallb P (bld_sort l) = forallb P l.
Proof. induction l as [|c l IH]; cbn [bld_sort forallb]; [reflexivity|]. rewrite bld_insert_forallb, IH. reflexivity. Qed.

Lemma bld_build_wf now k s s' b : bld_inv k s' -> bld_build now s = (s', Some b) -> bundle_wf b = true.
Proof.
  intros ((Hf & Ht & Hsq & Hl & Ho & Htot & Hsrc & Hdst & Hrpt) & (Hb & Hn & Hc & _) & Hcrc) H.
  destruct (bld_build_some now s s' b H) as [Hv ->].
  unfold bundle_wf, bld_apply_crc. cbn [b_pri b_blocks]. apply andb_true_intro. split.
  - (* primary block: the ranges from the invariant, the validity of the endpoints from CheckValid *)
    destruct (check_valid_parts _ _ Hv) as (Hpv & _). unfold primary_valid in Hpv. cbn [b_pri] in Hpv.
    apply andb_prop in Hpv as [Hpv _]. apply andb_prop in Hpv as [Hpv Vr]. apply andb_prop in Hpv as [Hpv Vs].
    apply andb_prop in Hpv as [_ Vd].
    unfold primary_wf, eid_ok, crc_type_ok.
    cbn [pri_with_crc p_flags p_crc p_time p_seq p_life p_off p_total p_src p_dst p_rpt].
    rewrite Hf, Ht, Hl, Hsq, Ho, Htot, Hsrc, Hdst, Hrpt, Vd, Vs, Vr.
    replace ((if bld_crc s' =? 0 then 2 else bld_crc s') <=? 2) with true
      by (destruct (bld_crc s' =? 0); [reflexivity|symmetry; exact Hcrc]).
    cbn. apply orb_true_r.
  - (* blocks: fine up to number and CRC type, numbered below the counter *)
    rewrite forallb_map. rewrite <- bld_sort_forallb in Hb. rewrite <- bld_sort_forallb in Hn.
    rewrite forallb_forall in *. intros c Hin. apply bld_cblock_wf_of; [exact (Hb c Hin)| |exact Hcrc].
    specialize (Hn c Hin). apply N.ltb_lt in Hn. apply N.ltb_lt. lia.
Qed.

Definition bld_res_accepted (now : N) (r : option bundle) : Prop :=
  match r with
  | Some b => check_valid now b = true /\ bundle_wf b = true
              /\ exists bs, enc_bundle b = Some bs /\ dec_bundle now bs = Some (b, [])
  | None => True
  end.

Theorem bld_run_accepted now ops : forall s,
  forallb bld_op_wf ops = true -> bld_inv (nlen ops) s ->
  Forall (bld_res_accepted now) (bld_run now s ops).
Proof.
  induction ops as [|o ops IH]; intros s Hw Hi; cbn [bld_run]; [constructor|].
  cbn [forallb] in Hw. apply andb_prop in Hw. destruct Hw as [Hwo Hws].
  assert (Hi1 : bld_inv (nlen ops + 1) s).
  { replace (nlen ops + 1) with (nlen (o :: ops)); [exact Hi|]. unfold nlen. cbn [length]. lia. }
  pose proof (bld_step_inv now (nlen ops) s o Hi1 Hwo) as Hnext.
  destruct (bld_step now s o) as [s' res] eqn:Hs. cbn [fst] in Hnext.
  destruct o; try (apply IH; assumption).
  constructor; [|apply IH; assumption].
  destruct res as [b|]; [|exact I].
  cbn [bld_step] in Hs.
  pose proof (bld_build_valid now s s' b Hs) as Hv. pose proof (bld_build_wf now _ s s' b Hnext Hs) as Hwf.
  split; [exact Hv|]. split; [exact Hwf|].
  exists (bundle_bytes b). split; [exact (enc_bundle_ok b Hwf)|exact (dec_bundle_enc_nil now b Hwf Hv)].
Qed.
