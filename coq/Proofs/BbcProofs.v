(* BbcProofs.v - proofs about the BBC model: header packing, fragment trains, reception, and what the
   connector does with one fragment and with an intact train. *)
From DTN Require Import Base ListFacts Bbc.
Open Scope N_scope.

(* NewFragment packs five bits of sequence number and the three marks into the identifier octet with N.lor and
   N.shiftl.  Nothing about these bit operations is proved: all 32 x 8 octets are evaluated here, and
   forall_lt_sweep turns the table into the statement for every s < 32 (hdr_fields). *)
Lemma hdr_sweep st en fl :
  forallb (fun s => let f := new_fragment 0 s st en fl [] in
             (f_seq f =? s) && Bool.eqb (f_start f) st && Bool.eqb (f_end f) en && Bool.eqb (f_fail f) fl
             && (f_ident f <? 256)) (nrange 32) = true.
Proof. destruct st, en, fl; vm_compute; reflexivity. Qed.

Lemma new_fragment_mod tid s st en fl p :
  new_fragment tid s st en fl p = new_fragment tid (s mod 32) st en fl p.
Proof.
  unfold new_fragment. change 31 with (N.ones 5). rewrite !N.land_ones, N.mod_mod by discriminate. reflexivity.
Qed.

Lemma hdr_fields tid s st en fl p :
  let f := new_fragment tid s st en fl p in
  f_seq f = s mod 32 /\ f_start f = st /\ f_end f = en /\ f_fail f = fl /\ f_ident f < 256
  /\ f_tid f = tid /\ f_payload f = p.
Proof.
  cbv zeta. rewrite new_fragment_mod.
  assert (H := forall_lt_sweep 32 _ (hdr_sweep st en fl) (s mod 32) (N.mod_lt s 32 ltac:(lia))).
  cbv beta zeta in H.
  rewrite !andb_true_iff, N.eqb_eq, !Bool.eqb_true_iff, N.ltb_lt in H.
  (* the swept fields depend on the identifier octet only, which ignores tid and payload *)
  repeat split; try apply H.
Qed.

(* exact consumption is trivial: a fragment is a whole datagram *)
Lemma parse_frag_bytes f : parse_fragment (frag_bytes f) = Some f.
Proof. destruct f; reflexivity. Qed.

Lemma bbc_bytes_ok tid s st en fl p :
  tid < 256 -> bytes_ok p = true -> bytes_ok (frag_bytes (new_fragment tid s st en fl p)) = true.
Proof.
  intros Ht Hp. destruct (hdr_fields tid s st en fl p) as (_ & _ & _ & _ & Hi & _).
  unfold bytes_ok, frag_bytes in *. cbn [forallb f_tid f_payload new_fragment] in *.
  rewrite Hp. unfold byte_ok. apply N.ltb_lt in Ht, Hi. rewrite Ht, Hi. reflexivity.
Qed.

Lemma report_failure_fields f : f_tid (report_failure f) = f_tid f /\ f_fail (report_failure f) = true.
Proof.
  destruct (hdr_fields (f_tid f) (f_seq f) false false true []) as (_ & _ & _ & Hfl & _ & Ht & _). auto.
Qed.

Lemma next_seq_lt s : next_seq s < 16.
Proof. unfold next_seq. apply N.mod_lt. lia. Qed.

Lemma next_seq_small s : s < 16 -> next_seq s = (s + 1) mod 16.
Proof. intros H. unfold next_seq. rewrite (N.mod_small (s+1) 256) by lia. reflexivity. Qed.

Lemma read_fragment_Some t f t' : read_fragment t f = Some t' <->
  i_finished t = false /\ f_tid f = i_tid t /\ f_seq f = next_seq (i_prev t) /\ f_start f = false
  /\ t' = {| i_tid := i_tid t; i_payload := i_payload t ++ f_payload f;
             i_finished := f_end f; i_prev := f_seq f |}.
Proof.
  unfold read_fragment.
  destruct (i_finished t), (N.eqb_spec (f_tid f) (i_tid t)),
    (N.eqb_spec (f_seq f) (next_seq (i_prev t))), (f_start f); cbn [negb]; intuition congruence.
Qed.

Lemma read_fragment_ok t f :
  i_finished t = false -> f_tid f = i_tid t -> f_seq f = next_seq (i_prev t) -> f_start f = false ->
  read_fragment t f = Some {| i_tid := i_tid t; i_payload := i_payload t ++ f_payload f;
                              i_finished := f_end f; i_prev := f_seq f |}.
Proof. intros. apply read_fragment_Some. auto. Qed.

Lemma new_incoming_Some f t : new_incoming f = Some t <->
  f_start f = true
  /\ t = {| i_tid := f_tid f; i_payload := f_payload f; i_finished := f_end f; i_prev := f_seq f |}.
Proof. unfold new_incoming. destruct (f_start f); intuition congruence. Qed.

Section Train.
Variable tid : N.
Variable room : nat.
Hypothesis Hroom : (1 <= room)%nat.

Inductive train_shape : N -> bool -> list fragment -> Prop :=
| ts_last s st f :
    f_seq f = next_seq s -> f_start f = st -> f_end f = true -> f_fail f = false -> f_tid f = tid ->
    train_shape s st [f]
| ts_more s st f fs :
    f_seq f = next_seq s -> f_start f = st -> f_end f = false -> f_fail f = false -> f_tid f = tid ->
    f_payload f <> [] ->
    train_shape (next_seq s) false fs ->
    train_shape s st (f :: fs).

Lemma out_loop_train fuel : forall payload start s,
  (length payload < fuel)%nat ->
  let fs := out_loop fuel tid room payload start s in
  Forall (fun f => (length (f_payload f) <= room)%nat) fs
  /\ concat (map f_payload fs) = payload
  /\ train_shape s start fs.
Proof.
  induction fuel as [|fuel IH]; intros payload start s Hf; [lia|].
  cbn [out_loop].
  assert (Hm : next_seq s mod 32 = next_seq s).
  { apply N.mod_small. pose proof (next_seq_lt s). lia. }
  destruct (Nat.leb (length payload) room) eqn:E.
  - apply Nat.leb_le in E.
    destruct (hdr_fields tid (next_seq s) start true false payload) as (Fseq&Fst&Fend&Ffl&_&Ftid&Fpay).
    rewrite Hm in Fseq. cbn [map concat]. rewrite Fpay, app_nil_r. repeat split.
    + constructor; [rewrite Fpay; exact E|constructor].
    + apply ts_last; assumption.
  - apply Nat.leb_gt in E.
    destruct (hdr_fields tid (next_seq s) start false false (firstn room payload)) as (Fseq&Fst&Fend&Ffl&_&Ftid&Fpay).
    rewrite Hm in Fseq.
    destruct (IH (skipn room payload) false (next_seq s)) as (I1 & I2 & I3); [rewrite skipn_length; clear - Hf E Hroom; lia|].
    cbn [map concat]. rewrite Fpay, I2, firstn_skipn. repeat split.
    + constructor; [rewrite Fpay, firstn_length; apply Nat.le_min_l|exact I1].
    + apply ts_more; try assumption.
      (* room >= 1 and more than room bytes left: the fragment is not empty *)
      rewrite Fpay. intros Hnil. apply (f_equal (@length N)) in Hnil. rewrite firstn_length in Hnil.
      cbn [length] in Hnil. clear - Hnil E Hroom. lia.
Qed.

Definition read_all (t0 : incoming) (fs : list fragment) : option incoming :=
  fold_left (fun o f => match o with Some t => read_fragment t f | None => None end) fs (Some t0).

Lemma read_train : forall fs s t,
  train_shape s false fs -> i_finished t = false -> i_tid t = tid -> i_prev t = s ->
  exists t', read_all t fs = Some t'
     /\ i_payload t' = i_payload t ++ concat (map f_payload fs) /\ i_finished t' = true /\ i_tid t' = tid.
Proof.
  unfold read_all.
  induction fs as [|f fs IH]; intros s t Hs Hfin Htid Hprev; [inversion Hs|].
  cbn [fold_left map concat].
  inversion Hs as [s0 st0 f0 Fseq Fst Fend Ffl Ftid | s0 st0 f0 fs0 Fseq Fst Fend Ffl Ftid Fne Frest]; subst;
    rewrite read_fragment_ok by congruence.
  - eexists. split; [reflexivity|]. cbn. rewrite app_nil_r. auto.
  - destruct (IH _ {| i_tid := i_tid t; i_payload := i_payload t ++ f_payload f;
                      i_finished := f_end f; i_prev := f_seq f |} Frest Fend Htid Fseq) as (t' & Ht' & Hp & Hf & Ht).
    exists t'. cbn [i_payload] in Hp. rewrite Hp, app_assoc. auto.
Qed.

End Train.

Theorem bbc_train tid room payload fs :
  (1 <= room)%nat -> payload <> [] ->
  out_fragments tid room payload = Some fs ->
  (* sizes: header (2) + payload <= mtu = room + 2 *)
  Forall (fun f => (length (frag_bytes f) <= room + 2)%nat) fs
  /\ concat (map f_payload fs) = payload
  /\ train_shape tid 0 true fs.
Proof.
  intros Hr Hne Hout. unfold out_fragments in Hout.
  destruct payload as [|x payload]; [congruence|]. destruct room as [|room]; [lia|].
  injection Hout as <-.
  destruct (out_loop_train tid (S room) Hr _ (x :: payload) true 0 (Nat.lt_succ_diag_r _)) as (Hsize & Hcat & Hshape).
  split; [|split; assumption].
  apply Forall_impl with (2 := Hsize). intros f Hf. unfold frag_bytes. cbn [length]. lia.
Qed.

Definition receive_in_order (fs : list fragment) : option incoming :=
  match fs with
  | [] => None
  | f :: rest => match new_incoming f with None => None | Some t0 => read_all t0 rest end
  end.

Theorem bbc_inorder_reception tid fs :
  train_shape tid 0 true fs ->
  exists t, receive_in_order fs = Some t
     /\ i_payload t = concat (map f_payload fs) /\ i_finished t = true /\ i_tid t = tid.
Proof.
  intros Hs. unfold receive_in_order, new_incoming.
  inversion Hs as [s0 st0 f0 Fseq Fst Fend Ffl Ftid | s0 st0 f0 fs0 Fseq Fst Fend Ffl Ftid Fne Frest]; subst; rewrite Fst.
  - eexists. split; [reflexivity|]. cbn. rewrite app_nil_r. auto.
  - apply (read_train (f_tid f0) fs0 (next_seq 0)
             {| i_tid := f_tid f0; i_payload := f_payload f0; i_finished := f_end f0; i_prev := f_seq f0 |});
      auto.
Qed.

Lemma tbl_find_remove_same tb k : tbl_find (tbl_remove tb k) k = None.
Proof.
  induction tb as [|[k0 v] tb IH]; cbn [tbl_remove tbl_find]; [reflexivity|].
  destruct (N.eqb k0 k) eqn:E; [exact IH|]. cbn [tbl_find]. rewrite E. exact IH.
Qed.

Lemma tbl_find_remove_other tb k k' : k <> k' -> tbl_find (tbl_remove tb k) k' = tbl_find tb k'.
Proof.
  intros Hne. induction tb as [|[k0 v] tb IH]; cbn [tbl_remove tbl_find]; [reflexivity|].
  destruct (N.eqb_spec k0 k) as [->|_]; cbn [tbl_find]; rewrite IH; [|reflexivity].
  destruct (N.eqb_spec k k'); [contradiction|reflexivity].
Qed.

Lemma tbl_find_set_same tb k v : tbl_find (tbl_set tb k v) k = Some v.
Proof. unfold tbl_set. cbn [tbl_find]. rewrite N.eqb_refl. reflexivity. Qed.

Lemma tbl_find_set_other tb k k' v : k <> k' -> tbl_find (tbl_set tb k v) k' = tbl_find tb k'.
Proof.
  intros Hne. unfold tbl_set. cbn [tbl_find].
  destruct (N.eqb_spec k k'); [contradiction|]. apply tbl_find_remove_other, Hne.
Qed.

Lemma tbl_remove_none tb k : tbl_find tb k = None -> tbl_remove tb k = tb.
Proof.
  induction tb as [|[k0 v] tb IH]; cbn [tbl_find tbl_remove]; [reflexivity|].
  destruct (N.eqb k0 k); [discriminate|]. intros H. rewrite IH by exact H. reflexivity.
Qed.

Lemma tbl_remove_set tb k v : tbl_remove (tbl_set tb k v) k = tbl_remove tb k.
Proof.
  unfold tbl_set. cbn [tbl_remove]. rewrite N.eqb_refl. apply tbl_remove_none, tbl_find_remove_same.
Qed.

Lemma tbl_set_set tb k v v' : tbl_set (tbl_set tb k v) k v' = tbl_set tb k v'.
Proof. unfold tbl_set at 1. rewrite tbl_remove_set. reflexivity. Qed.

(* keys and entries agree (true of every table the connector can reach) *)
Definition tbl_wf (tb : table) : Prop := forall k t, tbl_find tb k = Some t -> i_tid t = k.

Lemma tbl_wf_nil : tbl_wf [].
Proof. intros k t H. discriminate. Qed.

Lemma tbl_wf_remove tb k : tbl_wf tb -> tbl_wf (tbl_remove tb k).
Proof.
  intros H k' t Hf. destruct (N.eq_dec k k') as [E|E].
  - subst k'. rewrite tbl_find_remove_same in Hf. discriminate.
  - rewrite tbl_find_remove_other in Hf by exact E. apply H. exact Hf.
Qed.

Lemma tbl_wf_set tb k v : tbl_wf tb -> i_tid v = k -> tbl_wf (tbl_set tb k v).
Proof.
  intros H Hv k' t Hf. destruct (N.eq_dec k k') as [E|E].
  - subst k'. rewrite tbl_find_set_same in Hf. injection Hf as Hf. subst t. exact Hv.
  - rewrite tbl_find_set_other in Hf by exact E. apply H. exact Hf.
Qed.

(* The connector runs one receiver per transmission id: a data fragment advances the entry of its id
   (or starts one), and nothing else in the table is looked at. *)
Definition advance (o : option incoming) (f : fragment) : option incoming :=
  match o with Some t => read_fragment t f | None => new_incoming f end.

Lemma advance_tid o f t : advance o f = Some t -> i_tid t = f_tid f.
Proof.
  destruct o as [t0|]; cbn [advance]; intros H.
  - apply read_fragment_Some in H. destruct H as (_ & H & _ & _ & ->). symmetry. exact H.
  - apply new_incoming_Some in H. destruct H as (_ & ->). reflexivity.
Qed.

Lemma handle_fragment_fail decodes tb f :
  f_fail f = true -> handle_fragment decodes tb f = (tb, [OutFailedTid (f_tid f)]).
Proof. intros H. unfold handle_fragment. rewrite H. reflexivity. Qed.

(* Only the entry of the fragment's own id has to sit under its key: handle_train_rest and
   bbc_handle_train_any use this on a table of which nothing else is known. *)
Lemma handle_fragment_eq decodes tb f :
  f_fail f = false -> (forall t, tbl_find tb (f_tid f) = Some t -> i_tid t = f_tid f) ->
  handle_fragment decodes tb f =
  match advance (tbl_find tb (f_tid f)) f with
  | None => (tbl_remove tb (f_tid f), [OutFailFrag (report_failure f)])
  | Some t =>
      if i_finished t
      then (tbl_remove tb (f_tid f),
            [if decodes (i_payload t) then OutBlob (f_tid f) (i_payload t) else OutFailFrag (report_failure f)])
      else (tbl_set tb (f_tid f) t, [])
  end.
Proof.
  intros Hff Hwf. pose proof (advance_tid (tbl_find tb (f_tid f)) f) as Ht.
  unfold handle_fragment. rewrite Hff.
  destruct (tbl_find tb (f_tid f)) as [t0|] eqn:Ef; cbn [advance] in *.
  - rewrite (Hwf t0 eq_refl). destruct (read_fragment t0 f) as [t|]; [|reflexivity].
    rewrite (Ht t eq_refl), tbl_remove_set. destruct (i_finished t), (decodes (i_payload t)); reflexivity.
  - destruct (new_incoming f) as [t|]; [|rewrite tbl_remove_none by exact Ef; reflexivity].
    rewrite (Ht t eq_refl), tbl_remove_set. destruct (i_finished t), (decodes (i_payload t)); reflexivity.
Qed.

Lemma handle_fragment_find decodes tb f tb' o :
  f_fail f = false -> tbl_wf tb ->
  handle_fragment decodes tb f = (tb', o) ->
  tbl_find tb' (f_tid f) =
  match advance (tbl_find tb (f_tid f)) f with
  | Some t => if i_finished t then None else Some t
  | None => None
  end.
Proof.
  intros Hff Hwf H. rewrite handle_fragment_eq in H by (assumption || apply Hwf).
  destruct (advance _ f) as [t|]; [destruct (i_finished t)|]; injection H as <- _;
    auto using tbl_find_remove_same, tbl_find_set_same.
Qed.

(* the step that ends a transmission, however it ends, forgets the id *)
Lemma handle_fragment_end_clears decodes tb f tb' o :
  tbl_wf tb -> handle_fragment decodes tb f = (tb', o) -> f_fail f = false -> o <> [] ->
  tbl_find tb' (f_tid f) = None.
Proof.
  intros Hwf H Hff Hne. rewrite handle_fragment_eq in H by (assumption || apply Hwf).
  destruct (advance _ f) as [t|]; [destruct (i_finished t)|]; injection H as <- <-;
    [apply tbl_find_remove_same|contradiction|apply tbl_find_remove_same].
Qed.

Lemma handle_fragment_other decodes tb f tb' o k :
  tbl_wf tb ->
  handle_fragment decodes tb f = (tb', o) -> f_tid f <> k ->
  tbl_find tb' k = tbl_find tb k.
Proof.
  intros Hwf H Hne. destruct (f_fail f) eqn:Hff.
  - rewrite handle_fragment_fail in H by exact Hff. injection H as <- _. reflexivity.
  - rewrite handle_fragment_eq in H by (assumption || apply Hwf).
    destruct (advance _ f) as [t|]; [destruct (i_finished t)|]; injection H as <- _;
      auto using tbl_find_remove_other, tbl_find_set_other.
Qed.

Lemma handle_fragment_wf decodes tb f tb' o :
  tbl_wf tb -> handle_fragment decodes tb f = (tb', o) -> tbl_wf tb'.
Proof.
  intros Hwf H. destruct (f_fail f) eqn:Hff.
  - rewrite handle_fragment_fail in H by exact Hff. injection H as <- _. exact Hwf.
  - rewrite handle_fragment_eq in H by (assumption || apply Hwf).
    destruct (advance _ f) as [t|] eqn:E; [destruct (i_finished t)|]; injection H as <- _;
      auto using tbl_wf_remove.
    apply tbl_wf_set; [exact Hwf|exact (advance_tid _ _ _ E)].
Qed.

Lemma handle_all_app decodes : forall l1 l2 tb,
  handle_all decodes tb (l1 ++ l2) =
  let '(tb1, o1) := handle_all decodes tb l1 in
  let '(tb2, o2) := handle_all decodes tb1 l2 in (tb2, o1 ++ o2).
Proof.
  induction l1 as [|f l1 IH]; intros l2 tb.
  - cbn [app handle_all]. destruct (handle_all decodes tb l2). reflexivity.
  - cbn [app handle_all]. destruct (handle_fragment decodes tb f) as [tb1 o1].
    rewrite IH. destruct (handle_all decodes tb1 l1) as [tb2 o2].
    destruct (handle_all decodes tb2 l2) as [tb3 o3]. rewrite app_assoc. reflexivity.
Qed.

Lemma handle_all_other decodes k : forall fs tb tb' o,
  tbl_wf tb -> Forall (fun x => f_tid x <> k) fs -> handle_all decodes tb fs = (tb', o) ->
  tbl_find tb' k = tbl_find tb k.
Proof.
  induction fs as [|f fs IH]; intros tb tb' o Hwf Hfs H; cbn [handle_all] in H.
  - injection H as <- _. reflexivity.
  - destruct (handle_fragment decodes tb f) as [tb1 o1] eqn:E1.
    destruct (handle_all decodes tb1 fs) as [tb2 o2] eqn:E2. injection H as <- _.
    inversion Hfs as [|x l Hf Hfs']; subst x l.
    rewrite (IH tb1 tb2 o2 (handle_fragment_wf _ _ _ _ _ Hwf E1) Hfs' E2).
    apply (handle_fragment_other _ _ _ _ _ _ Hwf E1 Hf).
Qed.

Lemma handle_all_wf decodes fs tb tb' o :
  tbl_wf tb -> handle_all decodes tb fs = (tb', o) -> tbl_wf tb'.
Proof.
  revert tb tb' o. induction fs as [|f fs IH]; intros tb tb' o Hwf H; cbn [handle_all] in H.
  - injection H as <- _. exact Hwf.
  - destruct (handle_fragment decodes tb f) as [tb1 o1] eqn:E1.
    destruct (handle_all decodes tb1 fs) as [tb2 o2] eqn:E2. injection H as <- _.
    apply (IH tb1 tb2 o2 (handle_fragment_wf _ _ _ _ _ Hwf E1) E2).
Qed.

Lemma handle_train_rest decodes tid tb : tbl_find tb tid = None ->
  forall fs s, train_shape tid s false fs -> forall t,
  i_finished t = false -> i_tid t = tid -> i_prev t = s ->
  decodes (i_payload t ++ concat (map f_payload fs)) = true ->
  handle_all decodes (tbl_set tb tid t) fs = (tb, [OutBlob tid (i_payload t ++ concat (map f_payload fs))]).
Proof.
  intros Hnone fs s H. remember false as st eqn:Hst.
  induction H as [s st f Fseq Fst Fend Ffl Ftid | s st f fs Fseq Fst Fend Ffl Ftid Fne Frest IH];
    intros t Hfin Htid Hprev Hdec; subst st tid; cbn [handle_all map concat] in *;
    rewrite handle_fragment_eq, tbl_find_set_same by (try (intro; rewrite tbl_find_set_same); congruence);
    cbn [advance]; rewrite read_fragment_ok by congruence; cbn [i_finished i_payload]; rewrite Fend.
  - rewrite !app_nil_r in *. rewrite Hdec, tbl_remove_set, tbl_remove_none by exact Hnone. reflexivity.
  - rewrite tbl_set_set, app_assoc. rewrite IH; auto. cbn [i_payload]. rewrite <- app_assoc. exact Hdec.
Qed.

Theorem bbc_handle_train_any decodes tb tid fs :
  tbl_find tb tid = None ->
  train_shape tid 0 true fs -> decodes (concat (map f_payload fs)) = true ->
  handle_all decodes tb fs = (tb, [OutBlob tid (concat (map f_payload fs))]).
Proof.
  intros Hnone H Hdec.
  inversion H as [s0 st0 f Fseq Fst Fend Ffl Ftid | s0 st0 f fs0 Fseq Fst Fend Ffl Ftid Fne Frest]; subst;
    cbn [handle_all map concat] in *;
    rewrite handle_fragment_eq, Hnone by congruence;
    cbn [advance]; unfold new_incoming; rewrite Fst; cbn [i_finished i_payload]; rewrite Fend.
  - rewrite !app_nil_r in *. rewrite Hdec, tbl_remove_none by exact Hnone. reflexivity.
  - rewrite (handle_train_rest decodes _ tb Hnone fs0 _ Frest); auto.
Qed.
