(* DecodeInv.v - inversion facts about successful decoding: every reader returns a suffix of its
   input; a block accepted with a CRC carries exactly the CRC of its received bytes. *)
From DTN Require Import Base Cbor CborProofs Crc CrcProofs Eid EidProofs Bundle BundleWf BundleProofs.
From Coq Require Import ZifyN ZifyNat ZifyBool.
Open Scope N_scope.

Definition suffix_of (r bs : list N) : Prop := exists c, bs = c ++ r.

Lemma suffix_refl bs : suffix_of bs bs.
Proof. exists []. reflexivity. Qed.
Lemma suffix_trans a b c : suffix_of a b -> suffix_of b c -> suffix_of a c.
Proof. intros [x ->] [y ->]. exists (y ++ x). rewrite app_assoc. reflexivity. Qed.
Lemma suffix_length r bs : suffix_of r bs -> (length r <= length bs)%nat.
Proof. intros [c ->]. rewrite app_length. lia. Qed.

Lemma consumed_suffix r bs : suffix_of r bs -> bs = consumed bs r ++ r.
Proof. intros [c ->]. rewrite consumed_app. reflexivity. Qed.

(* bind inversion with explicit names *)
Tactic Notation "binv" hyp(H) "as" ident(a) ident(r) ident(E) :=
  match type of H with
  | bind ?x _ = Ok _ _ =>
      destruct x as [a r| |] eqn:E; cbn [bind] in H; [|discriminate H|discriminate H]
  end.
Tactic Notation "ifinv" hyp(H) "as" ident(E) :=
  match type of H with
  | (if ?c then Err else _) = Ok _ _ => destruct c eqn:E; [discriminate H|]
  end.

Lemma read_head_suffix bs mn r : read_head bs = Ok mn r -> suffix_of r bs.
Proof. destruct mn as [m n]. intros H. apply read_head_inv in H as (b & x & -> & _). exists (b :: x). reflexivity. Qed.

Lemma read_expect_suffix m bs n r : read_expect m bs = Ok n r -> suffix_of r bs.
Proof. intros H. exact (read_head_suffix _ _ _ (read_expect_inv _ _ _ _ H)). Qed.

Lemma read_raw_suffix n bs d r : read_raw n bs = Ok d r -> bs = d ++ r.
Proof. intros H. apply read_raw_inv in H. apply H. Qed.

Lemma read_bstr_inv bs d r : read_bstr bs = Ok d r -> exists h, bs = h ++ d ++ r.
Proof.
  unfold read_bstr. intros H. binv H as n r0 E. apply read_expect_suffix in E. destruct E as [h ->].
  apply read_raw_suffix in H. subst. exists h. reflexivity.
Qed.
Lemma read_bstr_suffix bs d r : read_bstr bs = Ok d r -> suffix_of r bs.
Proof. intros H. apply read_bstr_inv in H. destruct H as [h ->]. exists (h ++ d). rewrite <- app_assoc. reflexivity. Qed.

Lemma dec_eid_inv bs e r : dec_eid bs = Ok e r -> exists l r1, read_arr bs = Ok l r1 /\ suffix_of r r1.
Proof.
  unfold dec_eid. intros H. binv H as l r1 E1. exists l, r1. split; [reflexivity|]. clear E1. ifinv H as El.
  binv H as scheme r2 E2. apply read_expect_suffix in E2.
  destruct (scheme =? 1).
  - binv H as mn r3 E3. apply read_head_suffix in E3. destruct mn as [m n].
    destruct (m =? mUInt).
    + inversion H; subst. eapply suffix_trans; eauto.
    + destruct (m =? mText); [|discriminate]. binv H as ssp r4 E4.
      assert (S2 : suffix_of r4 r3) by (apply read_raw_suffix in E4; subst; eexists; reflexivity).
      destruct (bytes_eqb ssp str_none); [discriminate|]. destruct (parse_ssp ssp) as [[nd dm]|]; [|discriminate].
      inversion H; subst. eapply suffix_trans; [exact S2|]. eapply suffix_trans; eauto.
  - destruct (scheme =? 2); [|discriminate]. binv H as l2 r3 E3. apply read_expect_suffix in E3. ifinv H as El2.
    binv H as n r4 E4. binv H as sv r5 E5.
    apply read_expect_suffix in E4, E5. inversion H; subst.
    eapply suffix_trans; [exact E5|]. eapply suffix_trans; [exact E4|]. eapply suffix_trans; eauto.
Qed.

Lemma dec_eid_suffix bs e r : dec_eid bs = Ok e r -> suffix_of r bs.
Proof.
  intros H. apply dec_eid_inv in H as (l & r1 & E & S). exact (suffix_trans _ _ _ S (read_expect_suffix _ _ _ _ E)).
Qed.

Lemma dec_eid_shorter bs e r : dec_eid bs = Ok e r -> (length r < length bs)%nat.
Proof.
  intros H. apply dec_eid_inv in H as (l & r1 & E & S). apply read_expect_shrinks in E. apply suffix_length in S. lia.
Qed.

Lemma dec_ext_suffix tc bs v r : dec_ext tc bs = Ok v r -> suffix_of r bs.
Proof.
  unfold dec_ext. intros H. destruct (read_bstr bs) as [data rest| |] eqn:E; cbn [bind nobrk] in H; try discriminate.
  apply read_bstr_suffix in E.
  match type of H with nobrk (match ?x with _ => _ end) = _ => destruct x as [v' r'| |]; cbn [nobrk] in H; try discriminate end.
  inversion H; subst. exact E.
Qed.

(* what a block's decoder has checked when it accepts a CRC field: the bytes it consumed end in the
   CRC value computed over them with that value replaced by zeros *)
Definition crc_checked (t : N) (bs r : list N) : Prop :=
  exists len cv pre,
    crc_len t = Some len /\ length cv = len
    /\ consumed bs r = pre ++ cv
    /\ cv = be_encode len (crc_value t (zero_field len (consumed bs r)))
    /\ suffix_of r bs.

Lemma check_crc_suffix t bs r0 r' : check_crc t bs r0 = Ok tt r' -> suffix_of r' r0.
Proof. intros H. apply check_crc_iff in H as (cv & len & E & _). exact (read_bstr_suffix _ _ _ E). Qed.

Lemma check_crc_inv t bs r0 r' : check_crc t bs r0 = Ok tt r' -> suffix_of r0 bs -> crc_checked t bs r'.
Proof.
  intros H Hs. apply check_crc_iff in H as (cv & len & E & El & Elen & Eb).
  apply read_bstr_inv in E. destruct E as [h Hr0]. destruct Hs as [c Hbs]. subst r0 bs.
  exists len, cv, (c ++ h). repeat split; try assumption.
  - replace (c ++ h ++ cv ++ r') with (((c ++ h) ++ cv) ++ r') by (rewrite <- !app_assoc; reflexivity).
    apply consumed_app.
  - exists (c ++ h ++ cv). rewrite <- !app_assoc. reflexivity.
Qed.

(* the end of a block, after the fields that gave x: nothing but the CRC field is read; it is there
   iff the CRC type is not 0, and then it has been checked *)
Lemma crc_tail_inv {A} (x y : A) t bs r0 r (present : bool) :
  (if present then bind (check_crc t bs r0) (fun _ r => Ok x r) else Ok x r0) = Ok y r ->
  y = x /\ suffix_of r r0
  /\ (present = negb (t =? 0) -> suffix_of r0 bs -> t <> 0 -> crc_checked t bs r).
Proof.
  intros H. destruct present.
  - binv H as u r1 E. destruct u. inversion H; subst. split; [reflexivity|]. split; [exact (check_crc_suffix _ _ _ _ E)|].
    intros _ Hs _. exact (check_crc_inv _ _ _ _ E Hs).
  - inversion H; subst. split; [reflexivity|]. split; [apply suffix_refl|].
    intros Hp _ Hnz. apply N.eqb_neq in Hnz. rewrite Hnz in Hp. discriminate Hp.
Qed.

Lemma dec_cblock_inv bs c r :
  dec_cblock bs = Ok c r -> (length r < length bs)%nat /\ (c_crc c <> 0 -> crc_checked (c_crc c) bs r).
Proof.
  unfold dec_cblock. intros H. binv H as l r0 E0. ifinv H as El. binv H as tc r1 E1. binv H as num r2 E2.
  binv H as fl r3 E3. binv H as crc r4 E4. ifinv H as Ecrc. ifinv H as Epres. binv H as v r5 E5.
  apply read_expect_suffix in E1, E2, E3, E4. apply dec_ext_suffix in E5.
  assert (Hs : suffix_of r5 r0) by (repeat (eapply suffix_trans; [eassumption|]); apply suffix_refl).
  apply negb_false_iff, eqb_prop in Epres. apply crc_tail_inv in H as (-> & Hr & Hc). split.
  - apply read_expect_shrinks in E0. apply suffix_length in Hs, Hr. lia.
  - exact (Hc Epres (suffix_trans _ _ _ Hs (read_expect_suffix _ _ _ _ E0))).
Qed.

Theorem dec_cblock_crc bs c r : dec_cblock bs = Ok c r -> c_crc c <> 0 -> crc_checked (c_crc c) bs r.
Proof. intros H. apply dec_cblock_inv, H. Qed.

Theorem dec_primary_crc bs p r : dec_primary bs = Ok p r -> p_crc p <> 0 -> crc_checked (p_crc p) bs r.
Proof.
  unfold dec_primary. intros H Hnz. binv H as l r0 E0. ifinv H as El. binv H as ver r1 E1. ifinv H as Ever.
  binv H as fl r2 E2. binv H as crc r3 E3. ifinv H as Ecrc. ifinv H as Epres.
  binv H as dst r4 E4. binv H as src r5 E5. binv H as rpt r6 E6. binv H as l2 r7 E7. ifinv H as El2.
  binv H as tm r8 E8. binv H as sq r9 E9. binv H as life r10 E10. binv H as ot r11 E11.
  apply read_expect_suffix in E0, E1, E2, E3, E7, E8, E9, E10. apply dec_eid_suffix in E4, E5, E6.
  assert (S11 : suffix_of r11 r10).
  { destruct ((l =? 10) || (l =? 11)).
    - binv E11 as off ra Ea. binv E11 as tot rb Eb. inversion E11; subst.
      apply read_expect_suffix in Ea, Eb. eapply suffix_trans; eauto.
    - inversion E11; subst. apply suffix_refl. }
  assert (Hs : suffix_of r11 bs) by (repeat (eapply suffix_trans; [eassumption|]); apply suffix_refl).
  apply negb_false_iff, eqb_prop in Epres. apply crc_tail_inv in H as (-> & _ & H). exact (H Epres Hs Hnz).
Qed.
