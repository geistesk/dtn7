(* ReportProofs.v - status reports of the Core model (Model/Report.v): every emitted report is
   justified by an event of its kind in the same pass and by the request flag, has the required
   shape, and no report is ever emitted about an administrative record or towards this node. *)
From DTN Require Import Base ListFacts Cbor Eid Bundle Report EidProofs AuxCbor AuxCborProofs.
Open Scope N_scope.

Lemma existsb_in {A} (p : A -> bool) l x : In x l -> p x = true -> existsb p l = true.
Proof. intros H1 H2. apply existsb_exists. exists x. auto. Qed.

Lemma existsb_id_in l : existsb (fun ok : bool => ok) l = true <-> In true l.
Proof. rewrite existsb_exists. split; [intros (x & Hx & ->); exact Hx | eauto]. Qed.

Lemma rp_reports_app a b : rp_reports (a ++ b) = rp_reports a ++ rp_reports b.
Proof. unfold rp_reports. apply flat_map_app. Qed.
Lemma rp_events_app a b : rp_events (a ++ b) = rp_events a ++ rp_events b.
Proof. unfold rp_events. apply flat_map_app. Qed.
Lemma rp_reports_ev e l : rp_reports (IEv e :: l) = rp_reports l.
Proof. reflexivity. Qed.
Lemma rp_events_ev e l : rp_events (IEv e :: l) = e :: rp_events l.
Proof. reflexivity. Qed.
Lemma rp_reports_rep r l : rp_reports (IRep r :: l) = r :: rp_reports l.
Proof. reflexivity. Qed.
Lemma rp_events_rep r l : rp_events (IRep r :: l) = rp_events l.
Proof. reflexivity. Qed.
Lemma rp_reports_sends l : rp_reports (map (fun ok => IEv (EvSend ok)) l) = [].
Proof. induction l; simpl; auto. Qed.
Lemma rp_events_sends l : rp_events (map (fun ok => IEv (EvSend ok)) l) = map EvSend l.
Proof. induction l; simpl; f_equal; auto. Qed.

Definition rp_local_source (env : renv) (e : eid) : Prop :=
  rp_has_endpoint env e = true \/ e = rn_node env.

Definition rp_shape (env : renv) (b : bundle) (now : N) (r : rp_sreport) : Prop :=
  let p := b_pri b in
  rpr_flags r = F_ADMIN
  /\ rpr_dst r = p_rpt p
  /\ rpr_life r = RP_LIFETIME
  /\ sr_ref_src r = p_src p /\ sr_ref_time r = p_time p /\ sr_ref_seq r = p_seq p
  /\ sr_ref_frag r = (if has (p_flags p) F_FRAG then Some (p_off p, p_total p) else None)
  /\ rpr_time r = (if has (p_flags p) F_TIME then Some now else None)
  /\ rp_local_source env (rpr_src r).

Definition rp_guards (env : renv) (b : bundle) : Prop :=
  has (p_flags (b_pri b)) F_ADMIN = false /\ rp_has_endpoint env (p_rpt (b_pri b)) = false.

Lemma rp_ssr_reports env rcv b now pos reason r :
  In r (rp_reports (rp_ssr env rcv b now pos reason)) ->
  rpr_pos r = pos /\ rpr_reason r = reason /\ rp_shape env b now r /\ rp_guards env b.
Proof.
  unfold rp_ssr. intros H.
  destruct (has (p_flags (b_pri b)) F_ADMIN) eqn:Ha; [destruct H|].
  destruct (rp_has_endpoint env (p_rpt (b_pri b))) eqn:Hr; [destruct H|].
  set (aa := if eid_eqb rcv DtnNone then rn_node env else rcv) in *.
  destruct (negb (rp_has_endpoint env aa) && negb (eid_eqb aa (rn_node env))) eqn:Hg; [destruct H|].
  destruct H as [<-|[]]. cbn [rpr_pos rpr_reason]. repeat split; auto.
  unfold rp_local_source. cbn [rpr_src].
  apply andb_false_iff in Hg. destruct Hg as [Hg|Hg]; apply negb_false_iff in Hg.
  - left; exact Hg.
  - right. apply eid_eqb_eq; exact Hg.
Qed.

Lemma rp_ssr_events env rcv b now pos reason : rp_events (rp_ssr env rcv b now pos reason) = [].
Proof.
  unfold rp_ssr. destruct (has _ _); [reflexivity|]. destruct (rp_has_endpoint _ _); [reflexivity|].
  destruct (_ && _); reflexivity.
Qed.

Lemma rp_if_ssr_events env rcv b now (c : bool) pos reason :
  rp_events (if c then rp_ssr env rcv b now pos reason else []) = [].
Proof. destruct c; [apply rp_ssr_events | reflexivity]. Qed.

Definition rp_unknown_report_witness (b : bundle) (evs : list event) : Prop :=
  exists i c, In (EvUnknownBlock i (c_flags c)) evs /\ In c (b_blocks b)
              /\ known_type (c_type c) = false /\ has (c_flags c) BF_REPORT = true.

Definition rp_justified (b : bundle) (evs : list event) (r : rp_sreport) : Prop :=
  let f := p_flags (b_pri b) in
  (rpr_pos r = SP_RECEIVED /\ rpr_reason r = RR_NOINFO /\ In EvReceived evs /\ has f F_RECEPTION = true)
  \/ (rpr_pos r = SP_RECEIVED /\ rpr_reason r = RR_UNSUPPORTED /\ In EvReceived evs /\ rp_unknown_report_witness b evs)
  \/ (rpr_pos r = SP_FORWARDED /\ rpr_reason r = RR_NOINFO /\ In EvForwarded evs /\ In (EvSend true) evs /\ has f F_FORWARD = true)
  \/ (rpr_pos r = SP_DELIVERED /\ rpr_reason r = RR_NOINFO /\ In EvDelivered evs /\ has f F_DELIVERY = true)
  \/ (rpr_pos r = SP_DELETED /\ In (EvDeleted (rpr_reason r)) evs /\ has f F_DELETION = true).

Lemma rp_justified_incl b evs evs' r : incl evs evs' -> rp_justified b evs r -> rp_justified b evs' r.
Proof.
  intros Hi H. unfold rp_justified in *.
  destruct H as [H|[H|[H|[H|H]]]].
  - left. destruct H as (A & B & C & D). auto.
  - right; left. destruct H as (A & B & C & i & c & W & D). repeat split; auto. exists i, c. auto.
  - right; right; left. destruct H as (A & B & C & D & E). auto 6.
  - right; right; right; left. destruct H as (A & B & C & D). auto.
  - right; right; right; right. destruct H as (A & B & C). auto.
Qed.

Definition rp_good (env : renv) (b : bundle) (now : N) (pre : list event) (l : list item) : Prop :=
  forall r, In r (rp_reports l) ->
    rp_shape env b now r /\ rp_guards env b /\ rp_justified b (pre ++ rp_events l) r.

Lemma rp_good_events_only env b now pre l : rp_reports l = [] -> rp_good env b now pre l.
Proof. intros E r Hr. rewrite E in Hr. destruct Hr. Qed.

Lemma good_weaken env b now pre pre' l :
  incl pre pre' -> rp_good env b now pre l -> rp_good env b now pre' l.
Proof.
  intros Hi H r Hr. destruct (H r Hr) as (A & B & C). split; [exact A | split; [exact B |]].
  eapply rp_justified_incl; [|exact C]. apply incl_app; [apply incl_appl; exact Hi | apply incl_appr, incl_refl].
Qed.

Lemma rp_good_app env b now pre l1 l2 :
  rp_good env b now pre l1 -> rp_good env b now (pre ++ rp_events l1) l2 -> rp_good env b now pre (l1 ++ l2).
Proof.
  intros H1 H2 r Hr. rewrite rp_reports_app in Hr. rewrite rp_events_app, app_assoc. apply in_app_or in Hr. destruct Hr as [Hr|Hr].
  - destruct (H1 r Hr) as (A & B & C). split; [exact A | split; [exact B |]]. eapply rp_justified_incl; [|exact C].
    apply incl_appl, incl_refl.
  - exact (H2 r Hr).
Qed.

Lemma rp_good_ev env b now pre e l :
  rp_good env b now (pre ++ [e]) l -> rp_good env b now pre (IEv e :: l).
Proof.
  intros H r Hr. rewrite rp_events_ev. change (e :: rp_events l) with ([e] ++ rp_events l). rewrite app_assoc. exact (H r Hr).
Qed.

Lemma rp_good_if_ssr env rcv b now pre (c : bool) pos reason :
  (c = true -> forall r, rpr_pos r = pos -> rpr_reason r = reason -> rp_justified b pre r) ->
  rp_good env b now pre (if c then rp_ssr env rcv b now pos reason else []).
Proof.
  destruct c; intros Hj r Hr; [|destruct Hr].
  apply rp_ssr_reports in Hr. destruct Hr as (Hp & Hre & Hs & Hg). split; [exact Hs | split; [exact Hg |]].
  rewrite rp_ssr_events, app_nil_r. apply Hj; auto.
Qed.

Lemma rp_good_deletion env rcv b now pre reason :
  rp_good env b now pre (rp_deletion env rcv b now reason).
Proof.
  unfold rp_deletion. apply rp_good_ev. apply rp_good_if_ssr. intros Hf r Hp Hr.
  unfold rp_justified. right; right; right; right. rewrite Hr. repeat split; auto.
  apply in_elt.
Qed.

Lemma rp_good_unknown_loop env rcv b now l : forall pre,
  In EvReceived pre ->
  (forall i c, In (i, c) l -> In c (b_blocks b)) ->
  rp_good env b now pre (fst (rp_unknown_loop env rcv b now l)).
Proof.
  induction l as [|[i c] l IH]; intros pre Hrecv Hin; cbn [rp_unknown_loop].
  - apply rp_good_events_only. reflexivity.
  - assert (Hin' : forall i c, In (i, c) l -> In c (b_blocks b)) by (intros; eapply Hin; right; eauto).
    destruct (known_type (c_type c)) eqn:Hk; [apply IH; auto|].
    assert (Hev : rp_good env b now (pre ++ [EvUnknownBlock i (c_flags c)])
                    (if has (c_flags c) BF_REPORT then rp_ssr env rcv b now SP_RECEIVED RR_UNSUPPORTED else [])).
    { apply rp_good_if_ssr. intros Hf r Hp Hr. unfold rp_justified. right; left. repeat split; auto.
      - apply in_or_app; left; exact Hrecv.
      - exists i, c. repeat split; auto.
        + apply in_elt.
        + eapply Hin; left; reflexivity. }
    destruct (has (c_flags c) BF_DELETE) eqn:Hd; cbn [fst].
    + cbn [app]. apply rp_good_ev. apply rp_good_app; [exact Hev | apply rp_good_deletion].
    + destruct (rp_unknown_loop env rcv b now l) as [its d]. cbn [fst] in *.
      cbn [app]. apply rp_good_ev. apply rp_good_app; [exact Hev|].
      apply rp_good_app.
      * apply rp_good_events_only. destruct (has (c_flags c) BF_REMOVE); reflexivity.
      * apply IH; auto. repeat (apply in_or_app; left). exact Hrecv.
Qed.

Lemma rp_indexed_in bl i c : In (i, c) (rp_indexed bl) -> In c bl.
Proof. unfold rp_indexed. intros H. apply in_rev in H. eapply in_combine_r; eauto. Qed.

Lemma rp_good_forward env inp pre :
  rp_good env (i_bundle inp) (i_now inp) pre (rp_forward env inp).
Proof.
  unfold rp_forward.
  destruct (rp_hop_exceeded (i_bundle inp)); [apply rp_good_deletion|].
  destruct (lifetime_exceeded (i_now inp) (i_bundle inp)); [apply rp_good_deletion|].
  destruct (rp_age_expired (i_bundle inp) (i_age_add inp)); [apply rp_good_deletion|].
  apply rp_good_app; [apply rp_good_events_only, rp_reports_sends|].
  destruct (existsb (fun ok => ok) (i_sends inp)) eqn:Hs.
  - apply rp_good_ev. apply rp_good_app.
    + apply rp_good_if_ssr. intros Hf r Hp Hr. unfold rp_justified. right; right; left. repeat split; auto.
      * apply in_elt.
      * apply in_or_app; left. apply in_or_app; right. rewrite rp_events_sends.
        apply in_map, existsb_id_in, Hs.
    + apply rp_good_events_only. reflexivity.
  - apply rp_good_events_only. reflexivity.
Qed.

Lemma rp_good_local env inp pre :
  rp_good env (i_bundle inp) (i_now inp) pre (rp_local env inp).
Proof.
  unfold rp_local.
  destruct (_ && _); [apply rp_good_deletion|].
  destruct (rp_has_agent env (p_dst (b_pri (i_bundle inp)))).
  - apply rp_good_ev. apply rp_good_app.
    + apply rp_good_if_ssr. intros Hf r Hp Hr. unfold rp_justified. right; right; right; left. repeat split; auto.
      apply in_elt.
    + apply rp_good_events_only. reflexivity.
  - apply rp_good_events_only. reflexivity.
Qed.

Lemma rp_good_dispatch env inp pre :
  rp_good env (i_bundle inp) (i_now inp) pre (rp_dispatch env inp).
Proof.
  unfold rp_dispatch.
  destruct (negb (i_dispatch_ok inp)); [apply rp_good_events_only; reflexivity|].
  destruct (negb (i_load_ok inp)); [apply rp_good_events_only; reflexivity|].
  destruct (rp_has_endpoint env (p_dst (b_pri (i_bundle inp)))); [apply rp_good_local | apply rp_good_forward].
Qed.

Lemma rp_good_process env inp :
  rp_good env (i_bundle inp) (i_now inp) [] (rp_process env inp).
Proof.
  unfold rp_process.
  destruct (i_kind inp =? 0).
  - destruct (i_known inp); [apply rp_good_events_only; reflexivity|].
    pose proof (rp_good_unknown_loop env (i_receiver inp) (i_bundle inp) (i_now inp) (rp_indexed (b_blocks (i_bundle inp)))) as HL.
    destruct (rp_unknown_loop _ _ _ _ _) as [its d]. cbn [fst] in HL.
    apply rp_good_ev. apply rp_good_app.
    + apply rp_good_if_ssr. intros Hf r Hp Hr. unfold rp_justified. left. repeat split; auto. left; reflexivity.
    + apply rp_good_app.
      * apply HL.
        -- apply in_or_app; left. left; reflexivity.
        -- intros i c H. eapply rp_indexed_in; eauto.
      * destruct d; [apply rp_good_events_only; reflexivity | apply rp_good_dispatch].
  - destruct (i_kind inp =? 1).
    + destruct (_ && _); [apply rp_good_deletion | apply rp_good_dispatch].
    + apply rp_good_dispatch.
Qed.

Lemma rp_report_shape env inp r :
  In r (rp_reports (rp_process env inp)) -> rp_shape env (i_bundle inp) (i_now inp) r.
Proof. intros H. exact (proj1 (rp_good_process env inp r H)). Qed.

Lemma rp_no_report_unless_guards env inp :
  ~ rp_guards env (i_bundle inp) -> rp_reports (rp_process env inp) = [].
Proof.
  intros Hn. destruct (rp_reports (rp_process env inp)) as [|r l] eqn:E; [reflexivity|].
  destruct (rp_good_process env inp r) as (_ & G & _); [rewrite E; left; reflexivity | contradiction].
Qed.

Lemma eid_same_node_refl e : eid_same_node e e = true.
Proof. destruct e; cbn; auto using bytes_eqb_refl. apply N.eqb_refl. Qed.

Lemma rp_deletion_events env rcv b now reason : rp_events (rp_deletion env rcv b now reason) = [EvDeleted reason].
Proof. unfold rp_deletion. rewrite rp_events_ev, rp_if_ssr_events. reflexivity. Qed.

Definition rp_loop_event (b : bundle) (e : event) : Prop :=
  (exists i f, e = EvUnknownBlock i f) \/ (exists i, e = EvBlockRemoved i)
  \/ (e = EvDeleted RR_UNSUPPORTED /\ exists c, In c (b_blocks b) /\ known_type (c_type c) = false /\ has (c_flags c) BF_DELETE = true).

Lemma rp_unknown_loop_sound env rcv b now l :
  (forall i c, In (i, c) l -> In c (b_blocks b)) ->
  forall e, In e (rp_events (fst (rp_unknown_loop env rcv b now l))) -> rp_loop_event b e.
Proof.
  induction l as [|[i c] l IH]; intros Hin e; cbn [rp_unknown_loop].
  - intros [].
  - assert (Hin' : forall i c, In (i, c) l -> In c (b_blocks b)) by (intros; eapply Hin; right; eauto).
    destruct (known_type (c_type c)) eqn:Hk; [apply IH; auto|].
    destruct (has (c_flags c) BF_DELETE) eqn:Hd; cbn [fst].
    + cbn [app]. rewrite rp_events_ev, rp_events_app, rp_if_ssr_events, rp_deletion_events. intros [<-|[<-|[]]].
      * left. eauto.
      * right; right. split; [reflexivity|]. exists c. repeat split; auto. eapply Hin; left; reflexivity.
    + destruct (rp_unknown_loop env rcv b now l) as [its d]. cbn [fst] in *.
      cbn [app]. rewrite rp_events_ev, !rp_events_app, rp_if_ssr_events. cbn [app]. intros [<-|H]; [left; eauto|].
      apply in_app_or in H. destruct H as [H|H]; [|apply IH; auto].
      destruct (has (c_flags c) BF_REMOVE); [|destruct H]. destruct H as [<-|[]]. right; left. eauto.
Qed.

Definition rp_forward_event (inp : rinput) (e : event) : Prop :=
  let b := i_bundle inp in
  (e = EvDeleted RR_HOPLIMIT /\ rp_hop_exceeded b = true)
  \/ (e = EvDeleted RR_EXPIRED /\ (lifetime_exceeded (i_now inp) b = true \/ rp_age_expired b (i_age_add inp) = true))
  \/ (exists ok, e = EvSend ok /\ In ok (i_sends inp))
  \/ (e = EvForwarded /\ In true (i_sends inp))
  \/ (e = EvAllSendsFailed /\ ~ In true (i_sends inp))
  \/ e = EvReleased \/ e = EvContraindicated.

Lemma rp_forward_sound env inp e : In e (rp_events (rp_forward env inp)) -> rp_forward_event inp e.
Proof.
  unfold rp_forward, rp_forward_event.
  destruct (rp_hop_exceeded (i_bundle inp)) eqn:Hh; [rewrite rp_deletion_events; intros [<-|[]]; auto|].
  destruct (lifetime_exceeded (i_now inp) (i_bundle inp)) eqn:Hl; [rewrite rp_deletion_events; intros [<-|[]]; auto|].
  destruct (rp_age_expired (i_bundle inp) (i_age_add inp)) eqn:Ha; [rewrite rp_deletion_events; intros [<-|[]]; auto|].
  rewrite rp_events_app, rp_events_sends. intros H. apply in_app_or in H. destruct H as [H|H].
  - apply in_map_iff in H. destruct H as (ok & E & Hi). right; right; left. eauto.
  - destruct (existsb (fun ok => ok) (i_sends inp)) eqn:Hs.
    + apply existsb_id_in in Hs.
      rewrite rp_events_ev, rp_events_app, rp_if_ssr_events in H.
      destruct (i_delete_after inp); destruct H as [<-|[<-|[]]]; auto 8.
    + assert (Ht : ~ In true (i_sends inp)) by (rewrite <- existsb_id_in, Hs; discriminate).
      destruct H as [<-|[<-|[]]]; auto 8.
Qed.

Definition rp_local_event (env : renv) (inp : rinput) (e : event) : Prop :=
  let b := i_bundle inp in
  (e = EvDeleted RR_NOINFO /\ has (p_flags (b_pri b)) F_ADMIN = true /\ i_admin_ok inp = false)
  \/ (e = EvDelivered /\ rp_has_agent env (p_dst (b_pri b)) = true)
  \/ (e = EvDeliverFailed /\ rp_has_agent env (p_dst (b_pri b)) = false)
  \/ e = EvReleased.

Lemma rp_local_sound env inp e : In e (rp_events (rp_local env inp)) -> rp_local_event env inp e.
Proof.
  unfold rp_local, rp_local_event.
  destruct (_ && _) eqn:Ha.
  - rewrite rp_deletion_events. intros [<-|[]]. apply andb_true_iff in Ha. destruct Ha as [A B]. apply negb_true_iff in B. auto.
  - destruct (rp_has_agent env (p_dst (b_pri (i_bundle inp)))) eqn:Hag.
    + rewrite rp_events_ev, rp_events_app, rp_if_ssr_events. intros [<-|[<-|[]]]; auto.
    + intros [<-|[<-|[]]]; auto.
Qed.

Definition rp_dispatch_event (env : renv) (inp : rinput) (e : event) : Prop :=
  (e = EvNotDispatched /\ i_dispatch_ok inp = false)
  \/ (rp_has_endpoint env (p_dst (b_pri (i_bundle inp))) = true /\ rp_local_event env inp e)
  \/ (rp_has_endpoint env (p_dst (b_pri (i_bundle inp))) = false /\ rp_forward_event inp e).

Lemma rp_dispatch_sound env inp e : In e (rp_events (rp_dispatch env inp)) -> rp_dispatch_event env inp e.
Proof.
  unfold rp_dispatch, rp_dispatch_event.
  destruct (i_dispatch_ok inp); cbn [negb].
  - destruct (negb (i_load_ok inp)); [intros []|].
    destruct (rp_has_endpoint env (p_dst (b_pri (i_bundle inp)))) eqn:Hd; intros H.
    + right; left. split; auto. apply rp_local_sound; exact H.
    + right; right. split; auto. apply (rp_forward_sound env); exact H.
  - intros [<-|[]]. auto.
Qed.

Definition rp_event_cause (env : renv) (inp : rinput) (e : event) : Prop :=
  (e = EvDuplicate /\ i_kind inp = 0 /\ i_known inp = true)
  \/ (e = EvReceived /\ i_kind inp = 0 /\ i_known inp = false)
  \/ (i_kind inp = 0 /\ i_known inp = false /\ rp_loop_event (i_bundle inp) e)
  \/ (e = EvDeleted RR_NOINFO /\ i_kind inp = 1 /\ rp_has_endpoint env (p_src (b_pri (i_bundle inp))) = false
      /\ p_src (b_pri (i_bundle inp)) <> DtnNone)
  \/ rp_dispatch_event env inp e.

Lemma rp_events_sound env inp e :
  In e (rp_events (rp_process env inp)) -> rp_event_cause env inp e.
Proof.
  unfold rp_process, rp_event_cause.
  destruct (i_kind inp =? 0) eqn:Hk.
  - apply N.eqb_eq in Hk.
    destruct (i_known inp) eqn:Hkn; [intros [<-|[]]; auto|].
    pose proof (rp_unknown_loop_sound env (i_receiver inp) (i_bundle inp) (i_now inp) (rp_indexed (b_blocks (i_bundle inp)))) as HL.
    destruct (rp_unknown_loop _ _ _ _ _) as [its d]. cbn [fst] in HL.
    rewrite rp_events_ev, !rp_events_app, rp_if_ssr_events. cbn [app]. intros [<-|H]; [auto|].
    apply in_app_or in H. destruct H as [H|H].
    + right; right; left. repeat split; auto. apply HL; auto. intros i c Hi. eapply rp_indexed_in; eauto.
    + destruct d; [destruct H|]. right; right; right; right. apply rp_dispatch_sound; exact H.
  - destruct (i_kind inp =? 1) eqn:Hk1.
    + apply N.eqb_eq in Hk1.
      destruct (_ && _) eqn:Hs.
      * rewrite rp_deletion_events. intros [<-|[]]. right; right; right; left.
        apply andb_true_iff in Hs. destruct Hs as [A B]. apply negb_true_iff in A, B. repeat split; auto.
        intros E. rewrite E in A. discriminate.
      * intros H. right; right; right; right. apply rp_dispatch_sound; exact H.
    + intros H. right; right; right; right. apply rp_dispatch_sound; exact H.
Qed.

Lemma rp_frag_eqb_eq a b : rp_frag_eqb a b = true <-> a = b.
Proof.
  apply option_eqb_spec. intros [x y] [u v]. cbn [fst snd]. rewrite andb_true_iff, !N.eqb_eq.
  split; [intros [-> ->]; reflexivity | intros [= -> ->]; auto].
Qed.

Lemma rp_model_passes_checker env inp r :
  In r (rp_reports (rp_process env inp)) ->
  rp_check env (i_bundle inp) (rp_facts_of (rp_events (rp_process env inp))) r = [].
Proof.
  intros H. destruct (rp_good_process env inp r H) as (S & G & J). cbn [app] in J.
  destruct S as (Sf & Sd & _ & S1 & S2 & S3 & S4 & S5 & _). destruct G as (G1 & G2).
  assert (St : Bool.eqb (match rpr_time r with Some _ => true | None => false end)
                        (has (p_flags (b_pri (i_bundle inp))) F_TIME) = true)
    by (rewrite S5; destruct (has _ F_TIME); reflexivity).
  (* shape and guards decide every test of the checker but those on the position: the rest computes *)
  unfold rp_check. rewrite St, Sf, Sd, S1, S2, S3, S4, G1, G2.
  rewrite !eid_eqb_refl, !N.eqb_refl, (proj2 (rp_frag_eqb_eq _ _) eq_refl).
  cbn [rp_facts_of fa_received fa_sent_ok fa_handed fa_deleted].
  destruct J as [(A & B & C & D)|[(A & B & C & W)|[(A & _ & _ & C & D)|[(A & _ & C & D)|(A & C & D)]]]];
    rewrite A, ?B, (existsb_in _ _ _ C eq_refl).
  - rewrite D. reflexivity.
  - destruct W as (_ & c & _ & Hc & Hk & Hf).
    assert (Hb : rp_unknown_report_block (i_bundle inp) = true)
      by (apply existsb_exists; exists c; rewrite Hk, Hf; auto).
    rewrite Hb. reflexivity.
  - rewrite D. reflexivity.
  - rewrite D. reflexivity.
  - rewrite D. reflexivity.
Qed.

Definition rp_property (env : renv) (b : bundle) (fa : rfacts) (r : rp_sreport) : Prop :=
  let p := b_pri b in
  let f := p_flags p in
  (* truthful and requested *)
  ((rpr_pos r = SP_RECEIVED /\ fa_received fa = true
      /\ (if rpr_reason r =? RR_UNSUPPORTED then rp_unknown_report_block b = true else has f F_RECEPTION = true))
   \/ (rpr_pos r = SP_FORWARDED /\ fa_sent_ok fa = true /\ has f F_FORWARD = true)
   \/ (rpr_pos r = SP_DELIVERED /\ fa_handed fa = true /\ has f F_DELIVERY = true)
   \/ (rpr_pos r = SP_DELETED /\ fa_deleted fa = true /\ has f F_DELETION = true))
  (* shape *)
  /\ has (rpr_flags r) F_ADMIN = true /\ any_status_request (rpr_flags r) = false
  /\ rpr_dst r = p_rpt p
  /\ sr_ref_src r = p_src p /\ sr_ref_time r = p_time p /\ sr_ref_seq r = p_seq p
  /\ sr_ref_frag r = (if has f F_FRAG then Some (p_off p, p_total p) else None)
  /\ ((exists t, rpr_time r = Some t) <-> has f F_TIME = true)
  (* no cascade *)
  /\ has f F_ADMIN = false
  /\ rp_has_endpoint env (p_rpt p) = false.

Lemma option_present_iff (o : option N) (c : bool) :
  match o with Some _ => true | None => false end = c -> ((exists t, o = Some t) <-> c = true).
Proof. intros <-. destruct o; split; [reflexivity | eauto | intros [t Ht]; discriminate | discriminate]. Qed.

Lemma rp_when_nil c code : rp_when c code = [] -> c = false.
Proof. destruct c; [discriminate | reflexivity]. Qed.

Lemma rp_truthful_nil (t q : bool) c1 c2 : rp_when (negb t) c1 ++ rp_when (negb q) c2 = [] -> t = true /\ q = true.
Proof. destruct t, q; cbn; (discriminate || auto). Qed.

Lemma rp_checker_sound env b fa r : rp_check env b fa r = [] -> rp_property env b fa r.
Proof.
  unfold rp_check, rp_property. intros H.
  apply app_eq_nil in H; destruct H as [H0 H].
  apply app_eq_nil in H; destruct H as [H1 H].
  apply app_eq_nil in H; destruct H as [H2 H].
  apply app_eq_nil in H; destruct H as [H3 H].
  apply app_eq_nil in H; destruct H as [H4 H].
  apply app_eq_nil in H; destruct H as [H5 H6].
  apply rp_when_nil in H1, H2, H3, H4, H5, H6.
  split.
  - destruct (rpr_pos r =? SP_RECEIVED) eqn:E0;
      [|destruct (rpr_pos r =? SP_FORWARDED) eqn:E1;
          [|destruct (rpr_pos r =? SP_DELIVERED) eqn:E2; [|destruct (rpr_pos r =? SP_DELETED) eqn:E3; [|discriminate]]]];
      apply rp_truthful_nil in H0; destruct H0 as [A B].
    + apply N.eqb_eq in E0. left. destruct (rpr_reason r =? RR_UNSUPPORTED); auto.
    + apply N.eqb_eq in E1. right; left. auto.
    + apply N.eqb_eq in E2. right; right; left. auto.
    + apply N.eqb_eq in E3. right; right; right. auto.
  - apply orb_false_iff in H1. destruct H1 as [A B]. apply negb_false_iff in A.
    apply negb_false_iff in H2. apply eid_eqb_eq in H2.
    apply negb_false_iff in H3. apply andb_true_iff in H3. destruct H3 as [H3 F4].
    apply andb_true_iff in H3. destruct H3 as [H3 F3]. apply andb_true_iff in H3. destruct H3 as [F1 F2].
    apply eid_eqb_eq in F1. apply N.eqb_eq in F2, F3. apply rp_frag_eqb_eq in F4.
    apply negb_false_iff, Bool.eqb_prop, option_present_iff in H4. destruct H4 as [T1 T2].
    repeat split; auto.
Qed.

Lemma rp_wire_roundtrip : forall r,
  sreport_wf (rp_wire_sreport r) = true ->
  exists bs, rp_wire r = Some bs
             /\ forall rest, dec_admrec (bs ++ rest) = Ok (ARStatus (rp_wire_sreport r)) rest.
Proof.
  intros r H. exists (admrec_bytes (ARStatus (rp_wire_sreport r))). split.
  - unfold rp_wire. apply enc_admrec_ok. exact H.
  - intros rest. unfold dec_admrec. rewrite (yields_to_res _ _ _ (yields_admrec (ARStatus (rp_wire_sreport r)) rest H)). reflexivity.
Qed.
