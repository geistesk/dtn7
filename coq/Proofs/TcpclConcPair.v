(* A PAIR of sessions of Model/TcpclConc.v joined by a bounded duplex transport: the pair as two views
   that share the two transport directions; invariant H ("half", runs without Send timeouts and
   keepalive ticks): for each Send of one side, its segments under way to the other side's
   TransferManager.handle, the acknowledgements under way back, and inTransfers of the other side
   fit together; the shape of a state in which no live process can step, and how many
   unacknowledged segments it needs; the witness schedules and how they are evaluated. *)
From Coq Require Import Lia.
From DTN Require Import Base ListFacts TcpclConc TcpclConcProofs.
Open Scope nat_scope.

Definition tcn_pview (y : tcn_pair) : tcn_view * tcn_view :=
  (tcn_view_of (pa_a y) (pa_ba y) (pa_ab y), tcn_view_of (pa_b y) (pa_ab y) (pa_ba y)).

Definition tcn_relink (v : tcn_view) (li lo : list tcn_msg) : tcn_view :=
  mkV (v_xs v) (v_in v) (v_ops v) li lo (v_h v) (v_rx v) (v_snd v) (v_cl v) (v_rep v) (v_up v).

Definition tcn_sess_of (sd : tcn_side) (y : tcn_pair) : tcn_sess :=
  match sd with SideA => pa_a y | SideB => pa_b y end.

Definition tcn_pswap (y : tcn_pair) : tcn_pair := mkTcnPair (pa_b y) (pa_a y) (pa_ba y) (pa_ab y).

Lemma tcn_pview_swap y : tcn_pview (tcn_pswap y) = (snd (tcn_pview y), fst (tcn_pview y)).
Proof. reflexivity. Qed.

Lemma tcn_pstep_swap cf y q :
  tcn_pstep cf y (SideB, q) = option_map tcn_pswap (tcn_pstep cf (tcn_pswap y) (SideA, q)).
Proof.
  unfold tcn_pstep, tcn_pswap; cbn.
  destruct (tcn_sstep cf (pa_b y) (pa_ab y) (pa_ba y) q) as [[[s li] lo]|]; reflexivity.
Qed.

Definition tcn_linked (x : tcn_view * tcn_view) : Prop :=
  v_li (snd x) = v_lo (fst x) /\ v_lo (snd x) = v_li (fst x).

Lemma tcn_pview_linked y : tcn_linked (tcn_pview y).
Proof. split; reflexivity. Qed.

Lemma tcn_pstep_a_veff cf y q y' :
  tcn_pstep cf y (SideA, q) = Some y' ->
  tcn_veff q (fst (tcn_pview y)) (fst (tcn_pview y'))
  /\ snd (tcn_pview y') = tcn_relink (snd (tcn_pview y)) (v_lo (fst (tcn_pview y'))) (v_li (fst (tcn_pview y'))).
Proof.
  unfold tcn_pstep; cbn.
  destruct (tcn_sstep cf (pa_a y) (pa_ba y) (pa_ab y) q) as [[[s li] lo]|] eqn:E; intros H; inversion H; subst.
  split; [eapply tcn_sstep_veff; exact E|reflexivity].
Qed.

Lemma tcn_rx_get_del_eq rx t : tcn_rx_get (tcn_rx_del rx t) t = 0.
Proof.
  induction rx as [|[k v] rx IH]; cbn; auto.
  destruct (Nat.eqb_spec k t); auto. cbn. destruct (Nat.eqb_spec k t); [congruence|auto].
Qed.
Lemma tcn_rx_get_del_ne rx t t0 : t0 <> t -> tcn_rx_get (tcn_rx_del rx t) t0 = tcn_rx_get rx t0.
Proof.
  intros Hn. induction rx as [|[k v] rx IH]; cbn; auto.
  destruct (Nat.eqb_spec k t).
  - subst. destruct (Nat.eqb_spec t t0); [congruence|auto].
  - cbn. destruct (Nat.eqb_spec k t0); auto.
Qed.
Lemma tcn_rx_get_next_eq rx t last :
  tcn_rx_get (tcn_rx_next rx t last) t = if last then 0 else S (tcn_rx_get rx t).
Proof.
  unfold tcn_rx_next, tcn_rx_set. destruct last; [apply tcn_rx_get_del_eq|].
  cbn. now rewrite Nat.eqb_refl.
Qed.
Lemma tcn_rx_get_next_ne rx t last t0 : t0 <> t -> tcn_rx_get (tcn_rx_next rx t last) t0 = tcn_rx_get rx t0.
Proof.
  intros Hn. unfold tcn_rx_next, tcn_rx_set. destruct last; [apply tcn_rx_get_del_ne; assumption|].
  cbn. destruct (Nat.eqb_spec t t0); [congruence|]. apply tcn_rx_get_del_ne; assumption.
Qed.

Definition tcn_clean (m : tcn_msg) : Prop :=
  match m with CSeg _ _ => True | CAck _ _ => True | _ => False end.

Lemma tcn_clean_noref m : tcn_clean m -> tcn_noref m.
Proof. destruct m; cbn; auto. Qed.

Definition tcn_vclean (v : tcn_view) : Prop :=
  tcn_vgood tcn_clean v /\ Forall tcn_clean (v_ops v ++ v_lo v).

Lemma tcn_veff_vclean q v v' :
  tcn_veff q v v' -> tcn_live q = true -> tcn_lview v -> tcn_alive v -> tcn_vclean v -> tcn_vclean v'.
Proof.
  intros E Lq L Al [G Co]. split.
  - apply (tcn_veff_vgood _ tcn_clean_noref _ _ _ E); auto. intros i ->. discriminate.
  - (* what enters the outgoing pipeline is a segment or an acknowledgement *)
    destruct L as (Hs & Hh & _). destruct E; tcn_vs; try exact Co.
    + revert Co. apply incl_Forall. tcn_incl.
    + discriminate.
    + apply (incl_Forall (l1 := a :: ops ++ lo)); [tcn_incl|constructor; [|exact Co]].
      destruct Hh as (t & k & -> & _). exact I.
    + apply (incl_Forall (l1 := m :: ops ++ lo)); [tcn_incl|constructor; [|exact Co]].
      rewrite (tcn_emput_seg _ _ _ _ Hs Nd Em). exact I.
Qed.

(* of the segments of Send t of vx, vy's handle has taken p: the others are under way to it, the
   acknowledgements for those beyond the acknowledged length of Send t are under way back *)
Definition tcn_half (vx vy : tcn_view) : Prop :=
  forall t, exists p,
    tcn_segstream (v_snd vx) (tcn_inr vy ++ v_ops vx) t p
    /\ tcn_ackstream (v_snd vx)
         (tcn_ackq (v_snd vx) t ++ tcn_hfw (v_h vx) ++ v_xs vx ++ v_in vx ++ tcn_outq vy) t p
    /\ tcn_rx_get (v_rx vy) t = (if p =? tcn_nof (v_snd vx) t then 0 else p).

Lemma tcn_half_own q va va' vb :
  tcn_veff q va va' -> tcn_linked (va, vb) -> tcn_lview va -> tcn_alive va ->
  tcn_half va vb -> tcn_half va' (tcn_relink vb (v_lo va') (v_li va')).
Proof.
  intros E [L1 L2] L Al Hf t. cbn [fst snd] in L1, L2. destruct (Hf t) as (p & Sg & A & Rx). exists p.
  pose proof (tcn_veff_segstream _ _ _ (v_xs vb ++ v_in vb) t p E L) as Gs.
  pose proof (tcn_veff_ackstream _ _ _ (v_ops vb ++ tcn_hak (v_h vb)) t p E L Al) as Ga.
  unfold tcn_back in Ga. unfold tcn_inr, tcn_outq, tcn_relink in *; tcn_vs. rewrite L1 in Sg. rewrite L2 in A.
  rewrite <- !app_assoc in *.
  split; [exact (Gs Sg)|split; [exact (Ga A)|]]. rewrite (tcn_veff_nof _ _ _ _ E). exact Rx.
Qed.

Lemma tcn_next_le_n sn t :
  (forall i d, nth_error sn i = Some d -> tcn_sd_ok i d) -> tcn_nextof sn t <= tcn_nof sn t.
Proof.
  intros Hs. unfold tcn_nextof, tcn_nof, tcn_sdget. destruct (nth_error sn t) as [d|] eqn:N; [|lia].
  destruct (Hs _ _ N) as (_ & H & _). exact H.
Qed.

Lemma tcn_half_peer q va va' vb :
  tcn_veff q va va' -> tcn_lview va -> tcn_lview vb ->
  tcn_half vb va -> tcn_half (tcn_relink vb (v_lo va') (v_li va')) va'.
Proof.
  intros E L (Hsb & _) Hf t0. destruct (Hf t0) as (pp & Sg & A & Rx). clear Hf.
  unfold tcn_relink; tcn_vs.
  destruct (tcn_veff_relay _ _ _ E L) as [(t & last & Ei & Eo & Er & _)|(Ei & Eo & Er & _)].
  - (* handle takes a segment, of the other side's Send t *)
    destruct Sg as [P2 P3], A as [P1 P4]. rewrite Ei in P3. cbn [app filter tcn_is_seg_of] in P3.
    assert (forall l, map tcn_ackk (filter (tcn_is_ack_of t0) (l ++ tcn_outq va')) =
                      map tcn_ackk (filter (tcn_is_ack_of t0) (l ++ tcn_outq va))
                      ++ (if t =? t0 then [S (tcn_rx_get (v_rx va) t)] else [])) as Eo'.
    { intros l. rewrite Eo, app_assoc, filter_app, map_app. cbn. now destruct (t =? t0). }
    unfold tcn_segstream, tcn_ackstream. rewrite Er, !app_assoc, Eo', <- !app_assoc, P4.
    destruct (Nat.eqb_spec t t0) as [<-|Hne].
    + destruct (tcn_nextof (v_snd vb) t - pp) as [|c] eqn:Hc; [discriminate|].
      cbn [seq map] in P3. inversion P3 as [[Hlast P3']]. clear P3.
      pose proof (tcn_next_le_n (v_snd vb) t Hsb) as Hnn.
      assert (pp =? tcn_nof (v_snd vb) t = false) as Hpn by (apply Nat.eqb_neq; lia).
      rewrite Hpn in Rx.
      exists (S pp). split; [split; [lia|]|split; [split; [lia|]|]].
      * replace (tcn_nextof (v_snd vb) t - S pp) with c by lia. exact P3'.
      * rewrite Rx.
        replace (S pp - tcn_inlenof (v_snd vb) t) with (S (pp - tcn_inlenof (v_snd vb) t)) by lia.
        rewrite seq_S. f_equal. f_equal. lia.
      * rewrite tcn_rx_get_next_eq, Rx. reflexivity.
    + exists pp. split; [split; assumption|split; [split; [assumption|apply app_nil_r]|]].
      rewrite tcn_rx_get_next_ne by auto. exact Rx.
  - exists pp. rewrite Er. split; [|split; [|exact Rx]].
    + revert Sg. apply tcn_segstream_ext. now rewrite !filter_app, Ei.
    + revert A. apply tcn_ackstream_ext. now rewrite !filter_app, Eo.
Qed.

Lemma tcn_half_ack_alive va vb t k :
  tcn_lview va -> tcn_vclean va -> tcn_half va vb ->
  In (CAck t k) (tcn_ackq (v_snd va) t ++ tcn_hfw (v_h va) ++ v_xs va ++ v_in va ++ tcn_outq vb) ->
  exists d, nth_error (v_snd va) t = Some d /\ sd_res d = None.
Proof.
  intros (Hs & _) ((_ & C2 & _) & _) Hf. destruct (Hf t) as (p & [Hp _] & A & _).
  exact (tcn_ackstream_alive _ _ _ _ _ (fun i d N => conj (Hs i d N) (C2 i d N)) A Hp).
Qed.

Lemma tcn_half_alive va vb : tcn_lview va -> tcn_vclean va -> tcn_half va vb -> tcn_alive va.
Proof.
  intros L C Hf t k r Hh Hx. eapply tcn_half_ack_alive; eauto.
  rewrite Hx. apply in_or_app; right. apply in_or_app; right. left; reflexivity.
Qed.

Definition tcn_pinv (x : tcn_view * tcn_view) : Prop :=
  tcn_linked x /\ tcn_lview (fst x) /\ tcn_lview (snd x) /\ tcn_vclean (fst x) /\ tcn_vclean (snd x)
  /\ tcn_half (fst x) (snd x) /\ tcn_half (snd x) (fst x).

Lemma tcn_pinv_swap x : tcn_pinv x -> tcn_pinv (snd x, fst x).
Proof.
  intros ((L1 & L2) & La & Lb & Ca & Cb & Hab & Hba). unfold tcn_pinv, tcn_linked; cbn [fst snd].
  split; [split; auto|]. tauto.
Qed.

Ltac tcn_fa := repeat rewrite ?Forall_app, ?Forall_cons_iff, ?Forall_nil_iff in *.

Lemma tcn_pinv_step_a q va va' vb :
  tcn_veff q va va' -> tcn_live q = true ->
  tcn_pinv (va, vb) -> tcn_pinv (va', tcn_relink vb (v_lo va') (v_li va')).
Proof.
  intros E Lq ((L1 & L2) & La & Lb & Ca & Cb & Hab & Hba). cbn [fst snd] in *.
  assert (tcn_alive va) as Al by (eapply tcn_half_alive; eauto).
  pose proof (tcn_veff_lview _ _ _ E La) as La'.
  pose proof (tcn_veff_vclean _ _ _ E Lq La Al Ca) as Ca'.
  unfold tcn_pinv; cbn [fst snd].
  split; [split; reflexivity|]. split; [exact La'|].
  split.
  { destruct Lb as (Hs & Hh & Hib & Hob). destruct La' as (_ & _ & Hi' & Ho').
    unfold tcn_lview, tcn_relink; cbn. tcn_fa. intuition. }
  split; [exact Ca'|].
  split.
  { (* what the transport holds towards B is what A has written, and the other way round *)
    destruct Cb as ((Cb1 & Cb234) & Cbo). destruct Ca' as ((Ca1 & _) & Cao). specialize (Ca1 0).
    split; [split; [intros t; specialize (Cb1 t)|exact Cb234]|];
      unfold tcn_back, tcn_inr, tcn_relink in *; tcn_vs; tcn_fa; intuition. }
  split.
  - eapply tcn_half_own; eauto. split; assumption.
  - eapply tcn_half_peer; eauto.
Qed.

Definition tcn_plive_run (ps : list (tcn_side * tcn_proc)) : Prop :=
  Forall (fun p => tcn_live (snd p) = true) ps.

Lemma tcn_pstep_pinv cf y p y' :
  tcn_pstep cf y p = Some y' -> tcn_live (snd p) = true -> tcn_pinv (tcn_pview y) -> tcn_pinv (tcn_pview y').
Proof.
  destruct p as [[|] q]; cbn [snd]; intros E Lq I.
  - apply tcn_pstep_a_veff in E as [E1 E2].
    destruct (tcn_pview y) as [va vb] eqn:V. destruct (tcn_pview y') as [va' vb'] eqn:V'. cbn [fst snd] in *.
    subst vb'. eapply tcn_pinv_step_a; eauto.
  - rewrite tcn_pstep_swap in E.
    destruct (tcn_pstep cf (tcn_pswap y) (SideA, q)) as [z|] eqn:E'; inversion E; subst y'. clear E.
    apply tcn_pstep_a_veff in E' as [E1 E2].
    apply tcn_pinv_swap in I. rewrite <- tcn_pview_swap in I.
    destruct (tcn_pview (tcn_pswap y)) as [va vb] eqn:V. destruct (tcn_pview z) as [va' vb'] eqn:V'. cbn [fst snd] in *.
    subst vb'.
    pose proof (tcn_pinv_step_a _ _ _ _ E1 Lq I) as I'. rewrite <- V' in I'.
    apply tcn_pinv_swap in I'. rewrite <- tcn_pview_swap in I'.
    destruct z; exact I'.
Qed.

Lemma tcn_prun_pinv cf ps : forall y y',
  tcn_prun cf y ps = Some y' -> tcn_plive_run ps -> tcn_pinv (tcn_pview y) -> tcn_pinv (tcn_pview y').
Proof.
  induction ps as [|p ps IH]; intros y y' R Lv I; cbn in R.
  - inversion R; subst; exact I.
  - destruct (tcn_pstep cf y p) as [y1|] eqn:E; [|discriminate].
    apply Forall_cons_iff in Lv as [Lp Lv].
    eapply IH; [exact R|exact Lv|]. eapply tcn_pstep_pinv; eauto.
Qed.

Lemma tcn_pinv_init nsa nsb ta tb :
  Forall (fun n => 1 <= n) nsa -> Forall (fun n => 1 <= n) nsb ->
  tcn_pinv (tcn_pview (tcn_pair0 nsa nsb ta tb)).
Proof.
  intros Ha Hb.
  assert (forall ns tk, tcn_vclean (tcn_view_of (tcn_sess0 ns tk) tcn_link0 tcn_link0)) as Hc
    by (intros; split; [apply tcn_vgood_init|constructor]).
  assert (forall ns tk ns' tk', Forall (fun n => 1 <= n) ns ->
            tcn_half (tcn_view_of (tcn_sess0 ns tk) tcn_link0 tcn_link0)
                     (tcn_view_of (tcn_sess0 ns' tk') tcn_link0 tcn_link0)) as Hh.
  { intros ns tk ns' tk' Hn t. exists 0.
    unfold tcn_segstream, tcn_ackstream, tcn_inlenof, tcn_nextof, tcn_nof, tcn_emh, tcn_ackq, tcn_sdget. cbn.
    rewrite nth_error_map. destruct (nth_error ns t) as [n|] eqn:N; cbn; [|auto 6].
    assert (1 <= n) by (eapply Forall_forall in Hn; [exact Hn|eapply nth_error_In; eauto]).
    destruct n; [lia|auto 6]. }
  split; [split; reflexivity|]. cbn [fst snd tcn_pview tcn_pair0 pa_a pa_b pa_ab pa_ba].
  auto 10 using tcn_init_lview.
Qed.

(* the transport towards a stuck session is full: then everything from its reader to its writer
   is full, with the stage inside messageOut *)
Definition tcn_jammed (cf : tcn_conf) (s : tcn_sess) (li : tcn_link) : Prop :=
  (exists m, lk_h li = Some m) /\ cf_T cf <= length (lk_q li) /\ cf_in cf <= length (tcn_in s)
  /\ (exists o, tcn_st_out (tcn_st s) = [o]) /\ cf_out cf <= length (tcn_out s) /\ (exists w, tcn_wh s = Some w).

Lemma tcn_sstuck_jam cf s li lo m0 :
  cf_fix cf = true -> tcn_caps_ok cf -> tcn_sstuck cf s li lo -> tcn_hfw_alive s ->
  tcn_link_write (cf_T cf) li m0 = None -> tcn_jammed cf s li.
Proof.
  intros Fx Cp Sp Hal Hw.
  destruct (tcn_sstuck_handle cf s li lo Cp Sp Hal) as (Hrep & Hcl & Hh).
  destruct Cp as (Ci & Co & Cxi & Cxo & Ca & Cr).
  destruct s as [inq out wh st xin xout h rx sn cl rep up ticks]. cbn in *. subst rep cl.
  destruct li as [qi hi]. unfold tcn_jammed; cbn.
  assert ((exists m, hi = Some m) /\ cf_T cf <= length qi) as [[m1 ->] HT].
  { pose proof (Sp PRRead eq_refl) as W. cbn in W.
    unfold tcn_link_write in Hw; cbn [lk_h lk_q] in Hw. destruct (cf_T cf) as [|T].
    - destruct hi as [m|]; [split; [eauto|lia]|]. destruct qi; discriminate.
    - destruct (Nat.ltb_spec (length qi) (S T)); [discriminate|].
      destruct hi as [m|]; [split; [eauto|lia]|]. destruct qi; [cbn in *; lia|discriminate]. }
  split; [eauto|]. split; [assumption|].
  assert (cf_in cf <= length inq) as Hin.
  { pose proof (Sp PRPush eq_refl) as W. cbn in W. unfold tcn_put in W.
    destruct (Nat.ltb_spec (length inq) (cf_in cf)); [discriminate|assumption]. }
  split; [assumption|].
  assert (exists o, tcn_st_out st = [o]) as Hso.
  { destruct st as [|o|m|m o]; cbn; eauto; exfalso.
    - pose proof (Sp PStIn eq_refl) as W. cbn in W. destruct inq; [cbn in *; lia|discriminate].
    - pose proof (Sp PStIn eq_refl) as W. cbn in W.
      pose proof (Sp PStOut eq_refl) as W2. cbn in W2. rewrite Fx in W2.
      destruct xout; [|discriminate].
      destruct Hh as [[-> ->]|(a & fin & _ & Hl)]; [|cbn in Hl; lia].
      rewrite (tcn_put_nil _ _ Cxi) in W. discriminate. }
  split; [assumption|].
  assert (cf_out cf <= length out) as Hout.
  { pose proof (Sp PStPut eq_refl) as W. cbn in W. destruct Hso as [o Ho].
    destruct st as [|o'|m|m o']; cbn in Ho; try discriminate; unfold tcn_put in W;
      destruct (Nat.ltb_spec (length out) (cf_out cf)); try discriminate; assumption. }
  split; [assumption|].
  pose proof (Sp PWTake eq_refl) as W. cbn in W.
  destruct wh as [w|]; [eauto|]. destruct out; [cbn in *; lia|discriminate].
Qed.

Lemma tcn_pstuck_spec cf y :
  tcn_pstuck cf y = true ->
  tcn_sstuck cf (pa_a y) (pa_ba y) (pa_ab y) /\ tcn_sstuck cf (pa_b y) (pa_ab y) (pa_ba y).
Proof.
  unfold tcn_pstuck. intros F. rewrite forallb_forall in F.
  assert (forall sd q, tcn_live q = true -> tcn_pstep cf y (sd, q) = None) as G.
  { intros sd q Lq. destruct (tcn_procs_in q (length (tcn_snd (tcn_sess_of sd y)))) as [Hq|(i & Hi & Hq)].
    - assert (In (sd, q) (tcn_pprocs y)) as Hin
        by (unfold tcn_pprocs; apply in_or_app; destruct sd; [left|right]; apply in_map; assumption).
      specialize (F _ Hin). cbn [snd] in F. rewrite Lq in F.
      destruct (tcn_pstep cf y (sd, q)); [discriminate|reflexivity].
    - unfold tcn_pstep. destruct sd; cbn [fst snd]; now rewrite (tcn_sstep_out_of_range cf _ _ _ i q Hi Hq). }
  split; intros q Lq; [specialize (G SideA q Lq)|specialize (G SideB q Lq)]; unfold tcn_pstep in G; cbn in G;
    destruct (tcn_sstep cf _ _ _ q) as [[[? ?] ?]|]; [discriminate|reflexivity|discriminate|reflexivity].
Qed.

Lemma tcn_pinv_hfw_alive s li lo vy :
  tcn_lview (tcn_view_of s li lo) -> tcn_vclean (tcn_view_of s li lo) -> tcn_half (tcn_view_of s li lo) vy ->
  tcn_hfw_alive s.
Proof.
  intros L C Hf. apply (tcn_vgood_hfw_alive tcn_clean s li lo tcn_clean_noref L (proj1 C)).
  intros t k Hh. apply (tcn_half_ack_alive _ vy t k L C Hf).
  cbn. rewrite Hh. cbn. apply in_or_app; right. left; reflexivity.
Qed.

Lemma tcn_pstuck_shape cf y :
  cf_fix cf = true -> tcn_caps_ok cf -> tcn_pinv (tcn_pview y) -> tcn_pstuck cf y = true ->
  (tcn_quiet (pa_a y) /\ tcn_quiet (pa_b y) /\ pa_ab y = tcn_link0 /\ pa_ba y = tcn_link0)
  \/ (tcn_jammed cf (pa_a y) (pa_ba y) /\ tcn_jammed cf (pa_b y) (pa_ab y)).
Proof.
  intros Fx Cp (_ & La & Lb & Ca & Cb & Hab & Hba) St. cbn [fst snd tcn_pview] in *.
  destruct (tcn_pstuck_spec cf y St) as [Sa Sb].
  pose proof (tcn_pinv_hfw_alive _ _ _ _ La Ca Hab) as Ala.
  pose proof (tcn_pinv_hfw_alive _ _ _ _ Lb Cb Hba) as Alb.
  destruct (tcn_sstuck_cases cf _ _ _ Fx Cp Sa Ala) as [[Qa Ea]|(ma & Wa & Fa)];
    destruct (tcn_sstuck_cases cf _ _ _ Fx Cp Sb Alb) as [[Qb Eb]|(mb & Wb & Fb)].
  - left. auto.
  - exfalso. rewrite Ea in Fb. destruct (tcn_link_write_empty (cf_T cf) mb) as [l Hl]. congruence.
  - exfalso. rewrite Eb in Fa. destruct (tcn_link_write_empty (cf_T cf) ma) as [l Hl]. congruence.
  - right. split.
    + eapply tcn_sstuck_jam; eauto.
    + eapply tcn_sstuck_jam; eauto.
Qed.

Lemma tcn_quiet_all_ok sx sy lab lba :
  tcn_quiet sx -> tcn_quiet sy -> lab = tcn_link0 -> lba = tcn_link0 ->
  tcn_lview (tcn_view_of sx lba lab) -> tcn_vclean (tcn_view_of sx lba lab) ->
  tcn_half (tcn_view_of sx lba lab) (tcn_view_of sy lab lba) ->
  tcn_all_ok sx = true.
Proof.
  intros (Qw & Qo & Qs & Qi & Qxi & Qxo & Qh & Qr & Qc & Qd) (Qw' & Qo' & Qs' & Qi' & Qxi' & Qxo' & Qh' & _)
         -> -> (Hs & _) ((_ & C2 & _) & _) Hf.
  unfold tcn_all_ok. apply forallb_forall. intros d Hin.
  apply In_nth_error in Hin as [i Nd].
  destruct (Qd _ _ Nd) as [Hem Hq]. pose proof (C2 _ _ Nd) as Hstop. pose proof (Hs _ _ Nd) as Hd.
  destruct (Hf i) as (p & [Hp Sg] & A & _).
  unfold tcn_inr, tcn_outq, tcn_ackq, tcn_emh, tcn_emof, tcn_nextof, tcn_nof, tcn_sdget in Hp, Sg, A.
  cbn in Hp, Sg, A. rewrite Nd in Hp, Sg, A.
  rewrite Qw, Qo, Qs, Qxo, Qi', Qxi', Qs', Hem in Sg. rewrite Qh, Qxi, Qs, Qi, Qw', Qo', Qs', Qxo', Qh' in A.
  cbn in Sg, A. rewrite app_nil_r in A.
  (* no segment is under way: handle on the other side has taken all n *)
  assert (p = sd_n d) as ->.
  { destruct Hd as (_ & _ & _ & He & _). rewrite Hem in He. destruct (proj1 He Hstop) as [Hnext _].
    symmetry in Sg. apply map_eq_nil in Sg. destruct (sd_next d - p) eqn:Hc; [lia|discriminate]. }
  now rewrite (tcn_quiet_send_ok _ i d Hd Nd Hstop Hem Hq A).
Qed.

Definition tcn_sum (s : nat) (F : nat -> nat) : nat := list_sum (map F (seq 0 s)).

Lemma tcn_sum_S s F : tcn_sum (S s) F = tcn_sum s F + F s.
Proof. unfold tcn_sum. rewrite seq_S, map_app, list_sum_app. cbn. lia. Qed.
Lemma tcn_sum_le s F G : (forall t, t < s -> F t <= G t) -> tcn_sum s F <= tcn_sum s G.
Proof.
  induction s; intros H; [reflexivity|]. rewrite !tcn_sum_S.
  assert (tcn_sum s F <= tcn_sum s G) by (apply IHs; intros; apply H; lia).
  assert (F s <= G s) by (apply H; lia). lia.
Qed.
Lemma tcn_sum_ext s F G : (forall t, t < s -> F t = G t) -> tcn_sum s F = tcn_sum s G.
Proof.
  induction s; intros H; [reflexivity|]. rewrite !tcn_sum_S. rewrite IHs by (intros; apply H; lia).
  rewrite H by lia. reflexivity.
Qed.
Lemma tcn_sum_add s F G : tcn_sum s (fun t => F t + G t) = tcn_sum s F + tcn_sum s G.
Proof. induction s; [reflexivity|]. rewrite !tcn_sum_S, IHs. lia. Qed.
Lemma tcn_sum_ind s t : tcn_sum s (fun t' => if t =? t' then 1 else 0) = if t <? s then 1 else 0.
Proof.
  induction s; [reflexivity|]. rewrite tcn_sum_S, IHs.
  destruct (Nat.ltb_spec t s), (Nat.ltb_spec t (S s)), (Nat.eqb_spec t s); lia.
Qed.
Lemma tcn_sum_shift s F : tcn_sum (S s) F = F 0 + tcn_sum s (fun t => F (S t)).
Proof. unfold tcn_sum. cbn [seq map list_sum]. rewrite <- seq_shift, map_map. reflexivity. Qed.

(* f t = "belongs to transfer t", g = "belongs to some transfer" *)
Lemma tcn_count_sum (f : nat -> tcn_msg -> bool) (g : tcn_msg -> bool) s L :
  (forall m, g m = true -> exists t, forall t', f t' m = (t =? t')) ->
  (forall m, g m = false -> forall t', f t' m = false) ->
  (forall t, s <= t -> filter (f t) L = []) ->
  length (filter g L) = tcn_sum s (fun t => length (filter (f t) L)).
Proof.
  intros H1 H2. induction L as [|m L IH]; intros H3.
  - cbn. unfold tcn_sum. induction (seq 0 s); cbn; auto.
  - assert (forall t, s <= t -> filter (f t) L = []) as H3'.
    { intros t Ht. specialize (H3 t Ht). cbn in H3. destruct (f t m); [discriminate|assumption]. }
    specialize (IH H3'). cbn [filter]. destruct (g m) eqn:G.
    + destruct (H1 m G) as [t Ht].
      assert (t < s) as Hlt.
      { destruct (Nat.lt_ge_cases t s) as [|Hge]; [assumption|].
        specialize (H3 t Hge). cbn in H3. rewrite Ht, Nat.eqb_refl in H3. discriminate. }
      cbn [length]. rewrite IH.
      rewrite (tcn_sum_ext s (fun t0 => length (if f t0 m then m :: filter (f t0) L else filter (f t0) L))
                 (fun t0 => (if t =? t0 then 1 else 0) + length (filter (f t0) L))).
      * rewrite tcn_sum_add, tcn_sum_ind. destruct (Nat.ltb_spec t s); lia.
      * intros t0 _. rewrite Ht. destruct (t =? t0); reflexivity.
    + rewrite IH. apply tcn_sum_ext. intros t0 _. rewrite (H2 m G). reflexivity.
Qed.

Lemma tcn_clean_split L :
  Forall tcn_clean L -> length L = length (filter tcn_is_seg L) + length (filter tcn_is_ack L).
Proof.
  induction 1 as [|m L Hm _ IH]; [reflexivity|]. destruct m; cbn in *; try (destruct Hm); lia.
Qed.

(* the unacknowledged segments of the Sends of a session *)
Definition tcn_inflight (s : tcn_sess) : nat :=
  list_sum (map (fun d => sd_next d - sd_inlen d) (tcn_snd s)).

Lemma tcn_inflight_sum sn :
  list_sum (map (fun d => sd_next d - sd_inlen d) sn)
  = tcn_sum (length sn) (fun t => tcn_nextof sn t - tcn_inlenof sn t).
Proof.
  induction sn as [|d sn IH]; [reflexivity|].
  change (length (d :: sn)) with (S (length sn)). rewrite tcn_sum_shift.
  change (list_sum (map (fun d0 => sd_next d0 - sd_inlen d0) (d :: sn)))
    with ((sd_next d - sd_inlen d) + list_sum (map (fun d0 => sd_next d0 - sd_inlen d0) sn)).
  rewrite IH. reflexivity.
Qed.

(* segments of this side's Sends under way forward, and their acknowledgements under way back,
   are unacknowledged segments of this side *)
Lemma tcn_half_count va vb :
  tcn_half va vb ->
  length (filter tcn_is_seg (v_in vb ++ v_li vb ++ v_ops va))
  + length (filter tcn_is_ack (v_in va ++ v_lo vb ++ v_ops vb))
  <= tcn_sum (length (v_snd va)) (fun t => tcn_nextof (v_snd va) t - tcn_inlenof (v_snd va) t).
Proof.
  intros Hf.
  assert (forall t, length (filter (tcn_is_seg_of t) (v_in vb ++ v_li vb ++ v_ops va))
                    + length (filter (tcn_is_ack_of t) (v_in va ++ v_lo vb ++ v_ops vb))
                    <= tcn_nextof (v_snd va) t - tcn_inlenof (v_snd va) t) as Hle.
  { intros t. destruct (Hf t) as (pp & [P2 P3] & [P1 P4] & _). unfold tcn_inr, tcn_outq in *.
    apply (f_equal (@length _)) in P3. apply (f_equal (@length _)) in P4.
    rewrite app_length, map_length, seq_length in P3. rewrite map_length, seq_length in P4.
    rewrite !filter_app, !app_length in *. lia. }
  assert (forall t, length (v_snd va) <= t ->
                    filter (tcn_is_seg_of t) (v_in vb ++ v_li vb ++ v_ops va) = []
                    /\ filter (tcn_is_ack_of t) (v_in va ++ v_lo vb ++ v_ops vb) = []) as Hout.
  { intros t Ht. specialize (Hle t). unfold tcn_nextof, tcn_inlenof, tcn_sdget in Hle.
    rewrite (proj2 (nth_error_None _ _) Ht) in Hle. split; apply length_zero_iff_nil; lia. }
  rewrite (tcn_count_sum tcn_is_seg_of tcn_is_seg (length (v_snd va))),
          (tcn_count_sum tcn_is_ack_of tcn_is_ack (length (v_snd va))).
  - rewrite <- tcn_sum_add. apply tcn_sum_le. intros t _. apply Hle.
  - intros m G. destruct m; try discriminate. exists t. intros t'. reflexivity.
  - intros m G t'. destruct m; try discriminate; reflexivity.
  - apply Hout.
  - intros m G. destruct m; try discriminate. exists t. intros t'. reflexivity.
  - intros m G t'. destruct m; try discriminate; reflexivity.
  - apply Hout.
Qed.

Definition tcn_stall_need (cf : tcn_conf) : nat := 2 * (cf_in cf + cf_out cf + cf_T cf + 3).

Lemma tcn_jam_count cf sx lix lox sy :
  tcn_jammed cf sy lox -> cf_out cf <= length (tcn_out sx) -> (exists o, tcn_st_out (tcn_st sx) = [o]) ->
  (exists w, tcn_wh sx = Some w) ->
  cf_in cf + cf_out cf + cf_T cf + 3
  <= length (v_in (tcn_view_of sy lox lix) ++ v_lo (tcn_view_of sx lix lox) ++ v_ops (tcn_view_of sx lix lox)).
Proof.
  intros ((m & Hh) & HT & Hin & _) Hout (o & Ho) (w & Hw).
  unfold tcn_view_of, tcn_lk; cbn. rewrite Hh, Hw, Ho.
  repeat (rewrite ?app_length; cbn [length app tcn_oh]). lia.
Qed.

(* a stall of the pair that is not the end of all Sends needs that many unacknowledged segments *)
Lemma tcn_pair_stall_needs cf y :
  cf_fix cf = true -> tcn_caps_ok cf -> tcn_pinv (tcn_pview y) ->
  tcn_pstuck cf y = true -> tcn_pdone y = false ->
  tcn_jammed cf (pa_a y) (pa_ba y) /\ tcn_jammed cf (pa_b y) (pa_ab y)
  /\ tcn_stall_need cf <= tcn_inflight (pa_a y) + tcn_inflight (pa_b y).
Proof.
  intros Fx Cp I St Nd.
  destruct (tcn_pstuck_shape cf y Fx Cp I St) as [(Qa & Qb & Eab & Eba)|[Ja Jb]].
  - exfalso. destruct I as (_ & La & Lb & Ca & Cb & Hab & Hba). cbn [fst snd tcn_pview] in *.
    unfold tcn_pdone in Nd.
    rewrite (tcn_quiet_all_ok _ _ _ _ Qa Qb Eab Eba La Ca Hab) in Nd.
    rewrite (tcn_quiet_all_ok _ _ _ _ Qb Qa Eba Eab Lb Cb Hba) in Nd. discriminate.
  - split; [assumption|split; [assumption|]].
    destruct I as (_ & La & Lb & Ca & Cb & Hab & Hba). cbn [fst snd tcn_pview] in *.
    pose proof (tcn_half_count _ _ Hab) as Na. pose proof (tcn_half_count _ _ Hba) as Nb.
    unfold tcn_inflight. rewrite !tcn_inflight_sum.
    change (tcn_snd (pa_a y)) with (v_snd (tcn_view_of (pa_a y) (pa_ba y) (pa_ab y))).
    change (tcn_snd (pa_b y)) with (v_snd (tcn_view_of (pa_b y) (pa_ab y) (pa_ba y))).
    pose proof Ja as (_ & _ & _ & Hoa & Houta & Hwa). pose proof Jb as (_ & _ & _ & Hob & Houtb & Hwb).
    pose proof (tcn_jam_count cf (pa_a y) (pa_ba y) (pa_ab y) (pa_b y) Jb Houta Hoa Hwa) as Fa.
    pose proof (tcn_jam_count cf (pa_b y) (pa_ab y) (pa_ba y) (pa_a y) Ja Houtb Hob Hwb) as Fb.
    rewrite tcn_clean_split in Fa, Fb
      by (destruct Ca as ((Ca1 & _) & Cao), Cb as ((Cb1 & _) & Cbo); specialize (Ca1 0); specialize (Cb1 0);
          unfold tcn_back, tcn_inr in *; tcn_fa; intuition).
    unfold tcn_stall_need, tcn_view_of in *. tcn_vs. lia.
Qed.

Lemma tcn_pstep_n cf y p y' :
  tcn_pstep cf y p = Some y' ->
  map sd_n (tcn_snd (pa_a y')) = map sd_n (tcn_snd (pa_a y))
  /\ map sd_n (tcn_snd (pa_b y')) = map sd_n (tcn_snd (pa_b y)).
Proof.
  destruct p as [[|] q]; unfold tcn_pstep; cbn.
  - destruct (tcn_sstep cf (pa_a y) (pa_ba y) (pa_ab y) q) as [[[s li] lo]|] eqn:E; intros H; inversion H; subst; cbn.
    split; [|reflexivity]. apply tcn_sstep_veff in E. apply tcn_veff_n in E. exact E.
  - destruct (tcn_sstep cf (pa_b y) (pa_ab y) (pa_ba y) q) as [[[s li] lo]|] eqn:E; intros H; inversion H; subst; cbn.
    split; [reflexivity|]. apply tcn_sstep_veff in E. apply tcn_veff_n in E. exact E.
Qed.
Lemma tcn_prun_n cf ps : forall y y',
  tcn_prun cf y ps = Some y' ->
  map sd_n (tcn_snd (pa_a y')) = map sd_n (tcn_snd (pa_a y))
  /\ map sd_n (tcn_snd (pa_b y')) = map sd_n (tcn_snd (pa_b y)).
Proof.
  induction ps as [|p ps IH]; intros y y' R; cbn in R.
  - inversion R; auto.
  - destruct (tcn_pstep cf y p) as [y1|] eqn:E; [|discriminate].
    destruct (tcn_pstep_n _ _ _ _ E) as [E1 E2]. destruct (IH _ _ R) as [F1 F2]. split; congruence.
Qed.

Lemma tcn_inflight_le s :
  (forall i d, nth_error (tcn_snd s) i = Some d -> tcn_sd_ok i d) ->
  tcn_inflight s <= list_sum (map sd_n (tcn_snd s)).
Proof.
  intros Hs. apply list_sum_map_le. intros d Hin. apply In_nth_error in Hin as [i N].
  destruct (Hs _ _ N) as (_ & H & _). lia.
Qed.

Lemma tcn_pstuck_false cf y :
  tcn_pstuck cf y = false -> exists p y', tcn_live (snd p) = true /\ tcn_pstep cf y p = Some y'.
Proof.
  intros F. apply forallb_false_ex in F as (p & _ & Hp).
  apply orb_false_iff in Hp as [H1 H2]. apply negb_false_iff in H1.
  destruct (tcn_pstep cf y p) as [y'|] eqn:E; [|discriminate]. eauto.
Qed.

(* ... so with fewer segments to send altogether the pair cannot stall *)
Lemma tcn_pair_progress_small cf nsa nsb ta tb ps y :
  cf_fix cf = true -> tcn_caps_ok cf ->
  Forall (fun n => 1 <= n) nsa -> Forall (fun n => 1 <= n) nsb ->
  list_sum nsa + list_sum nsb < tcn_stall_need cf ->
  tcn_prun cf (tcn_pair0 nsa nsb ta tb) ps = Some y -> tcn_plive_run ps ->
  (exists p y', tcn_live (snd p) = true /\ tcn_pstep cf y p = Some y') \/ tcn_pdone y = true.
Proof.
  intros Fx Cp Ha Hb Hsmall R Lv.
  destruct (tcn_pstuck cf y) eqn:St; [|left; apply tcn_pstuck_false; assumption].
  destruct (tcn_pdone y) eqn:Nd; [right; reflexivity|]. exfalso.
  pose proof (tcn_prun_pinv cf ps _ _ R Lv (tcn_pinv_init nsa nsb ta tb Ha Hb)) as I.
  destruct (tcn_pair_stall_needs cf y Fx Cp I St Nd) as (_ & _ & Hneed).
  destruct (tcn_prun_n cf ps _ _ R) as [Na Nb]. cbn in Na, Nb.
  rewrite map_map in Na, Nb. cbn in Na, Nb. rewrite map_id in Na, Nb.
  destruct I as (_ & (Hsa & _) & (Hsb & _) & _). cbn [fst snd tcn_pview] in *.
  pose proof (tcn_inflight_le (pa_a y) Hsa) as Ia. pose proof (tcn_inflight_le (pa_b y) Hsb) as Ib.
  rewrite Na in Ia. rewrite Nb in Ib. lia.
Qed.

Definition tcn_on (sd : tcn_side) (l : list tcn_proc) : list (tcn_side * tcn_proc) := map (pair sd) l.
Definition tcn_emits (s : nat) : list tcn_proc := map PEmit (seq 0 s).
Definition tcn_mains (s : nat) : list tcn_proc := flat_map (fun i => [PSendLen i; PSendAck i]) (seq 0 s).
Definition tcn_plive_runb (ps : list (tcn_side * tcn_proc)) : bool := forallb (fun p => tcn_live (snd p)) ps.
Lemma tcn_plive_runb_ok ps : tcn_plive_runb ps = true -> tcn_plive_run ps.
Proof. unfold tcn_plive_runb, tcn_plive_run. rewrite forallb_forall, Forall_forall. auto. Qed.

(* both directions: everything that moves segments towards the transport first, reading last *)
Definition tcn_prio_both (s : nat) : list (tcn_side * tcn_proc) :=
  tcn_on SideA (tcn_emits s ++ [PStOut; PStPut; PWTake; PWWrite; PRRead; PRPush])
  ++ tcn_on SideB (tcn_emits s ++ [PStOut; PStPut; PWTake; PWWrite; PRRead; PRPush])
  ++ tcn_on SideA ([PStIn; PH; PClient; PUpper] ++ tcn_mains s)
  ++ tcn_on SideB ([PStIn; PH; PClient; PUpper] ++ tcn_mains s).
Definition tcn_both_run (cf : tcn_conf) (s : nat) : list (tcn_side * tcn_proc) * tcn_pair :=
  tcn_phases (tcn_pstep cf) (tcn_pair0 (repeat 1 s) (repeat 1 s) 0 0) [(tcn_prio_both s, 100 * s)].

(* one direction: first the Sends 0..k-1 of A run while A's stage never takes from its inChan (the
   acknowledgements pile up towards A), then all of A's Sends *)
Definition tcn_prio_one1 (k : nat) : list (tcn_side * tcn_proc) :=
  tcn_on SideA (tcn_emits k ++ [PStOut; PStPut; PWTake; PWWrite; PRRead; PRPush])
  ++ tcn_on SideB [PRRead; PRPush; PStIn; PH; PStOut; PStPut; PWTake; PWWrite; PClient; PUpper].
Definition tcn_prio_one2 (s : nat) : list (tcn_side * tcn_proc) :=
  tcn_on SideA (tcn_emits s ++ [PStOut; PStPut; PWTake; PWWrite; PRRead; PRPush])
  ++ tcn_on SideB [PRRead; PRPush; PStOut; PStPut; PWTake; PWWrite; PClient; PUpper; PStIn; PH]
  ++ tcn_on SideA ([PStIn; PH] ++ tcn_mains s).
Definition tcn_one_run (cf : tcn_conf) (k s : nat) : list (tcn_side * tcn_proc) * tcn_pair :=
  tcn_phases (tcn_pstep cf) (tcn_pair0 (repeat 1 s) [] 0 0)
             [(tcn_prio_one1 k, 100 * s); (tcn_prio_one2 s, 100 * s)].

(* what a witness schedule has to show *)
Definition tcn_pair_stall_check (cf : tcn_conf) (nsa nsb : list nat) (ps : list (tcn_side * tcn_proc)) : bool :=
  match tcn_prun cf (tcn_pair0 nsa nsb 0 0) ps with
  | Some y => tcn_plive_runb ps && tcn_pstuck cf y && negb (tcn_pdone y)
  | None => false
  end.
Definition tcn_pair_done_check (cf : tcn_conf) (nsa nsb : list nat) (ps : list (tcn_side * tcn_proc)) : bool :=
  match tcn_prun cf (tcn_pair0 nsa nsb 0 0) ps with
  | Some y => tcn_plive_runb ps && tcn_pstuck cf y && tcn_pdone y
  | None => false
  end.

Lemma tcn_pair_stall_check_ok cf nsa nsb ps :
  tcn_pair_stall_check cf nsa nsb ps = true ->
  exists y, tcn_prun cf (tcn_pair0 nsa nsb 0 0) ps = Some y /\ tcn_plive_run ps
            /\ tcn_pstuck cf y = true /\ tcn_pdone y = false.
Proof.
  unfold tcn_pair_stall_check. destruct (tcn_prun cf (tcn_pair0 nsa nsb 0 0) ps) as [y|]; [|discriminate].
  intros H. apply andb_true_iff in H as [H H3]. apply andb_true_iff in H as [H1 H2].
  exists y. repeat split; auto using tcn_plive_runb_ok. now apply negb_true_iff.
Qed.

(* [tcn_greedy] looks at every step for the first process of its priority list that can step; the
   lists above name each Send of each side three times, and reaching the i-th costs i steps in
   [nth_error], so nearly all of an evaluation of [tcn_both_run] or [tcn_one_run] goes into finding
   out that the Sends cannot step (expensive for the kernel's lazy machine, which is all coqchk
   has).  One pass over [tcn_snd] finds the first Send that can step. *)
Section Finders.
Context {St P : Type} (step : St -> P -> option St).

Lemma tcn_first_app y l1 l2 :
  tcn_first step y (l1 ++ l2)
  = match tcn_first step y l1 with Some r => Some r | None => tcn_first step y l2 end.
Proof. induction l1 as [|p l1 IH]; cbn; [reflexivity|]. destruct (step y p); [reflexivity|exact IH]. Qed.

Lemma tcn_first_some y prio p y' : tcn_first step y prio = Some (p, y') -> step y p = Some y' /\ In p prio.
Proof.
  induction prio as [|q r IH]; cbn; [discriminate|].
  destruct (step y q) eqn:E; intros H; [inversion H; subst; auto|]. destruct (IH H); auto.
Qed.

(* a priority list cut into pieces, each with its own way of finding its first process that can step *)
Fixpoint tcn_first_of (fs : list (St -> option (P * St))) (y : St) : option (P * St) :=
  match fs with
  | [] => None
  | f :: fs => match f y with Some r => Some r | None => tcn_first_of fs y end
  end.

(* [tcn_greedy] and [tcn_phases] over such a [first] *)
Fixpoint tcn_greedy_f (first : St -> option (P * St)) (fuel : nat) (y : St) : list P * St :=
  match fuel with
  | O => ([], y)
  | S f =>
    match first y with
    | Some (p, y') => let r := tcn_greedy_f first f y' in (p :: fst r, snd r)
    | None => ([], y)
    end
  end.
Fixpoint tcn_phases_f (y : St) (phs : list ((St -> option (P * St)) * nat)) : list P * St :=
  match phs with
  | [] => ([], y)
  | (first, fuel) :: r =>
    let a := tcn_greedy_f first fuel y in
    let b := tcn_phases_f (snd a) r in
    (fst a ++ fst b, snd b)
  end.

Lemma tcn_greedy_f_ok first prio :
  (forall y, first y = tcn_first step y prio) ->
  forall fuel y, tcn_greedy_f first fuel y = tcn_greedy step fuel y prio.
Proof.
  intros H. induction fuel as [|f IH]; intros y; cbn; [reflexivity|].
  rewrite H. destruct (tcn_first step y prio) as [[p y']|]; [|reflexivity]. now rewrite IH.
Qed.

Lemma tcn_phases_f_ok phs_f phs :
  Forall2 (fun a b => (forall y, fst a y = tcn_first step y (fst b)) /\ snd a = snd b) phs_f phs ->
  forall y, tcn_phases_f y phs_f = tcn_phases step y phs.
Proof.
  induction 1 as [|[first fuel] [prio fuel'] phs_f phs [H E] _ IH]; intros y; cbn in *; [reflexivity|].
  subst fuel'. now rewrite (tcn_greedy_f_ok _ _ H), IH.
Qed.
End Finders.

(* One pass over [tcn_snd] (sn: from its i-th element on) for the first of the next k Sends that can step.
   Two copies, [tcn_emit_scan] for the emitting goroutines and [tcn_main_scan] for the main loops: with the
   test passed as a function the kernel's machine takes half as long again. *)
Definition tcn_scans (dis : tcn_send -> bool) (scan : nat -> nat -> list tcn_send -> option nat) : Prop :=
  forall k i sn, scan k i sn = match k, sn with
                               | S k', d :: sn' => if dis d then scan k' (S i) sn' else Some i
                               | _, _ => None
                               end.

(* [lab i]: the processes of Send i in the priority list *)
Lemma tcn_scan_ok cf sd y dis scan (lab : nat -> list tcn_proc) :
  tcn_scans dis scan ->
  (forall i, let r := tcn_first (tcn_pstep cf) y (tcn_on sd (lab i)) in
             match nth_error (tcn_snd (tcn_sess_of sd y)) i with
             | Some d => if dis d then r = None else r <> None
             | None => r = None
             end) ->
  forall k i sn, (forall j, nth_error sn j = nth_error (tcn_snd (tcn_sess_of sd y)) (i + j)) ->
    tcn_first (tcn_pstep cf) y (tcn_on sd (flat_map lab (seq i k)))
    = match scan k i sn with Some i' => tcn_first (tcn_pstep cf) y (tcn_on sd (lab i')) | None => None end.
Proof.
  intros Hscan H. unfold tcn_on in *. induction k as [|k IH]; intros i sn Hsn; rewrite Hscan; [reflexivity|].
  specialize (H i). pose proof (Hsn 0) as H0. rewrite Nat.add_0_r in H0. rewrite <- H0 in H. clear H0.
  cbn [seq flat_map]. rewrite map_app, tcn_first_app.
  assert (forall j, nth_error (tl sn) j = nth_error (tcn_snd (tcn_sess_of sd y)) (S i + j)) as Hsn'
    by (intros j; rewrite Nat.add_succ_comm, <- Hsn; destruct sn; [now destruct j|reflexivity]).
  destruct sn as [|d sn']; cbn [nth_error] in H.
  - rewrite H, (IH _ _ Hsn'), Hscan. now destruct k.
  - destruct (dis d); [rewrite H; exact (IH _ _ Hsn')|].
    now destruct (tcn_first (tcn_pstep cf) y (map (pair sd) (lab i))).
Qed.

Fixpoint tcn_emit_scan (room : bool) (k i : nat) (sn : list tcn_send) : option nat :=
  match k, sn with
  | S k', d :: sn' =>
    match sd_em d with
    | EmLoop => Some i
    | EmPut _ => if room then Some i else tcn_emit_scan room k' (S i) sn'
    | EmDone => tcn_emit_scan room k' (S i) sn'
    end
  | _, _ => None
  end.
Fixpoint tcn_main_scan (k i : nat) (sn : list tcn_send) : option nat :=
  match k, sn with
  | S k', d :: sn' =>
    match sd_res d, sd_len d, sd_ack d with
    | None, Some _, _ | None, None, _ :: _ => Some i
    | _, _, _ => tcn_main_scan k' (S i) sn'
    end
  | _, _ => None
  end.

Definition tcn_plain_first cf sd l (y : tcn_pair) := tcn_first (tcn_pstep cf) y (tcn_on sd l).
Definition tcn_emit_first cf sd s (y : tcn_pair) :=
  let z := tcn_sess_of sd y in
  match tcn_emit_scan (length (tcn_xout z) <? cf_xout cf) s 0 (tcn_snd z) with
  | Some i => tcn_plain_first cf sd [PEmit i] y
  | None => None
  end.
Definition tcn_main_first cf sd s (y : tcn_pair) :=
  match tcn_main_scan s 0 (tcn_snd (tcn_sess_of sd y)) with
  | Some i => tcn_plain_first cf sd [PSendLen i; PSendAck i] y
  | None => None
  end.

Lemma tcn_emit_first_ok cf sd s y :
  tcn_first (tcn_pstep cf) y (map (pair sd) (tcn_emits s)) = tcn_emit_first cf sd s y.
Proof.
  unfold tcn_emits. rewrite <- (flat_map_single PEmit).
  unfold tcn_emit_first. remember (length (tcn_xout (tcn_sess_of sd y)) <? cf_xout cf) as room eqn:Hr.
  apply (tcn_scan_ok cf sd y (fun d => match sd_em d with EmLoop => false | EmPut _ => negb room | EmDone => true end));
    [|intros i|reflexivity].
  - intros k i sn. destruct k, sn as [|d sn]; try reflexivity. cbn. now destruct (sd_em d), room.
  - cbn. unfold tcn_pstep. destruct sd; cbn [fst snd tcn_sstep tcn_sess_of] in *;
      (destruct (nth_error _ i) as [d|]; [|reflexivity]); unfold tcn_emit, tcn_put; rewrite <- Hr;
      (destruct (sd_em d); [destruct (sd_stop d), (sd_next d <? sd_n d)|destruct room|]); cbn; congruence.
Qed.

Lemma tcn_main_first_ok cf sd s y :
  tcn_first (tcn_pstep cf) y (map (pair sd) (tcn_mains s)) = tcn_main_first cf sd s y.
Proof.
  apply (tcn_scan_ok cf sd y (fun d => match sd_res d, sd_len d, sd_ack d with
                                       | None, Some _, _ | None, None, _ :: _ => false | _, _, _ => true end));
    [|intros i|reflexivity].
  - intros k i sn. destruct k, sn as [|d sn]; try reflexivity. cbn. now destruct (sd_res d), (sd_len d), (sd_ack d).
  - cbn. unfold tcn_pstep. destruct sd; cbn [fst snd tcn_sstep tcn_sess_of] in *; unfold tcn_send_apply;
      (destruct (nth_error _ i) as [d|]; [|reflexivity]); unfold tcn_main_len, tcn_main_ack;
      destruct (sd_res d), (sd_len d), (sd_ack d) as [|[] ?]; cbn; congruence.
Qed.

Definition tcn_firsts_both cf s :=
  [tcn_emit_first cf SideA s; tcn_plain_first cf SideA [PStOut; PStPut; PWTake; PWWrite; PRRead; PRPush];
   tcn_emit_first cf SideB s; tcn_plain_first cf SideB [PStOut; PStPut; PWTake; PWWrite; PRRead; PRPush];
   tcn_plain_first cf SideA [PStIn; PH; PClient; PUpper]; tcn_main_first cf SideA s;
   tcn_plain_first cf SideB [PStIn; PH; PClient; PUpper]; tcn_main_first cf SideB s].
Definition tcn_firsts_one1 cf k :=
  [tcn_emit_first cf SideA k; tcn_plain_first cf SideA [PStOut; PStPut; PWTake; PWWrite; PRRead; PRPush];
   tcn_plain_first cf SideB [PRRead; PRPush; PStIn; PH; PStOut; PStPut; PWTake; PWWrite; PClient; PUpper]].
Definition tcn_firsts_one2 cf s :=
  [tcn_emit_first cf SideA s; tcn_plain_first cf SideA [PStOut; PStPut; PWTake; PWWrite; PRRead; PRPush];
   tcn_plain_first cf SideB [PRRead; PRPush; PStOut; PStPut; PWTake; PWWrite; PClient; PUpper; PStIn; PH];
   tcn_plain_first cf SideA [PStIn; PH]; tcn_main_first cf SideA s].

Lemma tcn_firsts_both_ok cf s y :
  tcn_first_of (tcn_firsts_both cf s) y = tcn_first (tcn_pstep cf) y (tcn_prio_both s).
Proof.
  rewrite <- (app_nil_r (tcn_prio_both s)). unfold tcn_prio_both, tcn_on.
  rewrite !map_app, <- !app_assoc, !tcn_first_app, !tcn_emit_first_ok, !tcn_main_first_ok. reflexivity.
Qed.
Lemma tcn_firsts_one1_ok cf k y :
  tcn_first_of (tcn_firsts_one1 cf k) y = tcn_first (tcn_pstep cf) y (tcn_prio_one1 k).
Proof.
  rewrite <- (app_nil_r (tcn_prio_one1 k)). unfold tcn_prio_one1, tcn_on.
  rewrite !map_app, <- !app_assoc, !tcn_first_app, !tcn_emit_first_ok. reflexivity.
Qed.
Lemma tcn_firsts_one2_ok cf s y :
  tcn_first_of (tcn_firsts_one2 cf s) y = tcn_first (tcn_pstep cf) y (tcn_prio_one2 s).
Proof.
  rewrite <- (app_nil_r (tcn_prio_one2 s)). unfold tcn_prio_one2, tcn_on.
  rewrite !map_app, <- !app_assoc, !tcn_first_app, !tcn_emit_first_ok, !tcn_main_first_ok. reflexivity.
Qed.

Lemma tcn_both_run_f cf s :
  tcn_both_run cf s
  = tcn_phases_f (tcn_pair0 (repeat 1 s) (repeat 1 s) 0 0) [(tcn_first_of (tcn_firsts_both cf s), 100 * s)].
Proof. symmetry. apply tcn_phases_f_ok. repeat constructor. apply tcn_firsts_both_ok. Qed.
Lemma tcn_one_run_f cf k s :
  tcn_one_run cf k s
  = tcn_phases_f (tcn_pair0 (repeat 1 s) [] 0 0)
                 [(tcn_first_of (tcn_firsts_one1 cf k), 100 * s); (tcn_first_of (tcn_firsts_one2 cf s), 100 * s)].
Proof.
  symmetry. apply tcn_phases_f_ok. repeat constructor; [apply tcn_firsts_one1_ok|apply tcn_firsts_one2_ok].
Qed.

(* a schedule made by the scheduler needs no replay *)
Lemma tcn_prun_app cf a : forall y b,
  tcn_prun cf y (a ++ b) = match tcn_prun cf y a with Some y' => tcn_prun cf y' b | None => None end.
Proof. induction a as [|p a IH]; intros y b; cbn; [reflexivity|]. destruct (tcn_pstep cf y p); auto. Qed.

Lemma tcn_greedy_run cf prio fuel : forall y,
  tcn_prun cf y (fst (tcn_greedy (tcn_pstep cf) fuel y prio)) = Some (snd (tcn_greedy (tcn_pstep cf) fuel y prio)).
Proof.
  induction fuel as [|f IH]; intros y; cbn; [reflexivity|].
  destruct (tcn_first (tcn_pstep cf) y prio) as [[p y']|] eqn:E; cbn; [|reflexivity].
  now rewrite (proj1 (tcn_first_some _ _ _ _ _ E)).
Qed.

Lemma tcn_phases_run cf phs : forall y,
  tcn_prun cf y (fst (tcn_phases (tcn_pstep cf) y phs)) = Some (snd (tcn_phases (tcn_pstep cf) y phs)).
Proof.
  induction phs as [|[prio fuel] phs IH]; intros y; cbn; [reflexivity|].
  now rewrite tcn_prun_app, tcn_greedy_run.
Qed.

(* so what a witness has to show is read off the scheduler's result *)
Definition tcn_run_stalled cf (r : list (tcn_side * tcn_proc) * tcn_pair) : bool :=
  tcn_plive_runb (fst r) && tcn_pstuck cf (snd r) && negb (tcn_pdone (snd r)).
Definition tcn_run_done cf (r : list (tcn_side * tcn_proc) * tcn_pair) : bool :=
  tcn_plive_runb (fst r) && tcn_pstuck cf (snd r) && tcn_pdone (snd r).

Lemma tcn_phases_check cf nsa nsb phs :
  let r := tcn_phases (tcn_pstep cf) (tcn_pair0 nsa nsb 0 0) phs in
  tcn_pair_stall_check cf nsa nsb (fst r) = tcn_run_stalled cf r
  /\ tcn_pair_done_check cf nsa nsb (fst r) = tcn_run_done cf r.
Proof. unfold tcn_pair_stall_check, tcn_pair_done_check. now rewrite tcn_phases_run. Qed.

Lemma tcn_both_check cf s :
  let r := tcn_both_run cf s in
  tcn_pair_stall_check cf (repeat 1 s) (repeat 1 s) (fst r) = tcn_run_stalled cf r
  /\ tcn_pair_done_check cf (repeat 1 s) (repeat 1 s) (fst r) = tcn_run_done cf r.
Proof. apply tcn_phases_check. Qed.
Lemma tcn_one_check cf k s :
  let r := tcn_one_run cf k s in
  tcn_pair_stall_check cf (repeat 1 s) [] (fst r) = tcn_run_stalled cf r
  /\ tcn_pair_done_check cf (repeat 1 s) [] (fst r) = tcn_run_done cf r.
Proof. apply tcn_phases_check. Qed.

(* both directions, 67 single-segment bundles per side: the schedule stalls; the stalled state *)
Lemma tcn_both_67 :
  let r := tcn_both_run (tcn_real true 0) 67 in
  let y := snd r in
  tcn_run_stalled (tcn_real true 0) r = true
  /\ tcn_inflight (pa_a y) + tcn_inflight (pa_b y) = 134 /\ tcn_up (pa_a y) = [] /\ tcn_up (pa_b y) = []
  /\ tcn_st (pa_a y) = GOut (CSeg 66 true) /\ tcn_st (pa_b y) = GOut (CSeg 66 true).
Proof. rewrite tcn_both_run_f. vm_compute. repeat split; reflexivity. Qed.

(* one direction, 134 single-segment bundles from A, none from B *)
Lemma tcn_one_134 :
  let r := tcn_one_run (tcn_real true 0) 67 134 in
  let y := snd r in
  tcn_run_stalled (tcn_real true 0) r = true
  /\ tcn_inflight (pa_a y) = 134 /\ length (tcn_up (pa_b y)) = 67
  /\ tcn_st (pa_a y) = GOut (CSeg 133 true) /\ tcn_st (pa_b y) = GOut (CAck 66 1).
Proof. rewrite tcn_one_run_f. vm_compute. repeat split; reflexivity. Qed.

Lemma tcn_stall_need_real fx T : tcn_stall_need (tcn_real fx T) = 2 * (67 + T).
Proof.
  unfold tcn_stall_need, tcn_real; cbn [cf_in cf_out cf_T]. unfold tcn_cap_in, tcn_cap_out. lia.
Qed.
