(* IdKeeperProofs.v - invariants of Model/IdKeeper.v behind the C14 theorems. *)
From DTN Require Import Base ListFacts IdKeeper.
Open Scope N_scope.

Lemma ik_same_true : forall src t e, ik_same src t e = true <-> ike_src e = src /\ ike_time e = t.
Proof. intros. unfold ik_same. rewrite andb_true_iff, !N.eqb_eq. tauto. Qed.

Lemma ik_lookup_set : forall k src t c src' t',
  ik_lookup (ik_set k src t c) src' t' = if (src =? src') && (t =? t') then Some c else ik_lookup k src' t'.
Proof.
  induction k as [|e k IH]; intros; cbn [ik_set ik_lookup]; [reflexivity|].
  destruct (ik_same src t e) eqn:E; cbn [ik_lookup].
  - apply ik_same_true in E as [<- <-]. unfold ik_same; cbn. now destruct ((ike_src e =? src') && (ike_time e =? t')).
  - rewrite IH. destruct (ik_same src' t' e) eqn:E'; [|reflexivity].
    apply ik_same_true in E' as [<- <-]. unfold ik_same in E. now rewrite (N.eqb_sym src), (N.eqb_sym t), E.
Qed.

Lemma ik_update_spec : forall k src t k' c,
  ik_update k src t = (k', c) ->
  k' = ik_set k src t c /\ c = match ik_lookup k src t with Some c0 => c0 + ik_incr | None => ik_first end.
Proof. unfold ik_update. intros k src t k' c. destruct (ik_lookup k src t); intros [= <- <-]; auto. Qed.

Lemma ik_update_mono : forall k src0 t0 k' c0 src t c,
  ik_update k src0 t0 = (k', c0) -> ik_lookup k src t = Some c ->
  exists c', ik_lookup k' src t = Some c' /\ c <= c'.
Proof.
  intros k src0 t0 k' c0 src t c U L. apply ik_update_spec in U as [-> ->]. rewrite ik_lookup_set.
  destruct ((src0 =? src) && (t0 =? t)) eqn:E; [|eauto using N.le_refl].
  apply andb_true_iff in E. rewrite !N.eqb_eq in E. destruct E as [-> ->]. rewrite L.
  exists (c + ik_incr). split; [reflexivity|lia].
Qed.

Lemma ik_lookup_filter : forall f k src t,
  (forall e, ike_time e = t -> f e = true) ->
  ik_lookup (filter f k) src t = ik_lookup k src t.
Proof.
  induction k as [|e k IH]; intros src t Hf; [reflexivity|]. cbn [filter ik_lookup].
  destruct (ik_same src t e) eqn:E.
  - pose proof (proj1 (ik_same_true _ _ _) E) as [_ Ht].
    rewrite (Hf e Ht). cbn [ik_lookup]. now rewrite E.
  - destruct (f e); cbn [ik_lookup]; [rewrite E|]; now apply IH.
Qed.

Lemma ik_threshold_small : forall now, ik_window <= now -> now < ik_two64 -> ik_threshold now = now - ik_window.
Proof.
  intros now H1 H2. unfold ik_threshold.
  replace (now + ik_two64 - ik_window) with ((now - ik_window) + 1 * ik_two64) by (unfold ik_window, ik_two64 in *; lia).
  rewrite N.mod_add by (unfold ik_two64; lia). apply N.mod_small. unfold ik_window, ik_two64 in *; lia.
Qed.

Lemma ik_clean_lookup : forall now k src t,
  t = 0 \/ ik_threshold now <= t ->
  ik_lookup (ik_clean now k) src t = ik_lookup k src t.
Proof.
  intros now k src t H. unfold ik_clean. apply ik_lookup_filter.
  intros e He. unfold ik_keep, ik_epoch. rewrite He.
  destruct H as [->|H]; [now rewrite N.eqb_refl, andb_false_r|].
  apply N.ltb_ge in H. now rewrite H.
Qed.

Lemma ik_assign_inv : forall s tid src t s' o, ik_step s (IkAssign tid src t) = Some (s', o) ->
  ik_thread_of (ik_threads s) tid = None /\
  exists c, ik_update (ik_keeper s) src t = (ik_keeper s', c) /\
            ik_threads s' = {| th_id := tid; th_src := src; th_time := t; th_seq := c |} :: ik_threads s.
Proof.
  intros s tid src t s' o H. cbn [ik_step] in H.
  destruct (ik_thread_of (ik_threads s) tid); [discriminate|].
  destruct (ik_update (ik_keeper s) src t) as [k c]. injection H as <- <-. eauto.
Qed.

Lemma ik_step_frame : forall s e s' o, ik_step s e = Some (s', o) ->
  (exists tid src t, e = IkAssign tid src t) \/
  (ik_threads s' = ik_threads s /\
   ik_keeper s' = match e with IkClean now => ik_clean now (ik_keeper s) | IkRestart => [] | _ => ik_keeper s end).
Proof.
  intros s e s' o H.
  destruct e as [tid src t | now | tid | tid peer | src t seq peer | src t seq | ]; [left; eauto | right ..];
    cbn [ik_step] in H;
    try destruct (ik_thread_of (ik_threads s) tid); try destruct (ik_item_of _ _ _ _); try discriminate;
    injection H as <- _; auto.
Qed.

Definition ik_quiet_ev (t : N) (e : ik_ev) : Prop :=
  match e with
  | IkRestart => False
  | IkClean now => t = 0 \/ ik_threshold now <= t
  | _ => True
  end.
Definition ik_quiet (t : N) (h : list ik_ev) : Prop := Forall (ik_quiet_ev t) h.

Lemma ik_run_cons : forall e h s s2 o,
  ik_run s (e :: h) = Some (s2, o) ->
  exists s1 o1 o2, ik_step s e = Some (s1, o1) /\ ik_run s1 h = Some (s2, o2) /\ o = o1 ++ o2.
Proof.
  intros e h s s2 o H. cbn [ik_run] in H.
  destruct (ik_step s e) as [[s1 o1]|]; [|discriminate].
  destruct (ik_run s1 h) as [[sb o2]|] eqn:R; [|discriminate].
  injection H as <- <-. exists s1, o1, o2. auto.
Qed.

Lemma ik_run_app : forall h1 h2 s s2 o,
  ik_run s (h1 ++ h2) = Some (s2, o) ->
  exists s1 o1 o2, ik_run s h1 = Some (s1, o1) /\ ik_run s1 h2 = Some (s2, o2) /\ o = o1 ++ o2.
Proof.
  induction h1 as [|e h1 IH]; intros h2 s s2 o H; [exists s, [], o; auto|].
  apply ik_run_cons in H as (sa & oa & ob & S & R & ->).
  apply IH in R as (s1 & o1 & o2 & R1 & R2 & ->).
  exists s1, (oa ++ o1), o2. cbn [ik_run]. rewrite S, R1, app_assoc. auto.
Qed.

Lemma ik_thread_stable_step : forall s e s' o tid th,
  ik_step s e = Some (s', o) -> ik_thread_of (ik_threads s) tid = Some th ->
  ik_thread_of (ik_threads s') tid = Some th.
Proof.
  intros s e s' o tid th H Ht.
  destruct (ik_step_frame _ _ _ _ H) as [(i & src & t & ->) | [-> _]]; [|exact Ht].
  apply ik_assign_inv in H as (Hn & c & _ & ->). cbn. destruct (i =? tid) eqn:E; [|exact Ht].
  apply N.eqb_eq in E. congruence.
Qed.

Lemma ik_thread_stable_run : forall h s s' o tid th,
  ik_run s h = Some (s', o) -> ik_thread_of (ik_threads s) tid = Some th ->
  ik_thread_of (ik_threads s') tid = Some th.
Proof.
  induction h as [|e h IH]; intros s s' o tid th H Ht.
  - injection H as <- _. exact Ht.
  - apply ik_run_cons in H as (s1 & o1 & o2 & H1 & H2 & _).
    eapply IH; [exact H2|]. eapply ik_thread_stable_step; eauto.
Qed.

Lemma ik_thread_origin : forall h s0 s outs tid th,
  ik_run s0 h = Some (s, outs) -> ik_thread_of (ik_threads s) tid = Some th ->
  ik_thread_of (ik_threads s0) tid = Some th
  \/ exists h1 h3, h = h1 ++ IkAssign tid (th_src th) (th_time th) :: h3.
Proof.
  induction h as [|e h IH]; intros s0 s outs tid th R T.
  - injection R as <- _. now left.
  - apply ik_run_cons in R as (s1 & o1 & o2 & H1 & H2 & _).
    destruct (IH _ _ _ _ _ H2 T) as [T1|(h1 & h3 & ->)]; [|right; exists (e :: h1), h3; reflexivity].
    destruct (ik_step_frame _ _ _ _ H1) as [(i & src & t & ->) | [E _]]; [|left; rewrite <- E; exact T1].
    apply ik_assign_inv in H1 as (_ & c & _ & E). rewrite E in T1. cbn in T1.
    destruct (i =? tid) eqn:Ei; [|now left].
    apply N.eqb_eq in Ei. injection T1 as <-. subst i. right. exists [], h. reflexivity.
Qed.

Lemma ik_quiet_step_mono : forall s e s' o src t c,
  ik_step s e = Some (s', o) -> ik_quiet_ev t e -> ik_lookup (ik_keeper s) src t = Some c ->
  exists c', ik_lookup (ik_keeper s') src t = Some c' /\ c <= c'.
Proof.
  intros s e s' o src t c H Q L.
  destruct (ik_step_frame _ _ _ _ H) as [(i & src0 & t0 & ->) | [_ ->]].
  - apply ik_assign_inv in H as (_ & c0 & U & _). exact (ik_update_mono _ _ _ _ _ _ _ _ U L).
  - destruct e as [ | now | | | | | ]; cbn in Q; try contradiction; eauto using N.le_refl.
    rewrite ik_clean_lookup by exact Q. eauto using N.le_refl.
Qed.

Lemma ik_quiet_run_mono : forall h s s' o src t c,
  ik_run s h = Some (s', o) -> ik_quiet t h -> ik_lookup (ik_keeper s) src t = Some c ->
  exists c', ik_lookup (ik_keeper s') src t = Some c' /\ c <= c'.
Proof.
  induction h as [|e h IH]; intros s s' o src t c H Q L.
  - injection H as <- _. eauto using N.le_refl.
  - apply ik_run_cons in H as (s1 & o1 & o2 & H1 & H2 & _).
    inversion Q as [|? ? Q1 Q2]; subst.
    destruct (ik_quiet_step_mono _ _ _ _ _ _ _ H1 Q1 L) as (c1 & L1 & Hc1).
    destruct (IH _ _ _ _ _ _ H2 Q2 L1) as (c2 & L2 & Hc2).
    exists c2. split; [exact L2|lia].
Qed.

Definition ik_numbered (s : ik_st) (tid src t seq : N) : Prop :=
  ik_thread_of (ik_threads s) tid = Some {| th_id := tid; th_src := src; th_time := t; th_seq := seq |}.

Lemma ik_assign_numbered : forall s tid src t s' o,
  ik_step s (IkAssign tid src t) = Some (s', o) ->
  exists c, ik_numbered s' tid src t c
    /\ ik_lookup (ik_keeper s') src t = Some c
    /\ (forall c0, ik_lookup (ik_keeper s) src t = Some c0 -> c = c0 + ik_incr).
Proof.
  intros s tid src t s' o H. apply ik_assign_inv in H as (_ & c & U & E).
  apply ik_update_spec in U as [K C]. exists c. unfold ik_numbered.
  rewrite E, K, ik_lookup_set, !N.eqb_refl. cbn. rewrite N.eqb_refl.
  split; [reflexivity|]. split; [reflexivity|]. intros c0 L. now rewrite L in C.
Qed.

Lemma ik_distinct : forall h1 i src t h2 j h3 s outs a b,
  ik_run ik_init (h1 ++ IkAssign i src t :: h2 ++ IkAssign j src t :: h3) = Some (s, outs) ->
  ik_quiet t h2 ->
  ik_seq_of s i = Some a -> ik_seq_of s j = Some b ->
  a < b.
Proof.
  intros h1 i src t h2 j h3 s outs a b R Q Sa Sb.
  apply ik_run_app in R as (s1 & ? & ? & _ & R & _).
  apply ik_run_cons in R as (s2 & ? & ? & Ai & R & _).
  apply ik_run_app in R as (s3 & ? & ? & R2 & R & _).
  apply ik_run_cons in R as (s4 & ? & ? & Aj & R3 & _).
  destruct (ik_assign_numbered _ _ _ _ _ _ Ai) as (ci & Ti & Li & _).
  destruct (ik_quiet_run_mono _ _ _ _ _ _ _ R2 Q Li) as (c' & L' & Hc').
  destruct (ik_assign_numbered _ _ _ _ _ _ Aj) as (cj & Tj & _ & Hj).
  pose proof (ik_thread_stable_run _ _ _ _ _ _ R2 Ti) as Ti3.
  pose proof (ik_thread_stable_step _ _ _ _ _ _ Aj Ti3) as Ti4.
  unfold ik_seq_of in Sa, Sb.
  rewrite (ik_thread_stable_run _ _ _ _ _ _ R3 Ti4) in Sa. rewrite (ik_thread_stable_run _ _ _ _ _ _ R3 Tj) in Sb.
  injection Sa as <-. injection Sb as <-. rewrite (Hj _ L'). unfold ik_incr. lia.
Qed.

Definition ik_store_ok (s : ik_st) : Prop :=
  forall it, In it (ik_store s) ->
    ik_numbered s (it_tid it) (it_src it) (it_time it) (it_seq it) /\ it_fseq it = it_seq it.

Definition ik_out_ok (s : ik_st) (o : ik_out) : Prop :=
  ik_numbered s (o_tid o) (o_src o) (o_time o) (o_seq o).

Lemma ik_thread_of_id : forall ths tid th, ik_thread_of ths tid = Some th -> th_id th = tid.
Proof.
  induction ths as [|x ths IH]; intros tid th H; [discriminate|]. cbn [ik_thread_of] in H.
  destruct (th_id x =? tid) eqn:E; [|auto]. injection H as <-. now apply N.eqb_eq.
Qed.

Lemma ik_thread_eta : forall s tid th,
  ik_thread_of (ik_threads s) tid = Some th -> ik_numbered s tid (th_src th) (th_time th) (th_seq th).
Proof.
  intros s tid th T. unfold ik_numbered. rewrite T, <- (ik_thread_of_id _ _ _ T). now destruct th.
Qed.

Lemma ik_item_of_in : forall st src t seq it,
  ik_item_of st src t seq = Some it -> In it st /\ it_src it = src /\ it_time it = t /\ it_seq it = seq.
Proof.
  induction st as [|x st IH]; intros src t seq it H; [discriminate|]. cbn [ik_item_of] in H.
  destruct (ik_key_is src t seq x) eqn:K.
  - injection H as <-. unfold ik_key_is in K. rewrite !andb_true_iff, !N.eqb_eq in K.
    split; [now left|tauto].
  - destruct (IH _ _ _ _ H) as (Hin & ?). split; [now right|assumption].
Qed.

Lemma ik_item_of_none : forall st src t seq it,
  ik_item_of st src t seq = None -> In it st -> (it_src it, it_time it, it_seq it) <> (src, t, seq).
Proof.
  induction st as [|x st IH]; intros src t seq it H Hin; [contradiction|]. cbn [ik_item_of] in H.
  destruct (ik_key_is src t seq x) eqn:K; [discriminate|].
  destruct Hin as [->|Hin]; [|eauto].
  intros [= E1 E2 E3]. unfold ik_key_is in K. rewrite E1, E2, E3, !N.eqb_refl in K. discriminate.
Qed.

Lemma ik_step_ok : forall s e s' outs,
  ik_step s e = Some (s', outs) -> ik_store_ok s -> ik_store_ok s' /\ Forall (ik_out_ok s') outs.
Proof.
  intros s e s' outs H I.
  assert (I' : forall it, In it (ik_store s) ->
            ik_numbered s' (it_tid it) (it_src it) (it_time it) (it_seq it) /\ it_fseq it = it_seq it).
  { intros it Hin. destruct (I it Hin) as [A B]. split; [|exact B]. exact (ik_thread_stable_step _ _ _ _ _ _ H A). }
  (* the steps that neither file nor send are settled by I' *)
  unfold ik_store_ok. destruct e as [tid src t | now | tid | tid peer | src t seq peer | src t seq | ]; cbn [ik_step] in H;
    try destruct (ik_thread_of (ik_threads s) tid) as [th|] eqn:T; try destruct (ik_item_of _ _ _ _) as [it0|] eqn:K;
    try destruct (ik_update _ _ _); try discriminate;
    injection H as <- <-; (split; [|repeat constructor]); try exact I'.
  - (* IkPush files the bundle under its thread's number *)
    intros it [<-|Hin]; [|exact (I' it Hin)]. split; [|reflexivity]. exact (ik_thread_eta _ _ _ T).
  - (* IkSend *) exact (ik_thread_eta _ _ _ T).
  - (* IkRetry sends what the store item says *)
    destruct (ik_item_of_in _ _ _ _ _ K) as (Hin & <- & <- & _). destruct (I' it0 Hin) as [A B].
    unfold ik_out_ok. cbn. now rewrite B.
  - (* IkDrop *) intros it Hin. apply filter_In in Hin. exact (I' it (proj1 Hin)).
Qed.

Lemma ik_run_ok : forall h s s' outs,
  ik_run s h = Some (s', outs) -> ik_store_ok s -> ik_store_ok s' /\ Forall (ik_out_ok s') outs.
Proof.
  induction h as [|e h IH]; intros s s' outs H I.
  - injection H as <- <-. auto.
  - apply ik_run_cons in H as (s1 & o1 & o2 & H1 & H2 & ->).
    destruct (ik_step_ok _ _ _ _ H1 I) as [I1 O1]. destruct (IH _ _ _ H2 I1) as [I2 O2].
    split; [exact I2|]. apply Forall_app. split; [|exact O2].
    eapply Forall_impl; [|exact O1]. intros o. exact (ik_thread_stable_run _ _ _ _ _ _ H2).
Qed.

Definition ik_spaced (h : list ik_ev) : Prop :=
  forall h1 i src t h2 j h3,
    h = h1 ++ IkAssign i src t :: h2 ++ IkAssign j src t :: h3 -> ik_quiet t h2.

Lemma ik_unique : forall h s outs i j src t a b,
  ik_run ik_init h = Some (s, outs) -> ik_spaced h ->
  ik_numbered s i src t a -> ik_numbered s j src t b -> i <> j -> a <> b.
Proof.
  intros h s outs i j src t a b R SP Ni Nj Hij.
  destruct (ik_thread_origin _ _ _ _ _ _ R Ni) as [C|(a1 & a3 & Ea)]; [discriminate|].
  destruct (ik_thread_origin _ _ _ _ _ _ R Nj) as [C|(b1 & b3 & Eb)]; [discriminate|].
  cbn in Ea, Eb.
  assert (Hne : IkAssign i src t <> IkAssign j src t) by congruence.
  assert (Sa : ik_seq_of s i = Some a) by (unfold ik_seq_of; now rewrite Ni).
  assert (Sb : ik_seq_of s j = Some b) by (unfold ik_seq_of; now rewrite Nj).
  assert (Eab : a1 ++ IkAssign i src t :: a3 = b1 ++ IkAssign j src t :: b3) by congruence.
  destruct (two_splits _ _ _ _ _ _ Eab Hne) as [(m & E)|(m & E)]; rewrite <- Ea in E;
    pose proof (SP _ _ _ _ _ _ _ E) as Q; rewrite E in R.
  - pose proof (ik_distinct _ _ _ _ _ _ _ _ _ _ _ R Q Sa Sb). lia.
  - pose proof (ik_distinct _ _ _ _ _ _ _ _ _ _ _ R Q Sb Sa). lia.
Qed.

Lemma ik_spaced_prefix : forall h h', ik_spaced (h ++ h') -> ik_spaced h.
Proof.
  intros h h' SP h1 i src t h2 j h3 E. apply (SP h1 i src t h2 j (h3 ++ h')).
  rewrite E. rewrite <- !app_assoc. cbn. rewrite <- !app_assoc. reflexivity.
Qed.

Lemma ik_filed : forall h tid s outs,
  ik_run ik_init (h ++ [IkPush tid]) = Some (s, outs) -> ik_spaced h ->
  exists src t seq it,
    ik_numbered s tid src t seq /\ ik_item_of (ik_store s) src t seq = Some it
    /\ it_tid it = tid /\ it_fseq it = seq.
Proof.
  intros h tid s outs R SP.
  apply ik_run_app in R as (s1 & o1 & o2 & R1 & R2 & _).
  apply ik_run_cons in R2 as (s2 & ? & ? & P & [= <- _] & _).
  destruct (ik_run_ok _ _ _ _ R1) as [I _]; [intros it []|].
  cbn [ik_step] in P. destruct (ik_thread_of (ik_threads s1) tid) as [th|] eqn:T; [|discriminate].
  pose proof (ik_thread_eta _ _ _ T) as N1.
  exists (th_src th), (th_time th), (th_seq th).
  destruct (ik_item_of (ik_store s1) (th_src th) (th_time th) (th_seq th)) as [it|] eqn:K;
    injection P as <- _.
  - (* the key is taken: by this very bundle, since numbers are distinct *)
    exists it. destruct (ik_item_of_in _ _ _ _ _ K) as (Hin & E1 & E2 & E3).
    destruct (I it Hin) as [Nit F]. rewrite E1, E2, E3 in Nit.
    repeat split; auto; [|congruence].
    destruct (N.eq_dec (it_tid it) tid) as [E|E]; [exact E|].
    exfalso. exact (ik_unique _ _ _ _ _ _ _ _ _ R1 SP Nit N1 E eq_refl).
  - eexists. split; [exact N1|]. cbn [ik_store ik_item_of]. unfold ik_key_is. cbn. rewrite !N.eqb_refl. cbn. auto.
Qed.

(* histories driven by a clock: a creation time is 0 or the clock's reading at the submission,
   cleaning reads the same clock, a restart takes at least a millisecond *)
Fixpoint ik_clocked (c : N) (h : list ik_ev) : Prop :=
  match h with
  | [] => True
  | IkAssign _ _ t :: h => (t = 0 /\ ik_clocked c h) \/ (c <= t /\ ik_clocked t h)
  | IkClean now :: h => c <= now /\ now < ik_two64 /\ ik_clocked now h
  | IkRestart :: h => ik_clocked (c + 1) h
  | _ :: h => ik_clocked c h
  end.

Lemma ik_clocked_weaken : forall h c c', c <= c' -> ik_clocked c' h -> ik_clocked c h.
Proof.
  induction h as [|e h IH]; intros c c' Hc H; [exact I|]. destruct e; cbn [ik_clocked] in *; eauto.
  - destruct H as [[E H]|[E H]]; [left; eauto|right; split; [lia|exact H]].
  - destruct H as (H1 & H2 & H3). repeat split; auto; lia.
  - eapply IH; [|exact H]. lia.
Qed.

Lemma ik_clocked_cons : forall e h c, ik_clocked c (e :: h) ->
  exists c', c <= c' /\ ik_clocked c' h /\ (e = IkRestart -> c < c')
             /\ (forall now, e = IkClean now -> c' = now /\ now < ik_two64).
Proof.
  intros e h c H. destruct e; cbn [ik_clocked] in H;
    try (exists c; repeat split; auto using N.le_refl; discriminate).   (* the events that read no clock *)
  - destruct H as [[_ H]|[E H]]; [exists c|exists t]; repeat split; auto using N.le_refl; discriminate.
  - destruct H as (H1 & H2 & H). exists now. repeat split; auto; try discriminate; congruence.
  - exists (c + 1). repeat split; auto; try discriminate; lia.
Qed.

Lemma ik_clocked_skip : forall h1 h c, ik_clocked c (h1 ++ h) -> ik_clocked c h.
Proof.
  induction h1 as [|e h1 IH]; intros h c H; [exact H|].
  apply ik_clocked_cons in H as (c1 & L & H & _). exact (ik_clocked_weaken _ _ _ L (IH _ _ H)).
Qed.

Lemma ik_clocked_until : forall h2 c j src t h3,
  ik_clocked c (h2 ++ IkAssign j src t :: h3) -> t <> 0 -> ik_window <= c ->
  c <= t /\ (c = t -> ik_quiet t h2).
Proof.
  induction h2 as [|e h2 IH]; intros c j src t h3 H Ht Hw.
  - cbn [app ik_clocked] in H. destruct H as [[E _]|[E _]]; [contradiction|]. split; [exact E|constructor].
  - apply ik_clocked_cons in H as (c1 & L & H & Hr & Hc).
    destruct (IH _ _ _ _ _ H Ht) as (A & B); [lia|].
    split; [lia|]. intros ->. assert (c1 = t) by lia. subst c1.
    constructor; [|exact (B eq_refl)]. destruct e; cbn; auto.
    + right. destruct (Hc _ eq_refl) as [<- H2]. rewrite ik_threshold_small by assumption. lia.
    + specialize (Hr eq_refl). lia.
Qed.

Lemma ik_clocked_quiet : forall c0 h1 i src t h2 j h3,
  ik_clocked c0 (h1 ++ IkAssign i src t :: h2 ++ IkAssign j src t :: h3) -> ik_window <= c0 ->
  t <> 0 \/ ~ In IkRestart h2 ->
  ik_quiet t h2.
Proof.
  intros c0 h1 i src t h2 j h3 H Hw Hyp. destruct (N.eq_dec t 0) as [E|Ht].
  - destruct Hyp as [Hyp|Hyp]; [contradiction|]. apply Forall_forall. intros e He. destruct e; cbn; auto.
  - apply ik_clocked_skip in H. cbn [ik_clocked] in H. destruct H as [[E _]|[E H]]; [contradiction|].
    apply (ik_clocked_until _ _ _ _ _ _ H Ht); [lia|reflexivity].
Qed.

(* The keeper does not survive a restart: a source without a clock (creation time 0) submits bundle 1, which
   gets the number 0 and is filed; the node restarts; the source submits bundle 2, which gets the number 0
   again and is not filed, its key being taken; the retry of that key transmits bundle 1. *)
Lemma ik_restart_refuted : exists h s outs i j src a b,
  ik_run ik_init h = Some (s, outs) /\ i <> j
  /\ ik_numbered s i src 0 a /\ ik_numbered s j src 0 b /\ a = b
  /\ (forall it, In it (ik_store s) -> it_tid it <> j)
  /\ (exists o, In o outs /\ o_tid o = i /\ (o_src o, o_time o, o_seq o) = (src, 0, b)).
Proof.
  exists (ik_submit 1 7 0 1000000 [] ++ IkRestart :: ik_submit 2 7 0 1000100 [] ++ [IkRetry 7 0 0 3]).
  eexists. eexists. exists 1, 2, 7, 0, 0. vm_compute.
  split; [reflexivity|]. split; [discriminate|]. split; [reflexivity|]. split; [reflexivity|].
  split; [reflexivity|]. split.
  - intros it [<-|[]]. discriminate.
  - eexists. split; [left; reflexivity|]. split; reflexivity.
Qed.
