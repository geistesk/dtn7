(* CrcStraddle.v - C03 for bursts that STRADDLE the covered bytes d and the CRC value v of a block
   w = d ++ v (bursts inside d: CrcBlock.v and C03_burst_rejected).

   Result (Properties/C03_straddle.v, from straddle_generic): two equal-length blocks that both satisfy
   the CRC equation (crc_holds, CRC-16/X-25 or CRC-32C) cannot differ by a non-zero burst of at most
   W = 8*len bits ANYWHERE in the block - inside d, inside v, or across the d/v boundary - in bytes_bits
   order (LSB first within every byte, bytes in stream order), provided the byte just before the value
   is the same in both.  That byte is the CBOR byte-string head of the CRC field; it is the last of the
   covered bytes d.

   The head-byte premise is necessary: without it there are undetected straddling bursts of <= W
   bits (e.g. for CRC-32C already "flip bit 7 of the head byte" has a CRC difference whose
   big-endian bytes, read LSB first, end 31 bit positions later).

   Method.  Both blocks satisfy the equation, so by linearity of the register the xor-difference of
   the two transmitted values is vb delta, delta = run 0 (xd ++ 0^W), xd = the difference of the
   covered bytes, vb n = bytes_bits (be_encode len n).  If the value is unchanged, delta = 0 and the
   burst theorem applies.  Otherwise the first set bit of xd and a changed value bit both lie in the
   burst, which also holds the 8 bits of the (unchanged) head byte: that first bit is k <= W-9 bits before
   the head byte; delta depends only on the k-bit tail pattern x that starts there (zeros before it keep
   the register 0): delta = delta_of x, and GF(2)-linearly in x.  With c_i := vb (c_at i), c_at i =
   delta_of of the pattern with only the bit i places before the head byte set, the value difference
   of a pattern is the xor of its c_i
   (delta_of_cons).  The burst spans more than W bits iff the value difference of a k-bit pattern that
   starts with a set bit reaches bit position >= W-8-k of the value field, i.e. iff c_(k-1) is linearly
   independent of c_0 .. c_(k-2) above that position.  For each k <= W-9 a mask whose parity functional
   (sep) vanishes on c_0 .. c_(k-2) and not on c_(k-1) witnesses this (masks_exist); the masks of the two
   polynomials were found by Gaussian elimination, and checking them is a few hundred parities. *)
From DTN Require Import Base ListFacts Crc CrcProofs Bundle CrcBlock.
Open Scope N_scope.

Lemma burst_pos pre e post p :
  nth p (repeat false pre ++ e ++ repeat false post) false = true -> (pre <= p < pre + length e)%nat.
Proof.
  intros H. destruct (Nat.lt_ge_cases p pre) as [Hlt|Hge].
  - rewrite app_nth1 in H by (rewrite repeat_length; lia). rewrite nth_repeat in H. discriminate.
  - rewrite app_nth2 in H by (rewrite repeat_length; lia). rewrite repeat_length in H.
    destruct (Nat.lt_ge_cases (p - pre) (length e)) as [Hl|Hg]; [lia|].
    rewrite app_nth2 in H by lia. rewrite nth_repeat in H. discriminate.
Qed.

Lemma burst_span l pre e post p q : l = repeat false pre ++ e ++ repeat false post ->
  nth p l false = true -> nth q l false = true -> (q < p + length e)%nat.
Proof. intros -> Hp Hq. apply burst_pos in Hp, Hq. lia. Qed.

Definition vb (len : nat) (n : N) : list bool := bytes_bits (be_encode len n).

Lemma vb_length len n : length (vb len n) = (8 * len)%nat.
Proof. unfold vb. rewrite bytes_bits_length, be_encode_length. reflexivity. Qed.

Lemma byte_bits_lxor k : forall a b, xorbits (byte_bits k a) (byte_bits k b) = byte_bits k (N.lxor a b).
Proof.
  induction k as [|k IH]; intros a b; cbn [byte_bits xorbits]; [reflexivity|].
  rewrite Nxor_bit0, N.shiftr_lxor, IH. reflexivity.
Qed.

Lemma be_byte_lxor a b k :
  (N.lxor a b / 256 ^ N.of_nat k) mod 256
  = N.lxor ((a / 256 ^ N.of_nat k) mod 256) ((b / 256 ^ N.of_nat k) mod 256).
Proof.
  rewrite pow256, <- !N.shiftr_div_pow2. change 256 with (2 ^ 8).
  rewrite <- !N.land_ones, N.shiftr_lxor. apply land_lxor_distr_r.
Qed.

Lemma vb_lxor len : forall a b, xorbits (vb len a) (vb len b) = vb len (N.lxor a b).
Proof.
  unfold vb. induction len as [|len IH]; intros a b; cbn [be_encode bytes_bits xorbits]; [reflexivity|].
  rewrite xorbits_app by (rewrite !byte_bits_length; reflexivity).
  rewrite byte_bits_lxor, IH, be_byte_lxor. reflexivity.
Qed.

Lemma be_encode_0 len : be_encode len 0 = repeat 0 len.
Proof.
  induction len as [|len IH]; cbn [be_encode repeat]; [reflexivity|]. rewrite IH. reflexivity.
Qed.

Lemma vb_0 len : vb len 0 = repeat false (8 * len).
Proof. unfold vb. rewrite be_encode_0. apply bytes_bits_zeros. Qed.

Lemma word_byte_bits k : forall b, word (byte_bits k b) = b mod 2 ^ N.of_nat k.
Proof.
  induction k as [|k IH]; intros b.
  - cbn. symmetry. apply N.mod_1_r.
  - cbn [byte_bits word]. rewrite IH, Nat2N.inj_succ, N.pow_succ_r'.
    rewrite N.mod_mul_r by (try apply N.pow_nonzero; discriminate).
    rewrite <- N.bit0_mod, N.bit0_odd, N.shiftr_div_pow2. reflexivity.
Qed.

Lemma be_bits_zero_inv k : forall n,
  bytes_bits (be_encode k n) = repeat false (8 * k) -> be_encode k n = repeat 0 k.
Proof.
  induction k as [|k IH]; intros n Hz; cbn [be_encode repeat]; [reflexivity|].
  cbn [be_encode bytes_bits] in Hz.
  replace (8 * S k)%nat with (8 + 8 * k)%nat in Hz by lia. rewrite repeat_app in Hz.
  apply app_inv_tail_length in Hz; [|rewrite bytes_bits_length, be_encode_length, repeat_length; reflexivity].
  destruct Hz as [Hb Hr]. rewrite (IH n Hr). f_equal.
  apply (f_equal word) in Hb. rewrite word_byte_bits, word_repeat_false in Hb.
  change (2 ^ N.of_nat 8) with 256 in Hb. rewrite N.mod_mod in Hb by discriminate. exact Hb.
Qed.

Lemma vb_zero_inv len n : n < 256 ^ N.of_nat len -> vb len n = repeat false (8 * len) -> n = 0.
Proof.
  intros Hn Hz. apply (be_encode_inj len); [exact Hn|lia|].
  rewrite be_encode_0. apply be_bits_zero_inv. exact Hz.
Qed.

(* CRC difference caused by a pattern x placed right before the unchanged head byte (8 zero bits), from
   state 0; c_at m: the pattern is a single set bit followed by m zeros *)
Definition delta_of (len : nat) (P : N) (x : list bool) : N := crc_run P 0 (x ++ repeat false (8 + 8 * len)).
Definition c_at (len : nat) (P : N) (m : nat) : N := crc_run P 0 (true :: repeat false (m + (8 + 8 * len))).

Lemma delta_of_nil len P : delta_of len P [] = 0.
Proof. unfold delta_of. cbn [app]. apply run_zeros_0. Qed.

Lemma delta_of_cons len P b r :
  delta_of len P (b :: r) = N.lxor (if b then c_at len P (length r) else 0) (delta_of len P r).
Proof.
  unfold delta_of, c_at. cbn [app crc_run]. destruct b.
  - rewrite (run_split P (crc_stepb P 0 true)), app_length, repeat_length. reflexivity.
  - change (crc_stepb P 0 false) with 0. rewrite N.lxor_0_l. reflexivity.
Qed.

(* vb (delta_of x) is the xor of the c_i = vb (c_at i) at the set bits of x.  What is needed is that a pattern
   of length m+1 starting with a set bit changes the value at some position >= T = W-9-m (W = 8*len), i.e.
   that c_m is not, from position T on, a combination of c_0 .. c_(m-1).  A linear functional that vanishes on
   those and not on c_m certifies it: sep T q l = the parity of the bits of l from position T on that the
   mask q selects (bit i of q against position T+i). *)
Fixpoint sep (T : nat) (q : N) (l : list bool) : bool :=
  match l, T with
  | [], _ => false
  | b :: l', O => xorb (N.odd q && b) (sep O (N.div2 q) l')
  | _ :: l', S T' => sep T' q l'
  end.

Lemma sep_xorbits a : forall b T q, length a = length b ->
  sep T q (xorbits a b) = xorb (sep T q a) (sep T q b).
Proof.
  induction a as [|x a IH]; intros [|y b] T q Hl; try discriminate; [reflexivity|].
  cbn [xorbits sep]. destruct T; rewrite IH by (cbn in Hl; lia); [|reflexivity].
  destruct (N.odd q), x, y, (sep 0 (N.div2 q) a), (sep 0 (N.div2 q) b); reflexivity.
Qed.

Lemma sep_zeros n : forall T q, sep T q (repeat false n) = false.
Proof. induction n as [|n IH]; intros [|T] q; cbn [repeat sep]; rewrite ?andb_false_r, ?IH; reflexivity. Qed.

Lemma sep_pos l : forall T q, sep T q l = true -> exists j, (T <= j)%nat /\ nth j l false = true.
Proof.
  induction l as [|b l IH]; intros T q H; [discriminate|]. cbn [sep] in H. destruct T as [|T].
  - destruct b; [exists 0%nat; split; [lia|reflexivity]|]. rewrite andb_false_r, xorb_false_l in H.
    destruct (IH _ _ H) as (j & _ & Hj). exists (S j). split; [lia|exact Hj].
  - destruct (IH _ _ H) as (j & Hj & Hn). exists (S j). split; [lia|exact Hn].
Qed.

(* c_(m-1), ..., c_0 *)
Fixpoint c_list (len : nat) (P : N) (m : nat) : list (list bool) :=
  match m with O => [] | S m' => vb len (c_at len P m') :: c_list len P m' end.

(* qs = the masks for patterns of length (length qs), ..., 1 *)
Fixpoint indep (len : nat) (P : N) (qs : list N) : bool :=
  match qs with
  | [] => true
  | q :: qs' =>
      let m := length qs' in let T := (8 * len - 9 - m)%nat in
      sep T q (vb len (c_at len P m)) && forallb (fun c => negb (sep T q c)) (c_list len P m) && indep len P qs'
  end.

Lemma sep_delta_of len P T q r :
  forallb (fun c => negb (sep T q c)) (c_list len P (length r)) = true -> sep T q (vb len (delta_of len P r)) = false.
Proof.
  induction r as [|b r IH]; intros H.
  - rewrite delta_of_nil, vb_0. apply sep_zeros.
  - cbn [length c_list forallb] in H. apply andb_true_iff in H. destruct H as [Hc Hr].
    rewrite delta_of_cons, <- vb_lxor, sep_xorbits, (IH Hr), xorb_false_r by (rewrite !vb_length; reflexivity).
    destruct b; [apply negb_true_iff, Hc|rewrite vb_0; apply sep_zeros].
Qed.

Lemma indep_ok len P qs : indep len P qs = true -> forall m, (m < length qs)%nat ->
  exists q, let T := (8 * len - 9 - m)%nat in
    sep T q (vb len (c_at len P m)) = true /\ forallb (fun c => negb (sep T q c)) (c_list len P m) = true.
Proof.
  induction qs as [|q qs IH]; intros H m Hm; [cbn in Hm; lia|].
  cbn [indep] in H. apply andb_true_iff in H. destruct H as [H Hq]. apply andb_true_iff in H.
  destruct (Nat.eq_dec m (length qs)) as [->|Hne]; [exists q; exact H|]. apply IH; [exact Hq|cbn in Hm; lia].
Qed.

Definition masks_exist (len : nat) (P : N) : Prop :=
  exists qs, length qs = (8 * len - 9)%nat /\ indep len P qs = true.

(* a tail pattern of at most W-9 bits that starts with a set bit changes the value field at a position
   that is at least W bits after that bit *)
Lemma tail_far len P (Hok : masks_exist len P) r : (length r < 8 * len - 9)%nat ->
  exists j, (8 * len - 9 - length r <= j)%nat /\ nth j (vb len (delta_of len P (true :: r))) false = true.
Proof.
  destruct Hok as (qs & Hl & Hall). intros Hr.
  destruct (indep_ok len P qs Hall (length r) ltac:(lia)) as (q & Hc & Hq).
  apply (sep_pos _ _ q).
  rewrite delta_of_cons, <- vb_lxor, sep_xorbits, Hc, (sep_delta_of _ _ _ _ _ Hq) by (rewrite !vb_length; reflexivity).
  reflexivity.
Qed.

Theorem straddle_core len P (Hp : crc_params (8 * N.of_nat len) P) (Hok : masks_exist len P) xd pre e post delta :
  delta = crc_run P 0 (xd ++ repeat false (8 * len)) ->
  (xd = [] \/ exists x, xd = x ++ repeat false 8) ->
  xd ++ vb len delta = repeat false pre ++ e ++ repeat false post ->
  (length e <= 8 * len)%nat -> word e <> 0 -> False.
Proof.
  intros Hd Hhead Hx He Hne. pose proof Hp as (H1 & H2 & H3).
  destruct (first_set (vb len delta)) as [Hz | (j & rj & Hj)].
  - (* the value is unchanged: the classical burst argument *)
    rewrite vb_length in Hz. apply Hne, (burst_padded _ P H1 H2 H3 pre e post); [lia|].
    rewrite <- Hx, Hz, <- Hd. apply (vb_zero_inv len); [|exact Hz].
    rewrite Hd, pow256. apply (run_lt _ P H1 H2 H3). lia.
  - assert (Hjt : nth j (vb len delta) false = true) by (rewrite Hj; apply nth_first_set).
    (* the value is changed at position j, so the covered bytes differ: zero data would give delta = 0 *)
    assert (Hx0 : forall k, xd <> repeat false k).
    { intros k E. rewrite Hd, E, <- repeat_app, run_zeros_0, vb_0, nth_repeat in Hjt. discriminate. }
    destruct Hhead as [-> | (x & ->)]; [exact (Hx0 0%nat eq_refl)|].
    (* the first set bit of the data tail x before the head byte: x = 0^i 1 r *)
    destruct (first_set x) as [Hxz | (i & r & ->)].
    { apply (Hx0 (length x + 8)%nat). rewrite repeat_app, <- Hxz. reflexivity. }
    assert (Hdr : delta = delta_of len P (true :: r)).
    { rewrite Hd. unfold delta_of.
      rewrite <- !app_assoc, (crc_run_app P 0 (repeat false i)), run_zeros_0, <- repeat_app. reflexivity. }
    (* that bit and every changed value bit lie in the burst, so less than W bits apart *)
    assert (Hv : forall k, nth k (vb len delta) false = true -> (length r + 9 + k < 8 * len)%nat).
    { intros k Hk.
      assert (Hq : (length ((repeat false i ++ true :: r) ++ repeat false 8) + k < i + length e)%nat).
      { apply (burst_span _ pre e post _ _ Hx); [rewrite <- !app_assoc; apply nth_first_set|].
        rewrite app_nth2_plus. exact Hk. }
      rewrite !app_length, !repeat_length in Hq. cbn [length] in Hq. lia. }
    (* but tail_far puts a changed value bit at least W bits after it *)
    destruct (tail_far len P Hok r) as (j' & Hj' & Hj't); [specialize (Hv j Hjt); lia|].
    rewrite <- Hdr in Hj't. specialize (Hv j' Hj't). lia.
Qed.

Lemma head_split (d1 d2 v1 v2 : list N) len :
  length d1 = length d2 -> length v1 = len -> length v2 = len ->
  nth_error (d1 ++ v1) (length (d1 ++ v1) - len - 1) = nth_error (d2 ++ v2) (length (d2 ++ v2) - len - 1) ->
  (d1 = [] /\ d2 = []) \/ exists a1 a2 h, d1 = a1 ++ [h] /\ d2 = a2 ++ [h] /\ length a1 = length a2.
Proof.
  intros Hd Hv1 Hv2.
  induction d1 as [|h1 a1 _] using rev_ind; induction d2 as [|h2 a2 _] using rev_ind.
  - intros _. left. split; reflexivity.
  - exfalso. rewrite app_length in Hd. cbn in Hd. lia.
  - exfalso. rewrite app_length in Hd. cbn in Hd. lia.
  - intros H. right. rewrite !app_length in Hd. cbn [length] in Hd.
    replace (length ((a1 ++ [h1]) ++ v1) - len - 1)%nat with (length a1) in H by (rewrite !app_length; cbn [length]; lia).
    replace (length ((a2 ++ [h2]) ++ v2) - len - 1)%nat with (length a2) in H by (rewrite !app_length; cbn [length]; lia).
    rewrite <- !app_assoc in H. rewrite (nth_error_app2 a1), (nth_error_app2 a2), !Nat.sub_diag in H by lia. cbn in H.
    injection H as ->. exists a1, a2, h2. repeat split. lia.
Qed.

Theorem straddle_generic t len P init xo (Hs : crc_spec t len P init xo) (Hok : masks_exist len P) d1 d2 v1 v2 pre e post :
  length d1 = length d2 ->
  v1 = be_encode len (crc_value t (d1 ++ zeros len)) ->
  v2 = be_encode len (crc_value t (d2 ++ zeros len)) ->
  xorbits (bytes_bits (d1 ++ v1)) (bytes_bits (d2 ++ v2)) = repeat false pre ++ e ++ repeat false post ->
  (length e <= 8 * len)%nat -> word e <> 0 ->
  nth_error (d1 ++ v1) (length (d1 ++ v1) - len - 1) = nth_error (d2 ++ v2) (length (d2 ++ v2) - len - 1) ->
  False.
Proof.
  intros Hd E1 E2 Hx He Hne Hh. destruct Hs as (_ & Hp & _ & _ & Hval).
  assert (Hv1 : length v1 = len) by (rewrite E1; apply be_encode_length).
  assert (Hv2 : length v2 = len) by (rewrite E2; apply be_encode_length).
  rewrite !bytes_bits_app, xorbits_app in Hx by (rewrite !bytes_bits_length, Hd; reflexivity).
  set (xd := xorbits (bytes_bits d1) (bytes_bits d2)) in *.
  (* by linearity the value fields differ by the CRC, from state 0, of the difference of the covered bytes *)
  assert (Hxv : xorbits (bytes_bits v1) (bytes_bits v2) = vb len (crc_run P 0 (xd ++ repeat false (8 * len)))).
  { rewrite E1, E2. fold (vb len (crc_value t (d1 ++ zeros len))) (vb len (crc_value t (d2 ++ zeros len))).
    rewrite vb_lxor, !Hval, lxor_xo, !crc_update_bits. f_equal.
    rewrite <- (N.lxor_nilpotent init), <- run_lxor by (rewrite !bytes_bits_length, !app_length, Hd; reflexivity).
    rewrite xorbits_bytes_app_same by exact Hd. unfold zeros. rewrite repeat_length. reflexivity. }
  rewrite Hxv in Hx.
  apply (straddle_core len P Hp Hok _ pre e post _ eq_refl) in Hx; [exact Hx| |exact He|exact Hne].
  destruct (head_split d1 d2 v1 v2 len Hd Hv1 Hv2 Hh) as [[-> ->] | (a1 & a2 & h & -> & -> & Ha)].
  - left. reflexivity.
  - right. exists (xorbits (bytes_bits a1) (bytes_bits a2)). apply (xorbits_bytes_app_same a1 a2 [h] Ha).
Qed.

Lemma crc16_masks : masks_exist 2 poly16.
Proof. exists [10752; 10752; 3104; 1792; 1792; 512; 128]. split; vm_compute; reflexivity. Qed.

Lemma crc32c_masks : masks_exist 4 poly32c.
Proof.
  exists [427703040; 201855296; 15501952; 94437376; 94437376; 27591680; 27591680; 16449552; 5185552; 1388560;
          833680; 142464; 431648; 247296; 51840; 15104; 9728; 9728; 3584; 1056; 1536; 128; 256].
  split; vm_compute; reflexivity.
Qed.

Lemma crc_types_masks t : t = 1 \/ t = 2 ->
  exists len P init xo, crc_spec t len P init xo /\ masks_exist len P.
Proof.
  intros [-> | ->].
  - exists 2%nat, poly16, ones16, ones16. exact (conj crc_spec_16 crc16_masks).
  - exists 4%nat, poly32c, ones32, ones32. exact (conj crc_spec_32 crc32c_masks).
Qed.
