(* TcpclProofs.v - proofs about Model/Tcpcl.v (TCPCLv4 transfers): the segment sequence of a transfer,
   the receiver under interleaving (for each transfer id it behaves as [one_run] on the segments that
   carry the id), Send as a state machine, the session level. *)
From DTN Require Import Base ListFacts Tcpcl.
Open Scope N_scope.

Lemma has_start_flags a b n d : sg_has_start (mkSeg (flags_of a b) n d) = a.
Proof. destruct a, b; reflexivity. Qed.
Lemma has_end_flags a b n d : sg_has_end (mkSeg (flags_of a b) n d) = b.
Proof. destruct a, b; reflexivity. Qed.

Lemma is_nil_true : forall A (l : list A), is_nil l = true <-> l = [].
Proof. intros A [|x l]; cbn; split; intro H; congruence. Qed.
Lemma is_nil_false : forall A (l : list A), is_nil l = false <-> l <> [].
Proof. intros A [|x l]; cbn; split; intro H; congruence. Qed.

Lemma ntake_firstn A (l : list A) : forall k, ntake k l = firstn (N.to_nat k) l.
Proof.
  induction l as [|x r IH]; intros k; cbn [ntake]; [destruct (N.to_nat k); reflexivity|].
  destruct (N.eqb_spec k 0) as [->|Hk]; [reflexivity|].
  rewrite IH. replace (N.to_nat k) with (S (N.to_nat (N.pred k))) by lia. reflexivity.
Qed.
Lemma ndrop_skipn A (l : list A) : forall k, ndrop k l = skipn (N.to_nat k) l.
Proof.
  induction l as [|x r IH]; intros k; cbn [ndrop]; [destruct (N.to_nat k); reflexivity|].
  destruct (N.eqb_spec k 0) as [->|Hk]; [reflexivity|].
  rewrite IH. replace (N.to_nat k) with (S (N.to_nat (N.pred k))) by lia. reflexivity.
Qed.

(* the buffer size actually used for a peer-declared MTU m *)
Definition seg_size (m : N) : nat := N.to_nat (N.min m tc_max_segment).

Lemma seg_size_pos m : 1 <= m -> (1 <= seg_size m)%nat.
Proof. intros Hm. unfold seg_size, tc_max_segment. lia. Qed.
Lemma seg_size_le : forall m, N.of_nat (seg_size m) <= m /\ N.of_nat (seg_size m) <= tc_max_segment.
Proof. intros m. unfold seg_size, tc_max_segment. lia. Qed.

Definition seg_of (m : N) (st : out_state) : segment :=
  mkSeg (flags_of (os_start st) (is_nil (skipn (seg_size m) (os_stream st)))) (os_tid st)
        (firstn (seg_size m) (os_stream st)).
Definition out_next (m : N) (st : out_state) : out_state :=
  mkOut (os_tid st) false (skipn (seg_size m) (os_stream st)).

Lemma next_segment_ok m st :
  1 <= m ->
  next_segment m st =
    match os_stream st with
    | [] => NsEof (mkOut (os_tid st) false [])
    | _ => NsSeg (seg_of m st) (N.min m tc_max_segment) (out_next m st)
    end.
Proof.
  intros Hm. unfold next_segment, seg_of, out_next, seg_size.
  replace (m =? 0) with false by (symmetry; apply N.eqb_neq; lia).
  replace (tc_int_limit <=? N.min m tc_max_segment) with false
    by (symmetry; apply N.leb_gt; unfold tc_int_limit, tc_max_segment; lia).
  rewrite ntake_firstn, ndrop_skipn. reflexivity.
Qed.

Lemma next_segment_empty m st :
  1 <= m -> os_stream st = [] -> next_segment m st = NsEof (mkOut (os_tid st) false []).
Proof. intros Hm He. rewrite next_segment_ok, He by assumption. reflexivity. Qed.
Lemma next_segment_nonempty m st :
  1 <= m -> os_stream st <> [] ->
  next_segment m st = NsSeg (seg_of m st) (N.min m tc_max_segment) (out_next m st).
Proof. intros Hm Hne. rewrite next_segment_ok by assumption. destruct (os_stream st); [congruence|reflexivity]. Qed.

Lemma out_next_shorter m st :
  1 <= m -> os_stream st <> [] -> (length (os_stream (out_next m st)) < length (os_stream st))%nat.
Proof. intros Hm Hne. exact (skipn_shorter _ _ (seg_size_pos m Hm) Hne). Qed.

Lemma segs_loop_empty fuel m st : 1 <= m -> os_stream st = [] -> segs_loop fuel m st = [].
Proof. intros Hm He. destruct fuel as [|f]; cbn [segs_loop]; [reflexivity|]. rewrite next_segment_empty by assumption. reflexivity. Qed.

Lemma segs_loop_step f m st :
  1 <= m -> os_stream st <> [] -> segs_loop (S f) m st = seg_of m st :: segs_loop f m (out_next m st).
Proof. intros Hm Hne. cbn [segs_loop]. rewrite next_segment_nonempty by assumption. reflexivity. Qed.

Lemma segs_loop_fuel f1 : forall f2 m st,
  1 <= m -> (length (os_stream st) < f1)%nat -> (length (os_stream st) < f2)%nat ->
  segs_loop f1 m st = segs_loop f2 m st.
Proof.
  induction f1 as [|f1 IH]; intros f2 m st Hm H1 H2; [lia|]. destruct f2 as [|f2]; [lia|].
  destruct (nil_or_not (os_stream st)) as [He|Hne].
  - rewrite !segs_loop_empty by assumption. reflexivity.
  - pose proof (out_next_shorter m st Hm Hne). rewrite !segs_loop_step by assumption.
    f_equal. apply IH; [assumption|lia|lia].
Qed.

Definition start_only_first (ss : list segment) : Prop :=
  exists s0 r, ss = s0 :: r /\ sg_has_start s0 = true /\ Forall (fun s => sg_has_start s = false) r.
Definition end_only_last (ss : list segment) : Prop :=
  exists f sl, ss = f ++ [sl] /\ sg_has_end sl = true /\ Forall (fun s => sg_has_end s = false) f.

Lemma segs_loop_props fuel : forall m st,
  1 <= m -> (length (os_stream st) < fuel)%nat -> os_stream st <> [] ->
  let ss := segs_loop fuel m st in
  concat (map sg_data ss) = os_stream st
  /\ Forall (fun s => sg_tid s = os_tid st /\ sg_data s <> [] /\ (length (sg_data s) <= seg_size m)%nat) ss
  /\ (exists s0 r, ss = s0 :: r /\ sg_has_start s0 = os_start st /\ Forall (fun s => sg_has_start s = false) r)
  /\ end_only_last ss.
Proof.
  induction fuel as [|f IH]; intros m st Hm Hf Hne; [lia|].
  pose proof (seg_size_pos m Hm) as Hk. pose proof (out_next_shorter m st Hm Hne) as Hlt.
  cbv zeta. rewrite segs_loop_step by assumption.
  assert (Hhd : sg_tid (seg_of m st) = os_tid st /\ sg_data (seg_of m st) <> []
                /\ (length (sg_data (seg_of m st)) <= seg_size m)%nat).
  { cbn [seg_of sg_tid sg_data]. rewrite firstn_length. auto using firstn_nonempty, Nat.le_min_l. }
  assert (Hst : sg_has_start (seg_of m st) = os_start st) by apply has_start_flags.
  assert (Hcat : sg_data (seg_of m st) ++ os_stream (out_next m st) = os_stream st) by apply firstn_skipn.
  assert (Hend : sg_has_end (seg_of m st) = is_nil (os_stream (out_next m st))) by apply has_end_flags.
  cbn [map concat]. destruct (nil_or_not (os_stream (out_next m st))) as [He|Hne'].
  - rewrite segs_loop_empty by assumption. rewrite He in Hcat, Hend. split; [exact Hcat|].
    split; [auto|]. split.
    + exists (seg_of m st), []. auto.
    + exists [], (seg_of m st). auto.
  - destruct (IH m (out_next m st) Hm) as (Hc & Hall & (s0 & r0 & Hs0 & Hst0 & Hrest) & (fr & sl & Hfr & Hsl & Hnoend));
      [lia|exact Hne'|].
    apply is_nil_false in Hne'. rewrite Hne' in Hend.
    split; [rewrite Hc; exact Hcat|]. split; [constructor; assumption|]. split.
    + exists (seg_of m st), (segs_loop f m (out_next m st)). rewrite Hs0. auto.
    + exists (seg_of m st :: fr), sl. rewrite Hfr. auto.
Qed.

Lemma tcpcl_segments bs m tid :
  bs <> [] -> 1 <= m ->
  let ss := segments bs m tid in
  Forall (fun s => sg_tid s = tid /\ 1 <= nlen (sg_data s) <= N.min m tc_max_segment) ss
  /\ concat (map sg_data ss) = bs
  /\ start_only_first ss
  /\ end_only_last ss.
Proof.
  intros Hne Hm.
  destruct (segs_loop_props (S (length bs)) m (out_init tid bs) Hm (Nat.lt_succ_diag_r _) Hne)
    as (Hc & Hall & Hst & Hend).
  split; [|auto]. eapply Forall_impl; [|exact Hall]. intros s (Ht & Hd & Hl).
  split; [exact Ht|]. apply nlen_pos in Hd. unfold seg_size, nlen in *. lia.
Qed.

Lemma segs_loop_divisor q : forall fuel m st,
  1 <= m -> (length (os_stream st) < fuel)%nat -> length (os_stream st) = (q * seg_size m)%nat ->
  length (segs_loop fuel m st) = q /\ Forall (fun s => length (sg_data s) = seg_size m) (segs_loop fuel m st).
Proof.
  induction q as [|q IH]; intros fuel m st Hm Hf Hlen.
  - apply length_zero_iff_nil in Hlen. rewrite segs_loop_empty by assumption. split; [reflexivity|constructor].
  - pose proof (seg_size_pos m Hm) as Hk. destruct fuel as [|f]; [lia|].
    assert (Hne : os_stream st <> []) by (intros H0; rewrite H0 in Hlen; cbn [length] in Hlen; lia).
    pose proof (out_next_shorter m st Hm Hne) as Hlt.
    rewrite segs_loop_step by assumption.
    destruct (IH f m (out_next m st) Hm) as (Hl & Hall); [lia|cbn [out_next os_stream]; rewrite skipn_length; lia|].
    split; [cbn [length]; rewrite Hl; reflexivity|].
    constructor; [|exact Hall]. cbn [seg_of sg_data]. rewrite firstn_length. lia.
Qed.

Lemma next_segment_no_panic m st : next_segment m st <> NsPanic.
Proof.
  destruct (N.eqb_spec m 0) as [->|Hm0]; [discriminate|].
  rewrite next_segment_ok by lia. destruct (os_stream st); discriminate.
Qed.

Lemma next_segment_seg m st s a st' :
  next_segment m st = NsSeg s a st' ->
  1 <= m /\ os_stream st <> [] /\ s = seg_of m st /\ a = N.min m tc_max_segment /\ st' = out_next m st.
Proof.
  intros H.
  assert (Hm : 1 <= m) by (destruct (N.eqb_spec m 0) as [->|]; [discriminate H|lia]).
  rewrite next_segment_ok in H by exact Hm.
  destruct (os_stream st); [discriminate H|]. inversion H. repeat split; [exact Hm|discriminate].
Qed.

Lemma out_loop_bounded m fuel : forall st,
  (length (fst (out_loop next_segment fuel m st)) <= length (os_stream st))%nat
  /\ snd (out_loop next_segment fuel m st) <> OtPanic.
Proof.
  induction fuel as [|f IH]; intros st; cbn [out_loop]; [split; [apply Nat.le_0_l|discriminate]|].
  destruct (next_segment m st) as [s a st'| | |] eqn:E; cbn [fst snd length]; try (split; [lia|discriminate]).
  - apply next_segment_seg in E. destruct E as (Hm & Hne & _ & _ & ->).
    pose proof (out_next_shorter m st Hm Hne). destruct (IH (out_next m st)) as (Hl & Hp). split; [lia|exact Hp].
  - destruct (next_segment_no_panic m st E).
Qed.

Lemma out_loop_segs : forall fuel m st,
  map fst (fst (out_loop next_segment fuel m st)) = segs_loop fuel m st.
Proof.
  induction fuel as [|f IH]; intros m st; cbn [out_loop segs_loop]; [reflexivity|].
  destruct (next_segment m st); cbn [fst map]; try reflexivity. rewrite IH. reflexivity.
Qed.

Lemma rx_lookup_del st : forall t t', rx_lookup (rx_del st t) t' = if t =? t' then [] else rx_lookup st t'.
Proof.
  induction st as [|[k v] st IH]; intros t t'; cbn [rx_del rx_lookup]; [destruct (t =? t'); reflexivity|].
  destruct (N.eqb_spec k t) as [->|Hk]; cbn [rx_lookup]; rewrite IH; destruct (N.eqb_spec t t') as [<-|]; try reflexivity.
  destruct (N.eqb_spec k t); [contradiction|reflexivity].
Qed.
Lemma rx_lookup_set st t t' v : rx_lookup (rx_set st t v) t' = if t =? t' then v else rx_lookup st t'.
Proof. unfold rx_set. cbn [rx_lookup]. rewrite rx_lookup_del. destruct (t =? t'); reflexivity. Qed.

Lemma rx_run_cons st s ss :
  rx_run st (s :: ss) =
    let r := rx_run (fst (fst (rx_step st s))) ss in
    (fst (fst r), snd (fst (rx_step st s)) :: snd (fst r),
     match snd (rx_step st s) with Some x => x :: snd r | None => snd r end).
Proof.
  cbn [rx_run]. destruct (rx_step st s) as [[st' a] d]. cbn [fst snd].
  destruct (rx_run st' ss) as [[st'' acks] ds].
  reflexivity.
Qed.

Lemma rx_delivered_tids ss : forall st, map fst (snd (rx_run st ss)) = map sg_tid (filter sg_has_end ss).
Proof.
  induction ss as [|s ss IH]; intros st; [reflexivity|]. rewrite rx_run_cons. unfold rx_step. cbn [filter].
  destruct (sg_has_end s); cbn [fst snd map]; rewrite IH; reflexivity.
Qed.

Lemma rx_delivery_tid ss st d : In d (snd (rx_run st ss)) -> exists s, In s ss /\ sg_tid s = fst d.
Proof.
  intros Hin. apply (in_map fst) in Hin. rewrite rx_delivered_tids in Hin.
  apply in_map_iff in Hin. destruct Hin as (s & Ht & Hs). apply filter_In in Hs. exists s. split; [apply Hs|exact Ht].
Qed.

Lemma rx_run_count ss st : length (snd (rx_run st ss)) = length (filter sg_has_end ss).
Proof. rewrite <- (map_length fst), rx_delivered_tids. apply map_length. Qed.

(* what one transfer id sees of a segment stream: its buffer and its deliveries *)
Fixpoint one_run (t : N) (buf : list N) (ss : list segment) : list N * list (N * list N) :=
  match ss with
  | [] => (buf, [])
  | s :: ss =>
    if sg_has_end s then let r := one_run t [] ss in (fst r, (t, buf ++ sg_data s) :: snd r)
    else one_run t (buf ++ sg_data s) ss
  end.

(* the test of Tcpcl.tcc_for_tid: [tcc_for_tid t tr] is [filter (for_tid t) tr] *)
Definition for_tid (t : N) (s : segment) : bool := sg_tid s =? t.
Definition dl_tid (t : N) (d : N * list N) : bool := fst d =? t.

Lemma rx_run_project ss : forall st t,
  rx_lookup (fst (fst (rx_run st ss))) t = fst (one_run t (rx_lookup st t) (filter (for_tid t) ss))
  /\ filter (dl_tid t) (snd (rx_run st ss)) = snd (one_run t (rx_lookup st t) (filter (for_tid t) ss)).
Proof.
  induction ss as [|s ss IH]; intros st t; [split; reflexivity|].
  specialize (IH (fst (fst (rx_step st s))) t). rewrite rx_run_cons. unfold rx_step, for_tid, dl_tid in *.
  destruct (sg_has_end s) eqn:He; cbn [fst snd filter] in *.
  - rewrite rx_lookup_del in IH. revert IH. destruct (N.eqb_spec (sg_tid s) t) as [<-|Ht]; intros IH; [|exact IH].
    cbn [one_run]. rewrite He. cbn [fst snd]. destruct IH as [IH1 IH2]. split; [exact IH1|]. rewrite IH2. reflexivity.
  - rewrite rx_lookup_set in IH. revert IH. destruct (N.eqb_spec (sg_tid s) t) as [<-|Ht]; intros IH; [|exact IH].
    cbn [one_run]. rewrite He. exact IH.
Qed.

Lemma one_run_complete t buf ss :
  end_only_last ss -> one_run t buf ss = ([], [(t, buf ++ concat (map sg_data ss))]).
Proof.
  intros (f & sl & -> & Hend & Hf). revert buf.
  induction Hf as [|s f Hs Hf IH]; intros buf; cbn [app map concat one_run].
  - rewrite Hend, app_nil_r. reflexivity.
  - rewrite Hs, IH, app_assoc. reflexivity.
Qed.

Inductive Merge {A} : list A -> list A -> list A -> Prop :=
| merge_nil : Merge [] [] []
| merge_l : forall x l1 l2 l, Merge l1 l2 l -> Merge (x :: l1) l2 (x :: l)
| merge_r : forall x l1 l2 l, Merge l1 l2 l -> Merge l1 (x :: l2) (x :: l).

Inductive MergeAll {A} : list (list A) -> list A -> Prop :=
| ma_nil : MergeAll [] []
| ma_cons : forall l ls tr' tr, MergeAll ls tr' -> Merge l tr' tr -> MergeAll (l :: ls) tr.

Lemma merge_filter A (p : A -> bool) l1 l2 l :
  Merge l1 l2 l -> Merge (filter p l1) (filter p l2) (filter p l).
Proof.
  intros H. induction H as [|x l1 l2 l _ IH|x l1 l2 l _ IH]; cbn [filter]; [constructor| |]; destruct (p x); try constructor; exact IH.
Qed.
Lemma merge_nil_r A (l1 l : list A) : Merge l1 [] l -> l = l1.
Proof.
  intros H. remember [] as l2 eqn:E. induction H as [|x l1 l2 l _ IH|]; [reflexivity| |discriminate].
  f_equal. apply IH, E.
Qed.
Lemma merge_nil_l A (l2 l : list A) : Merge [] l2 l -> l = l2.
Proof.
  intros H. remember [] as l1 eqn:E. induction H as [| |x l1 l2 l _ IH]; [reflexivity|discriminate|].
  f_equal. apply IH, E.
Qed.
Lemma merge_in A (l1 l2 l : list A) x : Merge l1 l2 l -> In x l -> In x l1 \/ In x l2.
Proof.
  intros H. induction H as [|y l1 l2 l _ IH|y l1 l2 l _ IH]; cbn [In]; [tauto| |]; intros [->|Hin]; try tauto;
    destruct (IH Hin); tauto.
Qed.
Lemma merge_length A (l1 l2 l : list A) : Merge l1 l2 l -> length l = (length l1 + length l2)%nat.
Proof. intros H. induction H; cbn [length]; lia. Qed.

Lemma mergeall_in A (ls : list (list A)) tr x :
  MergeAll ls tr -> In x tr -> exists l, In l ls /\ In x l.
Proof.
  intros H. revert x. induction H as [|l ls tr' tr _ IH Hm]; intros x Hin; [destruct Hin|].
  destruct (merge_in _ _ _ _ x Hm Hin) as [Hl|Ht].
  - exists l. split; [left; reflexivity|assumption].
  - destruct (IH x Ht) as (l' & Hl' & Hx). exists l'. split; [right; assumption|assumption].
Qed.
Lemma mergeall_filter_length A (p : A -> bool) ls tr :
  MergeAll ls tr -> length (filter p tr) = list_sum (map (fun l => length (filter p l)) ls).
Proof.
  intros H. induction H as [|l ls tr' tr _ IH Hm]; [reflexivity|].
  cbn [map list_sum]. rewrite (merge_length _ _ _ _ (merge_filter _ p _ _ _ Hm)), IH. reflexivity.
Qed.

(* a transfer: id, negotiated segment size, encoded bundle *)
Record xfer := mkX { x_tid : N; x_m : N; x_bs : list N }.
Definition xfer_ok (x : xfer) : Prop := x_bs x <> [] /\ 1 <= x_m x.
Definition xfer_segs (x : xfer) : list segment := segments (x_bs x) (x_m x) (x_tid x).

Lemma xfer_segs_tid x s : xfer_ok x -> In s (xfer_segs x) -> sg_tid s = x_tid x.
Proof.
  intros [Hne Hm] Hin. destruct (tcpcl_segments (x_bs x) (x_m x) (x_tid x) Hne Hm) as (Hall & _).
  rewrite Forall_forall in Hall. apply (Hall s Hin).
Qed.

Lemma transfer_delivered x tr :
  xfer_ok x -> filter (for_tid (x_tid x)) tr = xfer_segs x ->
  filter (dl_tid (x_tid x)) (rx_delivered tr) = [(x_tid x, x_bs x)].
Proof.
  intros [Hne Hm] Hf. unfold rx_delivered. rewrite (proj2 (rx_run_project tr [] (x_tid x))), Hf.
  destruct (tcpcl_segments (x_bs x) (x_m x) (x_tid x) Hne Hm) as (_ & Hc & _ & Hend).
  unfold xfer_segs. rewrite one_run_complete by exact Hend. cbn [rx_lookup snd app]. rewrite Hc. reflexivity.
Qed.

Lemma tcpcl_single_delivery bs m tid :
  bs <> [] -> 1 <= m -> rx_delivered (segments bs m tid) = [(tid, bs)].
Proof.
  intros Hne Hm. pose (x := mkX tid m bs). assert (Hx : xfer_ok x) by (split; assumption).
  assert (Hall : forall s, In s (xfer_segs x) -> for_tid tid s = true)
    by (intros s Hs; apply N.eqb_eq, (xfer_segs_tid x s Hx Hs)).
  change [(tid, bs)] with [(x_tid x, x_bs x)].
  rewrite <- (transfer_delivered x (xfer_segs x) Hx (filter_all_true _ _ Hall)).
  symmetry. apply filter_all_true. intros d Hin. destruct (rx_delivery_tid _ _ _ Hin) as (s & Hs & Ht).
  unfold dl_tid. rewrite <- Ht. exact (Hall s Hs).
Qed.

Lemma trace_tids xs tr s :
  Forall xfer_ok xs -> MergeAll (map xfer_segs xs) tr -> In s tr -> exists x, In x xs /\ sg_tid s = x_tid x.
Proof.
  intros Hok Hm Hs. destruct (mergeall_in _ _ _ s Hm Hs) as (l & Hl & Hsl).
  apply in_map_iff in Hl. destruct Hl as (x & <- & Hx). rewrite Forall_forall in Hok.
  exists x. split; [exact Hx|exact (xfer_segs_tid x s (Hok x Hx) Hsl)].
Qed.

Lemma mergeall_filter xs : forall tr,
  NoDup (map x_tid xs) -> Forall xfer_ok xs -> MergeAll (map xfer_segs xs) tr ->
  forall x, In x xs -> filter (for_tid (x_tid x)) tr = xfer_segs x.
Proof.
  induction xs as [|x0 xs IH]; intros tr Hnd Hok Hm x Hin; [destruct Hin|].
  cbn [map] in Hm, Hnd. inversion Hm as [|l ls tr' tr0 Hm' Hmerge]; subst.
  inversion Hnd as [|? ? Hnotin Hnd']; subst. inversion Hok as [|? ? Hok0 Hok']; subst.
  pose proof (merge_filter _ (for_tid (x_tid x)) _ _ _ Hmerge) as Hf.
  destruct Hin as [->|Hin].
  - (* the head transfer: all of its own segments, none of the others' *)
    rewrite (filter_all_true _ (xfer_segs x)) in Hf
      by (intros s Hs; apply N.eqb_eq, xfer_segs_tid; assumption).
    rewrite (filter_all_false _ tr') in Hf.
    { apply merge_nil_r in Hf. exact Hf. }
    intros s Hs. destruct (trace_tids xs tr' s Hok' Hm' Hs) as (y & Hy & Ht).
    apply N.eqb_neq. rewrite Ht. intro Heq. apply Hnotin. rewrite <- Heq. apply in_map. exact Hy.
  - rewrite (filter_all_false _ (xfer_segs x0)) in Hf.
    { apply merge_nil_l in Hf. rewrite Hf. apply IH; assumption. }
    intros s Hs. apply N.eqb_neq. rewrite (xfer_segs_tid x0 s Hok0 Hs).
    intro Heq. apply Hnotin. rewrite Heq. apply in_map. exact Hin.
Qed.

Lemma tcpcl_receiver xs tr :
  NoDup (map x_tid xs) -> Forall xfer_ok xs -> MergeAll (map xfer_segs xs) tr ->
  (forall x, In x xs -> filter (dl_tid (x_tid x)) (rx_delivered tr) = [(x_tid x, x_bs x)])
  /\ (forall d, In d (rx_delivered tr) -> exists x, In x xs /\ d = (x_tid x, x_bs x)).
Proof.
  intros Hnd Hok Hm.
  assert (H1 : forall x, In x xs -> filter (dl_tid (x_tid x)) (rx_delivered tr) = [(x_tid x, x_bs x)]).
  { intros x Hin. apply transfer_delivered; [|apply (mergeall_filter xs); assumption].
    rewrite Forall_forall in Hok. exact (Hok x Hin). }
  split; [exact H1|].
  intros d Hd. destruct (rx_delivery_tid _ _ _ Hd) as (s & Hs & Ht).
  destruct (trace_tids xs tr s Hok Hm Hs) as (x & Hx & Hsx). exists x. split; [exact Hx|].
  assert (Hin : In d (filter (dl_tid (x_tid x)) (rx_delivered tr))).
  { apply filter_In. split; [exact Hd|]. apply N.eqb_eq. congruence. }
  rewrite (H1 x Hx) in Hin. destruct Hin as [<-|[]]. reflexivity.
Qed.

(* the acknowledged lengths of an honest receiver are the running totals *)
Fixpoint cum (acc : N) (ss : list segment) : list N :=
  match ss with
  | [] => []
  | s :: r => (acc + nlen (sg_data s)) :: cum (acc + nlen (sg_data s)) r
  end.

Definition no_end (s : segment) : bool := negb (sg_has_end s).

Lemma all_but_last_cons2 A (p : A -> bool) x y l :
  all_but_last p (x :: y :: l) = p x && all_but_last p (y :: l).
Proof. reflexivity. Qed.

Lemma all_but_last_of_end_only_last ss : end_only_last ss -> all_but_last no_end ss = true.
Proof.
  intros (f & sl & -> & _ & Hf). induction f as [|x f IH]; [reflexivity|].
  inversion Hf as [|? ? Hx Hf']; subst. specialize (IH Hf').
  cbn [app]. destruct (f ++ [sl]) as [|y r] eqn:E; [destruct f; discriminate|].
  rewrite all_but_last_cons2, IH. unfold no_end. rewrite Hx. reflexivity.
Qed.

Lemma rx_acks_cum t ss : forall st,
  Forall (fun s => sg_tid s = t) ss -> all_but_last no_end ss = true ->
  map ak_len (snd (fst (rx_run st ss))) = cum (nlen (rx_lookup st t)) ss.
Proof.
  induction ss as [|s ss IH]; intros st Ht Hne; [reflexivity|].
  inversion Ht as [|? ? Hts Ht']; subst. rewrite rx_run_cons. cbn [fst snd map cum]. f_equal.
  - unfold rx_step. destruct (sg_has_end s); apply nlen_app.
  - destruct ss as [|s' r]; [reflexivity|].
    rewrite all_but_last_cons2 in Hne. apply andb_prop in Hne. destruct Hne as [Hs Hne]. apply negb_true_iff in Hs.
    rewrite IH by assumption. unfold rx_step. rewrite Hs. cbn [fst]. rewrite rx_lookup_set, N.eqb_refl, nlen_app. reflexivity.
Qed.

Lemma cum_lower ss : forall acc n,
  Forall (fun s => 1 <= nlen (sg_data s)) ss -> In n (cum acc ss) -> acc + 1 <= n.
Proof.
  induction ss as [|s r IH]; intros acc n Hpos Hin; [destruct Hin|].
  inversion Hpos as [|? ? Hs Hr]; subst. cbn [cum In] in Hin. destruct Hin as [<-|Hin]; [lia|].
  specialize (IH _ _ Hr Hin). lia.
Qed.

Lemma cum_full_is_last ss : forall acc k,
  Forall (fun s => 1 <= nlen (sg_data s)) ss ->
  nth_error (cum acc ss) k = Some (acc + nlen (concat (map sg_data ss))) -> S k = length ss.
Proof.
  induction ss as [|s r IH]; intros acc k Hpos Hn; [destruct k; discriminate|].
  inversion Hpos as [|? ? Hs Hr]; subst. cbn [cum map concat length] in *. rewrite nlen_app in Hn.
  destruct k as [|k]; cbn [nth_error] in Hn.
  - inversion Hn as [Heq]. assert (H0 : nlen (concat (map sg_data r)) = 0) by lia.
    destruct r as [|s' r']; [reflexivity|]. exfalso.
    inversion Hr as [|? ? Hs' _]; subst. cbn [map concat] in H0. rewrite nlen_app in H0. lia.
  - f_equal. apply (IH (acc + nlen (sg_data s)) k Hr). rewrite Hn. f_equal. lia.
Qed.

Lemma tcpcl_ack_lens bs m tid :
  bs <> [] -> 1 <= m ->
  let ss := segments bs m tid in
  (forall n, In n (rx_ack_lens ss) -> 1 <= n)
  /\ (forall k, nth_error (rx_ack_lens ss) k = Some (nlen bs) -> S k = length ss).
Proof.
  intros Hne Hm. cbv zeta.
  destruct (tcpcl_segments bs m tid Hne Hm) as (Hall & Hc & _ & Hend).
  assert (Hpos : Forall (fun s => 1 <= nlen (sg_data s)) (segments bs m tid)).
  { eapply Forall_impl; [|exact Hall]. cbv beta. intros s (_ & H). lia. }
  assert (Htid : Forall (fun s => sg_tid s = tid) (segments bs m tid)).
  { eapply Forall_impl; [|exact Hall]. cbv beta. intros s (H & _). exact H. }
  unfold rx_ack_lens, rx_acks. rewrite (rx_acks_cum tid _ [] Htid (all_but_last_of_end_only_last _ Hend)). split.
  - intros n Hin. pose proof (cum_lower _ 0 n Hpos Hin). lia.
  - intros k Hk. apply (cum_full_is_last _ 0 k Hpos). rewrite Hc. exact Hk.
Qed.

(* reads the fields off a state that send_step wrote as a record or through set_result *)
Ltac sproj := cbn [ss_m ss_out ss_running ss_l ss_lenchan ss_errchan ss_stop ss_tmstop ss_inlen ss_outlen
                   ss_result set_result] in *.

Definition err_inv (st : send_state) : Prop := ss_errchan st <> Some SrOk.

Lemma send_step_err_inv st e st' o : err_inv st -> send_step st e = Some (st', o) -> err_inv st'.
Proof.
  intros Hi Hs. destruct e; cbn [send_step] in Hs.
  4-6: destruct (ss_result st); inversion Hs; subst; exact Hi.
  - destruct (negb (ss_running st)); [discriminate|].
    destruct (ss_stop st); [inversion Hs; subst; exact Hi|].
    destruct (ss_tmstop st); [inversion Hs; subst; discriminate|].
    destruct (next_segment (ss_m st) (ss_out st)); inversion Hs; subst; try exact Hi; discriminate.
  - destruct (ss_result st); [discriminate|]. destruct (ss_lenchan st); inversion Hs; subst; exact Hi.
  - destruct (ss_result st); [discriminate|]. destruct (ss_errchan st); inversion Hs; subst; exact Hi.
  - inversion Hs; subst; exact Hi.
Qed.

Section SendInv.
Variables (bs : list N) (m tid : N).
Hypothesis Hne : bs <> [].
Hypothesis Hm : 1 <= m.

Definition tss : list segment := segments bs m tid.

(* [pre] is what the emitter has put on the wire so far *)
Record send_inv (pre : list segment) (st : send_state) : Prop := {
  si_m : ss_m st = m;
  si_l : ss_l st = nlen (concat (map sg_data pre));
  si_err : err_inv st;
  (* a running emitter will still send what completes [pre] to the whole transfer, and has not
     announced the total length *)
  si_run : ss_running st = true ->
           pre ++ segs_loop (S (length (os_stream (ss_out st)))) m (ss_out st) = tss
           /\ ss_lenchan st = None /\ ss_outlen st = 0;
  (* a total length, announced or received, is that of the bundle, and everything has been sent *)
  si_lenchan : forall n, ss_lenchan st = Some n -> n = nlen bs /\ pre = tss;
  si_outlen : ss_outlen st = 0 \/ ss_outlen st = nlen bs /\ pre = tss;
  si_inlen : ss_inlen st = 0 \/ In (ss_inlen st) (rx_ack_lens tss);
  si_ok : ss_result st = Some SrOk -> ss_outlen st = ss_inlen st /\ ss_outlen st <> 0 }.

Lemma send_inv_init : send_inv [] (send_init bs m tid).
Proof. constructor; cbn; auto; discriminate. Qed.

Lemma tss_concat : nlen (concat (map sg_data tss)) = nlen bs.
Proof. unfold tss. destruct (tcpcl_segments bs m tid Hne Hm) as (_ & -> & _). reflexivity. Qed.

(* In every case [constructor; sproj; trivial] leaves the conjuncts the event changes. *)
Lemma send_step_inv pre st e st' o :
  send_inv pre st -> send_step st e = Some (st', o) -> honest_event tss e = true ->
  send_inv (pre ++ o) st'.
Proof.
  intros [Im Il Ie Ir Ilc Io Ii Ires] Hs Hh.
  pose proof (send_step_err_inv _ _ _ _ Ie Hs) as Ie'.
  destruct e as [| | |a| | |]; cbn [send_step] in Hs.
  (* SeRefuse, SeTimeout *)
  5, 6: destruct (ss_result st); [discriminate|]; inversion Hs; subst st' o; rewrite app_nil_r.
  5, 6: constructor; sproj; trivial; discriminate.
  - (* SeStep *)
    destruct (ss_running st); [cbn [negb] in Hs|discriminate].
    destruct (Ir eq_refl) as (Hpre & Hlc & Hol).
    destruct (ss_stop st); [|destruct (ss_tmstop st)].
    (* stopped or closed: the emitter halts, nothing is sent *)
    1, 2: inversion Hs; subst st' o; rewrite app_nil_r; constructor; sproj; trivial; discriminate.
    rewrite Im in Hs. destruct (nil_or_not (os_stream (ss_out st))) as [He|Hmore].
    + (* end of the stream: all of [tss] is out, its length goes to lenChan *)
      rewrite next_segment_empty in Hs by assumption. inversion Hs; subst st' o. rewrite app_nil_r.
      rewrite segs_loop_empty, app_nil_r in Hpre by assumption.
      constructor; sproj; trivial; [discriminate|].
      intros n Hn. inversion Hn; subst n. split; [|exact Hpre]. rewrite Il, Hpre. apply tss_concat.
    + rewrite next_segment_nonempty in Hs by assumption. inversion Hs; subst st' o.
      rewrite segs_loop_step in Hpre by assumption.
      constructor; sproj; trivial.
      * rewrite map_app, concat_app, nlen_app, Il. cbn [map concat]. rewrite app_nil_r. reflexivity.
      * intros _. split; [|split; assumption]. rewrite <- app_assoc, <- Hpre. cbn [app]. do 2 f_equal.
        pose proof (out_next_shorter m _ Hm Hmore). apply segs_loop_fuel; [exact Hm|lia|lia].
      * intros n Hn. congruence.
      * left. exact Hol.
  - (* SeRecvLen *)
    destruct (ss_result st); [discriminate|]. destruct (ss_lenchan st) as [n|]; [|discriminate].
    inversion Hs; subst st' o. rewrite app_nil_r. destruct (Ilc n eq_refl) as (Hn & Hp).
    constructor; sproj; trivial.
    + intros Hr. destruct (Ir Hr) as (_ & Hc & _). discriminate Hc.
    + discriminate.
    + right. split; assumption.
    + destruct (N.eqb_spec n (ss_inlen st)); [|discriminate]. intros _. split; [assumption|].
      rewrite Hn. pose proof (nlen_pos bs Hne). lia.
  - (* SeRecvErr *)
    destruct (ss_result st); [discriminate|]. destruct (ss_errchan st) as [r|] eqn:Eec; [|discriminate].
    inversion Hs; subst st' o. rewrite app_nil_r. constructor; sproj; trivial.
    intros H. unfold err_inv in Ie. congruence.
  - (* SeAck *)
    destruct (ss_result st); [discriminate|]. inversion Hs; subst st' o. rewrite app_nil_r.
    cbn [honest_event] in Hh. apply existsb_exists in Hh. destruct Hh as (a' & Hin & Heq).
    apply N.eqb_eq in Heq. subst a'.
    constructor; sproj; trivial.
    + right. exact Hin.
    + destruct (N.eqb_spec (ss_outlen st) a); [|discriminate]. intros _. split; [assumption|].
      pose proof (proj1 (tcpcl_ack_lens bs m tid Hne Hm) a Hin). lia.
  - (* SeClose *)
    inversion Hs; subst st' o. rewrite app_nil_r. constructor; sproj; trivial.
Qed.

Lemma send_run_inv evs : forall pre st st' outs,
  send_inv pre st -> send_run st evs = Some (st', outs) ->
  forallb (honest_event tss) evs = true -> send_inv (pre ++ outs) st'.
Proof.
  induction evs as [|e evs IH]; intros pre st st' outs Hinv Hrun Hh; cbn [send_run] in Hrun.
  - inversion Hrun; subst. rewrite app_nil_r. exact Hinv.
  - cbn [forallb] in Hh. apply andb_prop in Hh. destruct Hh as [He Hh].
    destruct (send_step st e) as [[st1 o]|] eqn:Es; [|discriminate].
    destruct (send_run st1 evs) as [[st2 o2]|] eqn:Er; [|discriminate].
    inversion Hrun; subst st' outs. rewrite app_assoc.
    apply (IH (pre ++ o) st1 st2 o2); [|exact Er|exact Hh].
    apply (send_step_inv pre st e st1 o); assumption.
Qed.
End SendInv.

Lemma tcpcl_success_sound bs m tid evs st outs :
  bs <> [] -> 1 <= m ->
  send_run (send_init bs m tid) evs = Some (st, outs) ->
  forallb (honest_event (segments bs m tid)) evs = true ->
  ss_result st = Some SrOk ->
  ss_inlen st = nlen bs
  /\ outs = segments bs m tid
  /\ (exists k, nth_error (rx_ack_lens (segments bs m tid)) k = Some (ss_inlen st)
                /\ S k = length (segments bs m tid))
  /\ rx_delivered outs = [(tid, bs)].
Proof.
  intros Hne Hm Hrun Hh Hok.
  destruct (send_run_inv bs m tid Hne Hm evs [] _ _ _ (send_inv_init bs m tid) Hrun Hh) as [_ _ _ _ _ Io Ii Ires].
  cbn [app] in Io. unfold tss in *.
  destruct (Ires Hok) as (Heq & Hnz). destruct Io as [Ho|(Ho & Hp)]; [congruence|].
  assert (Hin : ss_inlen st = nlen bs) by congruence.
  split; [exact Hin|]. split; [exact Hp|]. split.
  - destruct Ii as [Hz|Hi]; [congruence|].
    apply In_nth_error in Hi. destruct Hi as (k & Hk). exists k. split; [exact Hk|].
    apply (tcpcl_ack_lens bs m tid Hne Hm). rewrite Hk, Hin. reflexivity.
  - rewrite Hp. apply tcpcl_single_delivery; assumption.
Qed.

Lemma send_step_sticky st e st' o r :
  ss_result st = Some r -> send_step st e = Some (st', o) -> ss_result st' = Some r.
Proof.
  intros Hr Hs. destruct e; cbn [send_step] in Hs; try (rewrite Hr in Hs; discriminate).
  - destruct (negb (ss_running st)); [discriminate|].
    destruct (ss_stop st); [inversion Hs; subst; exact Hr|].
    destruct (ss_tmstop st); [inversion Hs; subst; exact Hr|].
    destruct (next_segment (ss_m st) (ss_out st)); inversion Hs; subst; exact Hr.
  - inversion Hs; subst; exact Hr.
Qed.

Lemma send_run_failure evs : forall st st' o,
  err_inv st -> send_run st evs = Some (st', o) ->
  (forall r, ss_result st = Some r -> ss_result st' = Some r)
  /\ (In SeRefuse evs -> ss_result st' = Some SrRefused)
  /\ (In SeTimeout evs -> ss_result st' = Some SrTimeout)
  /\ (In SeRecvErr evs -> exists r, ss_result st' = Some r /\ r <> SrOk).
Proof.
  induction evs as [|e evs IH]; intros st st' o Hi Hrun; cbn [send_run] in Hrun.
  - inversion Hrun; subst. cbn [In]. tauto.
  - destruct (send_step st e) as [[st1 o1]|] eqn:Es; [|discriminate].
    destruct (send_run st1 evs) as [[st2 o2]|] eqn:Er; [|discriminate].
    destruct (IH st1 st2 o2 (send_step_err_inv _ _ _ _ Hi Es) Er) as (IH0 & IH1 & IH2 & IH3).
    assert (Hst : st2 = st') by (inversion Hrun; reflexivity). subst st'. clear Hrun.
    split; [intros r Hr; exact (IH0 r (send_step_sticky _ _ _ _ r Hr Es))|].
    split; [|split]; intros [He|Hin]; auto; subst e; cbn [send_step] in Es;
      (destruct (ss_result st); [discriminate|]).
    1, 2: inversion Es; subst st1 o1; apply IH0; reflexivity.
    destruct (ss_errchan st) as [r|] eqn:Eec; [|discriminate]. inversion Es; subst st1 o1.
    exists r. split; [apply IH0; reflexivity|]. intros ->. exact (Hi Eec).
Qed.

Lemma tcc_alloc_n_length n : forall next, length (tcc_alloc_n next n) = n.
Proof. induction n as [|n IH]; intros next; cbn [tcc_alloc_n length]; [reflexivity|]. rewrite IH. reflexivity. Qed.

Lemma tcc_alloc_n_ge n : forall next x, In x (tcc_alloc_n next n) -> next <= x.
Proof.
  induction n as [|n IH]; intros next x; cbn [tcc_alloc_n tcc_alloc fst snd In]; [intros []|].
  intros [<-|Hin]; [lia|]. specialize (IH _ _ Hin). lia.
Qed.

(* any number of Send calls on one session get pairwise distinct transfer ids *)
Lemma tcc_alloc_n_nodup n : forall next, NoDup (tcc_alloc_n next n).
Proof.
  induction n as [|n IH]; intros next; cbn [tcc_alloc_n tcc_alloc fst snd]; constructor; [|apply IH].
  intro Hin. apply tcc_alloc_n_ge in Hin. lia.
Qed.

Lemma chk_segments_complete bs m tid :
  bs <> [] -> 1 <= m -> chk_segments bs m tid (segments bs m tid) = true.
Proof.
  intros Hne Hm. destruct (tcpcl_segments bs m tid Hne Hm) as (Hall & Hc & Hs & He).
  rewrite Forall_forall in Hall.
  unfold chk_segments. repeat (apply andb_true_intro; split).
  - apply forallb_forall. intros s Hin. destruct (Hall s Hin) as (_ & Hl).
    apply andb_true_intro. split; apply N.leb_le; lia.
  - unfold chk_concat. rewrite Hc. apply bytes_eqb_refl.
  - apply forallb_forall. intros s Hin. apply N.eqb_eq, Hall, Hin.
  - destruct Hs as (s0 & r & -> & H1 & H2). unfold chk_start. rewrite H1.
    apply forallb_forall. intros s Hin. rewrite Forall_forall in H2. rewrite (H2 s Hin). reflexivity.
  - destruct He as (f & sl & -> & H1 & _). unfold last_sat. rewrite rev_app_distr. exact H1.
  - exact (all_but_last_of_end_only_last _ He).
Qed.

Definition tcc_xfer (m : N) (p : N * list N) : xfer := mkX (fst p) m (snd p).

Lemma tcc_session_xfers_tids next bss :
  map fst (tcc_session_xfers next bss) = tcc_alloc_n next (length bss).
Proof. apply map_fst_combine, tcc_alloc_n_length. Qed.

Lemma tcc_session_xfers_bs next bss p : In p (tcc_session_xfers next bss) -> In (snd p) bss.
Proof. destruct p as [t b]. apply in_combine_r. Qed.

Lemma tcc_session_sender own peer next bss tr :
  1 <= peer -> Forall (fun bs => bs <> []) bss ->
  MergeAll (tcc_session_segs own peer next bss) tr ->
  NoDup (tcc_alloc_n next (length bss))
  /\ tcc_chk_trace peer (tcc_session_xfers next bss) tr = true.
Proof.
  intros Hp Hne Hm. split; [apply tcc_alloc_n_nodup|].
  set (ps := tcc_session_xfers next bss) in *.
  set (xs := map (tcc_xfer peer) ps).
  assert (Hsegs : map xfer_segs xs = tcc_session_segs own peer next bss) by apply map_map.
  assert (Hnd : NoDup (map x_tid xs)).
  { unfold xs. rewrite map_map. change (NoDup (map fst ps)).
    unfold ps. rewrite tcc_session_xfers_tids. apply tcc_alloc_n_nodup. }
  assert (Hok : Forall xfer_ok xs).
  { apply Forall_forall. intros x Hx. apply in_map_iff in Hx. destruct Hx as (p & <- & Hp').
    split; [|exact Hp]. rewrite Forall_forall in Hne. apply Hne, (tcc_session_xfers_bs next bss), Hp'. }
  rewrite <- Hsegs in Hm.
  apply andb_true_intro. split; apply forallb_forall.
  - intros p Hp'.
    assert (Hx : In (tcc_xfer peer p) xs) by (apply in_map; exact Hp').
    change (tcc_for_tid (fst p) tr) with (filter (for_tid (x_tid (tcc_xfer peer p))) tr).
    rewrite (mergeall_filter xs tr Hnd Hok Hm _ Hx).
    rewrite Forall_forall in Hok. destruct (Hok _ Hx) as [Hb _]. apply chk_segments_complete; assumption.
  - intros s Hs. apply existsb_exists.
    destruct (trace_tids xs tr s Hok Hm Hs) as (x & Hx & Ht). apply in_map_iff in Hx. destruct Hx as (p & <- & Hp').
    exists p. split; [exact Hp'|]. apply N.eqb_eq. symmetry. exact Ht.
Qed.

Lemma xfer_segs_one_end x : xfer_ok x -> length (filter sg_has_end (xfer_segs x)) = 1%nat.
Proof.
  intros [Hne Hm]. destruct (tcpcl_segments (x_bs x) (x_m x) (x_tid x) Hne Hm) as (_ & _ & _ & He).
  destruct He as (f & sl & Heq & H1 & H2). unfold xfer_segs. rewrite Heq, filter_app.
  rewrite (filter_all_false _ f) by (apply Forall_forall; exact H2).
  cbn [filter app]. rewrite H1. reflexivity.
Qed.

(* one report per END segment, one END segment per transfer - whether or not the ids are distinct *)
Lemma tcc_reports_count xs tr :
  Forall xfer_ok xs -> MergeAll (map xfer_segs xs) tr -> length (tcc_reports tr) = length xs.
Proof.
  intros Hok Hm. unfold tcc_reports, rx_delivered. rewrite map_length, rx_run_count.
  rewrite (mergeall_filter_length _ sg_has_end _ _ Hm), map_map.
  clear Hm. unfold list_sum. induction Hok as [|x xs Hx Hok' IH]; [reflexivity|].
  cbn [map fold_right length]. rewrite (xfer_segs_one_end x Hx), IH. reflexivity.
Qed.

(* NextSegment before the repairs: spins on an MRU of zero, panics on a huge one, and sets no END
   when the segment size divides the length *)
Example tcpcl_orig_mru_zero_spins :
  out_run_orig 6 [1; 2; 3] 0 9 =
    ([(mkSeg 2 9 [], 0); (mkSeg 0 9 [], 0); (mkSeg 0 9 [], 0); (mkSeg 0 9 [], 0); (mkSeg 0 9 [], 0); (mkSeg 0 9 [], 0)], OtFuel).
Proof. vm_compute. reflexivity. Qed.
Example tcpcl_orig_mru_huge_panics : out_run_orig 6 [1; 2; 3] (2 ^ 63) 9 = ([], OtPanic).
Proof. vm_compute. reflexivity. Qed.
Example tcpcl_orig_divisor_no_end :
  out_run_orig 6 [1; 2; 3; 4] 2 9 = ([(mkSeg 2 9 [1; 2], 2); (mkSeg 0 9 [3; 4], 2)], OtEof)
  /\ out_run [1; 2; 3; 4] 2 9 = ([(mkSeg 2 9 [1; 2], 2); (mkSeg 1 9 [3; 4], 2)], OtEof).
Proof. vm_compute. split; reflexivity. Qed.

(* non-vacuity: a complete successful run, a refused one, and the acknowledgement-of-zero hole
   of a peer that is not an honest receiver (outside the property: excluded by [honest_event]) *)
Example tcpcl_send_ok_example :
  let evs := [SeStep; SeAck 2; SeStep; SeAck 4; SeStep; SeRecvLen] in
  forallb (honest_event (segments [1; 2; 3; 4] 2 0)) evs = true
  /\ option_map (fun r => (ss_result (fst r), snd r)) (send_run (send_init [1; 2; 3; 4] 2 0) evs)
     = Some (Some SrOk, [mkSeg 2 0 [1; 2]; mkSeg 1 0 [3; 4]]).
Proof. vm_compute. split; reflexivity. Qed.
Example tcpcl_send_refused_example :
  option_map (fun r => ss_result (fst r)) (send_run (send_init [1; 2; 3; 4] 2 0) [SeStep; SeRefuse; SeStep])
  = Some (Some SrRefused).
Proof. vm_compute. reflexivity. Qed.
Example tcpcl_send_ack_zero_hole :
  honest_event (segments [1; 2; 3; 4] 2 0) (SeAck 0) = false
  /\ option_map (fun r => ss_result (fst r)) (send_run (send_init [1; 2; 3; 4] 2 0) [SeStep; SeAck 0])
     = Some (Some SrOk).
Proof. vm_compute. split; reflexivity. Qed.

Example tcc_session_example :
  tcc_alloc_n 0 3 = [0; 1; 2]
  /\ tcc_chk_trace 2 (tcc_session_xfers 0 [[1; 2; 3]; [9; 8]])
       [mkSeg 2 0 [1; 2]; mkSeg 3 1 [9; 8]; mkSeg 1 0 [3]] = true
  /\ tcc_chk_trace 2 (tcc_session_xfers 0 [[1; 2; 3]; [9; 8]])
       [mkSeg 3 0 [1; 2; 3]; mkSeg 3 1 [9; 8]] = false
  /\ tcc_chk_trace 2 [(0, [1; 2; 3]); (0, [9; 8])] [mkSeg 3 0 [1; 2; 3]; mkSeg 3 0 [9; 8]] = false
  /\ tcc_reports [mkSeg 2 0 [1; 2]; mkSeg 3 1 [9; 8]; mkSeg 1 0 [3]] = [[9; 8]; [1; 2; 3]].
Proof. vm_compute. repeat split; reflexivity. Qed.
