(* BbcSafety.v - C12 (BBC part): what the connector's transmission table does with faulty fragment
   sequences.  Trains T_0..T_{m-1} with pairwise distinct transmission ids, a received sequence of
   references (train index, fragment index) - arbitrary references cover drops, duplications,
   reorderings and interleavings - and the locality hypothesis "fewer than sixteen in a row":
   between two consecutively received fragments a, b of one train the displacement of b from the
   expected next index a+1 is below 16 in absolute value.

   The table entry of a train is a function of the fragments received of that train alone
   ([entry_run]); locality is what makes an open entry hold exactly a prefix of its train. *)
From DTN Require Import Base ListFacts Bbc BbcProofs.
From Coq Require Import ZifyNat.
Local Open Scope nat_scope.

Definition dfrag : fragment := {| f_tid := 0%N; f_ident := 0%N; f_payload := [] |}.

Lemma shape_length tid fs s st : train_shape tid s st fs -> 1 <= length fs.
Proof. intros H. destruct H; cbn [length]; auto with arith. Qed.

Lemma shape_nth tid : forall fs s st, train_shape tid s st fs -> (s < 16)%N -> forall i, i < length fs ->
  f_tid (nth i fs dfrag) = tid /\ f_fail (nth i fs dfrag) = false
  /\ f_seq (nth i fs dfrag) = ((s + N.of_nat (S i)) mod 16)%N
  /\ f_start (nth i fs dfrag) = st && Nat.eqb i 0
  /\ f_end (nth i fs dfrag) = Nat.eqb (S i) (length fs).
Proof.
  intros fs s st H.
  induction H as [s st f Fseq Fst Fend Ffl Ftid | s st f fs Fseq Fst Fend Ffl Ftid Fne Frest IH]; intros Hs i Hi;
    destruct i as [|i]; cbn [length nth] in *.
  - rewrite Fseq, next_seq_small, andb_true_r by exact Hs. auto.
  - exfalso. clear - Hi. lia.
  - rewrite Fseq, next_seq_small, andb_true_r by exact Hs.
    apply shape_length in Frest. destruct (length fs); [exfalso; clear - Frest; lia|]. auto.
  - destruct (IH (next_seq_lt s) i) as (A & B & C & D & E); [clear - Hi; lia|].
    rewrite andb_false_r, C, next_seq_small, N.add_mod_idemp_l by (exact Hs || discriminate).
    repeat split; try assumption. f_equal. clear. lia.
Qed.

Lemma payload_prefix_S (T : list fragment) i : i < length T ->
  concat (map f_payload (firstn (S i) T)) = concat (map f_payload (firstn i T)) ++ f_payload (nth i T dfrag).
Proof.
  intros Hi. rewrite (firstn_S_nth dfrag) by exact Hi. rewrite map_app, concat_app. cbn. rewrite app_nil_r. reflexivity.
Qed.

(* b lies within 15 of the index a + 1 expected after a:  a + 1 - 15 <= b <= a + 1 + 15, written without
   subtraction (hence the two constants).  Sequence numbers count modulo 16, so inside this window the
   receiver tells b = a + 1 from every other b (read_got). *)
Definition near (a b : nat) : Prop := a <= b + 14 /\ b <= a + 16.

Definition ksub (k : nat) (r : list (nat * nat)) : list nat :=
  map snd (filter (fun ki => Nat.eqb (fst ki) k) r).

Lemma ksub_app k r1 r2 : ksub k (r1 ++ r2) = ksub k r1 ++ ksub k r2.
Proof. unfold ksub. rewrite filter_app, map_app. reflexivity. Qed.

Lemma ksub_single_same k b : ksub k [(k, b)] = [b].
Proof. unfold ksub. cbn [filter fst]. rewrite Nat.eqb_refl. reflexivity. Qed.
Lemma ksub_single_other k k0 b : k0 <> k -> ksub k [(k0, b)] = [].
Proof. intros H. unfold ksub. cbn [filter fst]. apply Nat.eqb_neq in H. rewrite H. reflexivity. Qed.

Definition local_list (l : list nat) : Prop :=
  forall l1 a b l2, l = l1 ++ a :: b :: l2 -> near a b.
Definition locality (r : list (nat * nat)) : Prop := forall k, local_list (ksub k r).

Lemma local_list_app_l l l' : local_list (l ++ l') -> local_list l.
Proof. intros H l1 a b l2 E. apply (H l1 a b (l2 ++ l')). rewrite E, <- app_assoc. reflexivity. Qed.

Section Safety.
Variable decodes : list N -> bool.
Variable Ts : list (list fragment).
Variable tids : list N.
Hypothesis Hlen : length Ts = length tids.
Hypothesis Hshape : forall k, k < length Ts -> train_shape (nth k tids 0%N) 0%N true (nth k Ts []).
Hypothesis Hnodup : NoDup tids.

Definition tr (k : nat) : list fragment := nth k Ts [].
Definition tidk (k : nat) : N := nth k tids 0%N.
Definition frag_at (ki : nat * nat) : fragment := nth (snd ki) (tr (fst ki)) dfrag.
Definition valid_ref (ki : nat * nat) : Prop := fst ki < length Ts /\ snd ki < length (tr (fst ki)).
Definition blob_of (k : nat) : list N := concat (map f_payload (tr k)).

Definition good_out (o : conn_out) : Prop :=
  match o with
  | OutBlob tid blob => exists k, k < length Ts /\ tidk k = tid /\ blob = blob_of k
  | _ => True
  end.

Definition entry_ok (k j : nat) (t : incoming) : Prop :=
  S j < length (tr k)
  /\ i_payload t = concat (map f_payload (firstn (S j) (tr k)))
  /\ i_prev t = f_seq (nth j (tr k) dfrag)
  /\ i_finished t = false
  /\ i_tid t = tidk k.

Lemma other_tid k k' : k < length Ts -> k' < length Ts -> k <> k' -> tidk k <> tidk k'.
Proof.
  intros H1 H2 Hne E. apply Hne. rewrite Hlen in H1, H2.
  apply (proj1 (NoDup_nth tids 0%N) Hnodup k k' H1 H2 E).
Qed.

Lemma frag_facts k b : k < length Ts -> b < length (tr k) ->
  let f := frag_at (k, b) in
  f_tid f = tidk k /\ f_fail f = false /\ f_seq f = (N.of_nat (S b) mod 16)%N
  /\ f_start f = Nat.eqb b 0 /\ f_end f = Nat.eqb (S b) (length (tr k)).
Proof. intros Hk Hb. apply (shape_nth _ _ _ _ (Hshape k Hk) eq_refl b Hb). Qed.

(* the receiver of train k after its fragments 0..j in order *)
Definition got (k j : nat) : incoming :=
  {| i_tid := tidk k; i_payload := concat (map f_payload (firstn (S j) (tr k)));
     i_finished := Nat.eqb (S j) (length (tr k)); i_prev := f_seq (nth j (tr k) dfrag) |}.

Lemma got_open k j : S j < length (tr k) -> i_finished (got k j) = false.
Proof. intros H. apply Nat.eqb_neq, Nat.lt_neq, H. Qed.

Lemma read_got k j b : k < length Ts -> S j < length (tr k) -> b < length (tr k) -> near j b ->
  read_fragment (got k j) (frag_at (k, b)) = if Nat.eqb b (S j) then Some (got k b) else None.
Proof.
  intros Hk Hj Hb [Hn1 Hn2].
  destruct (frag_facts k b Hk Hb) as (Ftid & _ & Fseq & Fst & Fend).
  destruct (frag_facts k j Hk ltac:(lia)) as (_ & _ & Jseq & _). cbv zeta in *.
  assert (Hseq : f_seq (frag_at (k, b)) = next_seq (i_prev (got k j)) <-> b = S j).
  { cbn [got i_prev]. change (nth j (tr k) dfrag) with (frag_at (k, j)).
    rewrite Fseq, Jseq, next_seq_small by (apply N.mod_lt; lia). lia. }
  destruct (Nat.eqb_spec b (S j)) as [E|E].
  - rewrite read_fragment_ok; auto using got_open; [|apply Hseq, E|rewrite Fst, E; reflexivity].
    unfold got. cbn [i_tid i_payload]. rewrite Fend, E, (payload_prefix_S _ (S j)) by lia. reflexivity.
  - destruct (read_fragment _ _) eqn:R; [|reflexivity].
    apply read_fragment_Some in R. destruct R as (_ & _ & R & _). apply Hseq in R. contradiction.
Qed.

Lemma new_got k b : k < length Ts -> b < length (tr k) ->
  new_incoming (frag_at (k, b)) = if Nat.eqb b 0 then Some (got k b) else None.
Proof.
  intros Hk Hb. destruct (frag_facts k b Hk Hb) as (Ftid & _ & _ & Fst & Fend). cbv zeta in *.
  unfold new_incoming. rewrite Fst. destruct (Nat.eqb_spec b 0) as [->|_]; [|reflexivity].
  unfold got. rewrite Ftid, Fend, (payload_prefix_S _ 0) by exact Hb. reflexivity.
Qed.

Lemma advance_got k b o t' : k < length Ts -> b < length (tr k) ->
  match o with Some t => exists j, S j < length (tr k) /\ t = got k j /\ near j b | None => True end ->
  advance o (frag_at (k, b)) = Some t' -> t' = got k b.
Proof.
  intros Hk Hb Ho H. destruct o as [t|]; cbn [advance] in H.
  - destruct Ho as (j & Hj & -> & Hn).
    rewrite read_got in H by assumption. destruct (Nat.eqb b (S j)); congruence.
  - rewrite new_got in H by assumption. destruct (Nat.eqb b 0); congruence.
Qed.

Definition entry_step (k : nat) (o : option incoming) (b : nat) : option incoming :=
  match advance o (frag_at (k, b)) with
  | Some t => if i_finished t then None else Some t
  | None => None
  end.
Definition entry_run (k : nat) (bs : list nat) : option incoming := fold_left (entry_step k) bs None.

Lemma entry_run_snoc k bs b : entry_run k (bs ++ [b]) = entry_step k (entry_run k bs) b.
Proof. apply fold_left_app. Qed.

Lemma entry_before k : k < length Ts -> forall bs b,
  Forall (fun j => j < length (tr k)) bs -> local_list (bs ++ [b]) ->
  match entry_run k bs with
  | Some t => exists j, S j < length (tr k) /\ t = got k j /\ near j b
  | None => True
  end.
Proof.
  intros Hk bs. induction bs as [|j bs IH] using rev_ind; intros b Hv Hl; [exact I|].
  apply Forall_app in Hv. destruct Hv as [Hv Hj]. apply Forall_inv in Hj.
  rewrite entry_run_snoc. unfold entry_step.
  destruct (advance _ _) as [t|] eqn:E; [|exact I].
  apply advance_got in E; [subst t|assumption..|apply (IH j Hv (local_list_app_l _ _ Hl))].
  destruct (i_finished (got k j)) eqn:Ef; [exact I|]. apply Nat.eqb_neq in Ef.
  exists j. split; [lia|]. split; [reflexivity|].
  apply (Hl bs j b []). rewrite <- app_assoc. reflexivity.
Qed.

Lemma entry_run_clean k a : k < length Ts -> S a < length (tr k) ->
  entry_run k (seq 0 (S a)) = Some (got k a).
Proof.
  intros Hk. induction a as [|a IH]; intros Ha.
  - unfold entry_run, entry_step. cbn [seq fold_left advance].
    rewrite new_got, Nat.eqb_refl, got_open by (assumption || lia). reflexivity.
  - rewrite seq_S, entry_run_snoc, IH by lia. unfold entry_step. cbn [advance Nat.add].
    rewrite read_got, Nat.eqb_refl, got_open by (assumption || unfold near; lia). reflexivity.
Qed.

Lemma ksub_valid k r : Forall valid_ref r -> Forall (fun j => j < length (tr k)) (ksub k r).
Proof.
  intros H. apply Forall_forall. intros j Hj. apply in_map_iff in Hj. destruct Hj as ([k0 j0] & <- & Hin).
  apply filter_In in Hin. destruct Hin as [Hin E]. apply Nat.eqb_eq in E. cbn [fst snd] in *. subst k0.
  rewrite Forall_forall in H. apply (H _ Hin).
Qed.

Definition table_inv (pre : list (nat * nat)) (tb : table) : Prop :=
  tbl_wf tb /\ forall k, k < length Ts -> tbl_find tb (tidk k) = entry_run k (ksub k pre).

Lemma table_inv_nil : table_inv [] [].
Proof. split; [exact tbl_wf_nil|reflexivity]. Qed.

Lemma table_inv_step pre tb k b tb1 o1 :
  table_inv pre tb -> valid_ref (k, b) -> handle_fragment decodes tb (frag_at (k, b)) = (tb1, o1) ->
  table_inv (pre ++ [(k, b)]) tb1.
Proof.
  intros [Hwf HI] [Hk Hb] H. cbn [fst snd] in Hk, Hb.
  destruct (frag_facts k b Hk Hb) as (Ftid & Ffail & _). cbv zeta in *.
  split; [exact (handle_fragment_wf _ _ _ _ _ Hwf H)|].
  intros k' Hk'. rewrite ksub_app. destruct (Nat.eq_dec k k') as [<-|Hne].
  - rewrite ksub_single_same, entry_run_snoc, <- HI by exact Hk. unfold entry_step. rewrite <- Ftid.
    apply (handle_fragment_find _ _ _ _ _ Ffail Hwf H).
  - rewrite ksub_single_other, app_nil_r, <- HI by assumption.
    apply (handle_fragment_other _ _ _ _ _ _ Hwf H). rewrite Ftid. apply other_tid; assumption.
Qed.

Lemma step_out pre tb k b tb1 o1 :
  table_inv pre tb -> Forall valid_ref pre -> valid_ref (k, b) -> local_list (ksub k pre ++ [b]) ->
  handle_fragment decodes tb (frag_at (k, b)) = (tb1, o1) -> Forall good_out o1.
Proof.
  intros [Hwf HI] Hv [Hk Hb] Hl H. cbn [fst snd] in Hk, Hb.
  destruct (frag_facts k b Hk Hb) as (Ftid & Ffail & _). cbv zeta in *.
  rewrite handle_fragment_eq in H by (assumption || apply Hwf). rewrite Ftid, (HI k Hk) in H.
  destruct (advance _ _) as [t|] eqn:E.
  - apply advance_got in E; [subst t|assumption..|apply (entry_before k Hk _ b (ksub_valid k pre Hv) Hl)].
    unfold got in H. cbn [i_finished i_payload] in H.
    destruct (Nat.eqb_spec (S b) (length (tr k))) as [El|_]; apply (f_equal snd) in H; cbn [snd] in H; subst o1;
      repeat constructor.
    destruct (decodes _); [|exact I]. exists k. unfold blob_of. rewrite El, firstn_all. auto.
  - injection H as _ <-. repeat constructor.
Qed.

(* the invariant holds along every run of valid references; locality is needed for the outputs only *)
Lemma run_gen : forall r pre tb tb' outs,
  table_inv pre tb -> Forall valid_ref r -> handle_all decodes tb (map frag_at r) = (tb', outs) ->
  table_inv (pre ++ r) tb' /\ (Forall valid_ref pre -> locality (pre ++ r) -> Forall good_out outs).
Proof.
  induction r as [|[k b] r IH]; intros pre tb tb' outs HI Hv H; cbn [map handle_all] in H.
  - injection H as <- <-. rewrite app_nil_r. auto.
  - destruct (handle_fragment decodes tb (frag_at (k, b))) as [tb1 o1] eqn:E1.
    destruct (handle_all decodes tb1 (map frag_at r)) as [tb2 o2] eqn:E2. injection H as <- <-.
    inversion Hv as [|x l Hkb Hr]; subst x l.
    replace (pre ++ (k, b) :: r) with ((pre ++ [(k, b)]) ++ r) by (rewrite <- app_assoc; reflexivity).
    destruct (IH _ tb1 tb2 o2 (table_inv_step _ _ _ _ _ _ HI Hkb E1) Hr E2) as [HI2 Ho2].
    split; [exact HI2|]. intros Hpre Hl. apply Forall_app. split.
    + apply (step_out pre tb k b tb1 o1 HI Hpre Hkb); [|exact E1].
      specialize (Hl k). rewrite !ksub_app, ksub_single_same in Hl. apply (local_list_app_l _ _ Hl).
    + apply Ho2; [|exact Hl]. apply Forall_app. auto.
Qed.

(* C12_bbc_safety is this for the trains out_fragments makes *)
Theorem bbc_safety r tb' outs :
  Forall valid_ref r -> locality r ->
  handle_all decodes [] (map frag_at r) = (tb', outs) ->
  forall tid blob, In (OutBlob tid blob) outs ->
    exists k, k < length Ts /\ tidk k = tid /\ blob = blob_of k.
Proof.
  intros Hv Hl H tid blob Hin.
  destruct (run_gen r [] [] tb' outs table_inv_nil Hv H) as [_ Hg].
  specialize (Hg (Forall_nil _) Hl). rewrite Forall_forall in Hg. apply (Hg _ Hin).
Qed.

Lemma clean_prefix_open r tb' outs a k :
  Forall valid_ref r -> k < length Ts -> handle_all decodes [] (map frag_at r) = (tb', outs) ->
  ksub k r = seq 0 (S a) -> S a < length (tr k) ->
  tbl_find tb' (tidk k) = Some (got k a).
Proof.
  intros Hv Hk H Hsub Ha. destruct (run_gen r [] [] tb' outs table_inv_nil Hv H) as [[_ HI] _].
  rewrite (HI k Hk). cbn [app]. rewrite Hsub. apply entry_run_clean; assumption.
Qed.

Lemma progress : forall r tb' outs a k,
  Forall valid_ref r -> locality r -> k < length Ts ->
  handle_all decodes [] (map frag_at r) = (tb', outs) ->
  ksub k r = seq 0 (S a) -> S a < length (tr k) ->
  exists t, tbl_find tb' (tidk k) = Some t /\ entry_ok k a t.
Proof.
  intros r tb' outs a k Hv _ Hk H Hsub Ha. exists (got k a).
  split; [apply (clean_prefix_open r tb' outs a k Hv Hk H Hsub Ha)|]. split; [exact Ha|]. auto using got_open.
Qed.

(* C12_bbc_detect: train k received cleanly up to index a (not its last fragment), then any other
   fragment b of it within the locality bound: a failure fragment for that transmission is emitted. *)
Theorem bbc_detect r a b k tb1 o1 tb2 o2 :
  Forall valid_ref r -> locality r -> valid_ref (k, b) ->
  ksub k r = seq 0 (S a) -> S a < length (tr k) ->
  b <> S a -> near a b ->
  handle_all decodes [] (map frag_at r) = (tb1, o1) ->
  handle_fragment decodes tb1 (frag_at (k, b)) = (tb2, o2) ->
  o2 = [OutFailFrag (report_failure (frag_at (k, b)))]
  /\ f_tid (report_failure (frag_at (k, b))) = tidk k
  /\ f_fail (report_failure (frag_at (k, b))) = true
  /\ tbl_find tb2 (tidk k) = None.
Proof.
  intros Hv Hl [Hk Hb] Hsub Ha Hne Hn E1 E2. cbn [fst snd] in Hk, Hb.
  pose proof (clean_prefix_open r tb1 o1 a k Hv Hk E1 Hsub Ha) as Hf.
  destruct (frag_facts k b Hk Hb) as (Ftid & Ffail & _). cbv zeta in *.
  rewrite handle_fragment_eq in E2 by (exact Ffail || apply (handle_all_wf _ _ _ _ _ tbl_wf_nil E1)).
  rewrite Ftid, Hf in E2. cbn [advance] in E2. rewrite read_got in E2 by assumption.
  destruct (Nat.eqb_spec b (S a)); [contradiction|]. injection E2 as <- <-.
  destruct (report_failure_fields (frag_at (k, b))) as [Rt Rf]. rewrite Rt, Rf, Ftid.
  auto using tbl_find_remove_same.
Qed.

End Safety.
