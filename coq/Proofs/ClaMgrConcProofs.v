(* ClaMgrConcProofs.v - what an exploration of the sub-step model Model/ClaMgrConc.v proves: the explorer
   [cmc_explore] is sound, a state that passes its check [cmc_expand] has no error, is not deadlocked and, if
   final, is a proper end of [cmc_step]; the enumeration [cmc_all_cfgs] contains every configuration within the
   bound.  Without a bound: every step decreases [cmc_rank].
   The bounded, vm_compute-checked explorations are in ClaMgrConcRun0..6.v (compiled in parallel);
   ClaMgrConcMain.v puts them together. *)
From Coq Require Import FMapPositive.
From DTN Require Import Base ListFacts ClaMgrConc.
Open Scope nat_scope.

Lemma cmc_caller_eqb_spec : forall x y, cmc_caller_eqb x y = true <-> x = y.
Proof. intros [a|a] [b|b]; cbn [cmc_caller_eqb]; rewrite ?Nat.eqb_eq; split; congruence. Qed.

Lemma cmc_op_eqb_spec : forall x y, cmc_op_eqb x y = true <-> x = y.
Proof.
  intros x y. split.
  - destruct x, y; cbn [cmc_op_eqb]; try discriminate;
      rewrite ?andb_true_iff, ?Nat.eqb_eq, ?Bool.eqb_true_iff, ?cmc_caller_eqb_spec, ?(list_eqb_spec _ Nat.eqb_eq);
      intros H; decompose [and] H; subst; reflexivity.
  - intros <-. destruct x; cbn [cmc_op_eqb];
      rewrite ?andb_true_iff, ?Nat.eqb_eq, ?Bool.eqb_true_iff, ?cmc_caller_eqb_spec, ?(list_eqb_spec _ Nat.eqb_eq); auto.
Qed.

Lemma cmc_hpc_eqb_spec : forall x y, cmc_hpc_eqb x y = true <-> x = y.
Proof.
  intros x y; destruct x, y; cbn [cmc_hpc_eqb]; try easy.
  rewrite andb_true_iff, Nat.eqb_eq, Bool.eqb_true_iff. split; [intros [-> ->]; reflexivity | intros [= -> ->]; auto].
Qed.

Lemma cmc_err_eqb_spec : forall x y, cmc_err_eqb x y = true <-> x = y.
Proof. intros x y; destruct x, y; cbn [cmc_err_eqb]; try easy; rewrite Nat.eqb_eq; split; congruence. Qed.

Lemma cmc_elem_eqb_spec : forall x y, cmc_elem_eqb x y = true <-> x = y.
Proof.
  intros [a1 b1 c1 d1 e1 f1] [a2 b2 c2 d2 e2 f2]; unfold cmc_elem_eqb; cbn [ce_conv ce_ttl ce_mu ce_syn ce_ack ce_h].
  rewrite !andb_true_iff, Nat.eqb_eq, Z.eqb_eq, !Bool.eqb_true_iff, cmc_hpc_eqb_spec.
  split; [intros H; decompose [and] H; subst; reflexivity | intros [= ]; subst; repeat split].
Qed.

Lemma cmc_adp_eqb_spec : forall x y, cmc_adp_eqb x y = true <-> x = y.
Proof.
  intros [a1 b1 c1] [a2 b2 c2]; unfold cmc_adp_eqb; cbn [ca_perm ca_started ca_chan].
  rewrite !andb_true_iff, !Bool.eqb_true_iff, (list_eqb_spec _ Bool.eqb_true_iff).
  split; [intros H; decompose [and] H; subst; reflexivity | intros [= ]; subst; repeat split].
Qed.

Lemma cmc_msg_eqb_spec : forall x y, cmc_msg_eqb x y = true <-> x = y.
Proof.
  intros [a1 b1] [a2 b2]; unfold cmc_msg_eqb; cbn [fst snd]. rewrite andb_true_iff, Bool.eqb_true_iff, Nat.eqb_eq.
  split; [intros [-> ->]; reflexivity | intros [= -> ->]; auto].
Qed.

Lemma cmc_state_eqb_spec : forall x y, cmc_state_eqb x y = true <-> x = y.
Proof.
  intros [a1 b1 c1 d1 e1 f1 g1 h1 i1 j1 k1 l1 m1 n1 o1] [a2 b2 c2 d2 e2 f2 g2 h2 i2 j2 k2 l2 m2 n2 o2]; unfold cmc_state_eqb;
    cbn [cs_h cs_c cs_cl cs_els cs_reg cs_ads cs_flag cs_sfm cs_syn cs_ack cs_in cs_in_closed cs_out_closed cs_ticks cs_err].
  rewrite !andb_true_iff, !(list_eqb_spec _ cmc_op_eqb_spec), (list_eqb_spec _ (list_eqb_spec _ cmc_op_eqb_spec)),
    (list_eqb_spec _ cmc_elem_eqb_spec), (list_eqb_spec _ (option_eqb_spec _ Nat.eqb_eq)),
    (list_eqb_spec _ cmc_adp_eqb_spec), (list_eqb_spec _ cmc_msg_eqb_spec), !Bool.eqb_true_iff, Nat.eqb_eq,
    (option_eqb_spec _ cmc_err_eqb_spec).
  split; [intros H; decompose [and] H; subst; reflexivity | intros [= ]; subst; repeat split].
Qed.

Section CmcExploreSound.
  Variable St : Type.
  Variable eqb : St -> St -> bool.
  Variable hash : St -> positive.
  Variable expand : St -> option (list St).
  Hypothesis eqb_eq : forall x y, eqb x y = true -> x = y.
  Hypothesis eqb_refl : forall x, eqb x x = true.

  Notation vmem := (cmc_vmem St eqb hash).
  Notation vadd := (cmc_vadd St hash).

  Lemma cmc_vmem_add : forall t s v, vmem t (vadd s v) = true <-> t = s \/ vmem t v = true.
  Proof.
    intros t s v. unfold cmc_vmem, cmc_vadd, cmc_vmem_h, cmc_vadd_h.
    destruct (Pos.eq_dec (hash t) (hash s)) as [E|E].
    - rewrite E, PositiveMap.gss. cbn [existsb]. rewrite orb_true_iff. split.
      + intros [H|H]; [left; now apply eqb_eq|right]. destruct (PositiveMap.find (hash s) v); [exact H|discriminate].
      + intros [->|H]; [left; apply eqb_refl|right]. destruct (PositiveMap.find (hash s) v); [exact H|discriminate].
    - rewrite PositiveMap.gso by exact E. split; [auto|]. intros [->|H]; [congruence|exact H].
  Qed.

  Lemma cmc_vmem_empty : forall s, vmem s (PositiveMap.empty _) = false.
  Proof. intros s. unfold cmc_vmem, cmc_vmem_h. rewrite PositiveMap.gempty. reflexivity. Qed.

  Definition cmc_covered (x : cmc_ex St) (s : St) : Prop := vmem s (ex_vis St x) = true \/ In s (ex_stack St x).

  Definition cmc_ex_inv (inits : list St) (x : cmc_ex St) : Prop :=
    ex_bad St x = None ->
    (forall s, In s inits -> cmc_covered x s)
    /\ (forall s, vmem s (ex_vis St x) = true ->
          exists succ, expand s = Some succ /\ forall s', In s' succ -> cmc_covered x s').

  Lemma cmc_ex_step_inv : forall inits x, cmc_ex_inv inits x -> cmc_ex_inv inits (cmc_ex_step St eqb hash expand x).
  Proof.
    intros inits x Hinv. unfold cmc_ex_step.
    destruct (ex_bad St x) eqn:Eb; [exact Hinv|].
    destruct (ex_stack St x) as [|s r] eqn:Es; [exact Hinv|].
    destruct (Hinv Eb) as [HB HA]. unfold cmc_covered in HA, HB. rewrite Es in HA, HB.
    cbv zeta. change (cmc_vmem_h St eqb (hash s) s (ex_vis St x)) with (vmem s (ex_vis St x)).
    change (cmc_vadd_h St (hash s) s (ex_vis St x)) with (vadd s (ex_vis St x)).
    (* popping s keeps everything covered, provided s is visited afterwards *)
    assert (Hpop : forall vis' stack', (forall t, vmem t (ex_vis St x) = true -> vmem t vis' = true) ->
               vmem s vis' = true -> (forall t, In t r -> In t stack') ->
               forall t, vmem t (ex_vis St x) = true \/ In t (s :: r) -> vmem t vis' = true \/ In t stack').
    { intros vis' stack' Hv Hs Hr t [H|[<-|H]]; auto. }
    destruct (vmem s (ex_vis St x)) eqn:Em.
    - intros _. unfold cmc_covered. cbn [ex_vis ex_stack].
      pose proof (Hpop (ex_vis St x) r (fun _ H => H) Em (fun _ H => H)) as Hc.
      split; [auto|]. intros t Ht. destruct (HA t Ht) as (succ & E1 & E2). eauto.
    - destruct (expand s) as [succ|] eqn:Ee; [|discriminate].
      intros _. unfold cmc_covered. cbn [ex_vis ex_stack].
      assert (Hc : forall t, vmem t (ex_vis St x) = true \/ In t (s :: r) ->
                   vmem t (vadd s (ex_vis St x)) = true \/ In t (succ ++ r)).
      { apply Hpop.
        - intros t Ht. apply cmc_vmem_add. now right.
        - apply cmc_vmem_add. now left.
        - intros t Ht. apply in_or_app. now right. }
      split; [auto|]. intros t Ht. apply cmc_vmem_add in Ht as [->|Ht].
      + exists succ. split; [exact Ee|]. intros s' Hs'. right. apply in_or_app. now left.
      + destruct (HA t Ht) as (succ' & E1 & E2). eauto.
  Qed.

  Lemma cmc_ex_run_inv : forall inits fuel x, cmc_ex_inv inits x -> cmc_ex_inv inits (cmc_ex_run St eqb hash expand fuel x).
  Proof.
    intros inits. induction fuel as [f IH|f IH|]; intros x Hinv; cbn [cmc_ex_run]; destruct (cmc_ex_done St x);
      auto using cmc_ex_step_inv.
  Qed.

  Inductive cmc_star (s : St) : St -> Prop :=
  | cmc_star_refl : cmc_star s s
  | cmc_star_step : forall t succ t', cmc_star s t -> expand t = Some succ -> In t' succ -> cmc_star s t'.

  Theorem cmc_explore_sound : forall fuel inits,
    cmc_explore_ok St eqb hash expand fuel inits = true ->
    forall s0 s, In s0 inits -> cmc_star s0 s -> exists succ, expand s = Some succ.
  Proof.
    intros fuel inits Hok s0 s Hin Hstar. unfold cmc_explore_ok in Hok.
    set (x := cmc_explore St eqb hash expand fuel inits) in *.
    assert (Hinv : cmc_ex_inv inits x).
    { apply cmc_ex_run_inv. intros _. split.
      - intros t Ht. right. exact Ht.
      - intros t Ht. cbn [ex_vis] in Ht. rewrite cmc_vmem_empty in Ht. discriminate. }
    destruct (ex_bad St x) eqn:Eb; [discriminate|].
    destruct (ex_stack St x) eqn:Es; [|discriminate].
    destruct (Hinv Eb) as [HB HA]. unfold cmc_covered in HA, HB. rewrite Es in HA, HB.
    (* the stack is empty: covered means visited *)
    assert (Hmem : vmem s (ex_vis St x) = true).
    { induction Hstar as [|t succ t' _ IH E Ht'].
      - destruct (HB s0 Hin) as [H|[]]. exact H.
      - destruct (HA t IH) as (succ' & E1 & E2). rewrite E in E1. injection E1 as <-.
        destruct (E2 t' Ht') as [H|[]]. exact H. }
    destruct (HA s Hmem) as (succ & E & _). eauto.
  Qed.
End CmcExploreSound.

Inductive cmc_reach (sw : cmc_sw) (p : cmc_par) (s : cmc_state) : cmc_state -> Prop :=
| cmc_reach_refl : cmc_reach sw p s s
| cmc_reach_step : forall s1 t alt s2, cmc_reach sw p s s1 -> cmc_step sw p s1 t alt = Some s2 -> cmc_reach sw p s s2.

Inductive cmc_run (sw : cmc_sw) (p : cmc_par) : nat -> cmc_state -> cmc_state -> Prop :=
| cmc_run_nil : forall s, cmc_run sw p 0 s s
| cmc_run_cons : forall n s t alt s1 s2, cmc_step sw p s t alt = Some s1 -> cmc_run sw p n s1 s2 -> cmc_run sw p (S n) s s2.

Lemma cmc_reach_trans : forall sw p a b c, cmc_reach sw p a b -> cmc_reach sw p b c -> cmc_reach sw p a c.
Proof. intros sw p a b c H1 H2. induction H2; [exact H1|]. eapply cmc_reach_step; eauto. Qed.

Lemma cmc_run_reach : forall sw p n a b, cmc_run sw p n a b -> cmc_reach sw p a b.
Proof.
  intros sw p n a b H. induction H; [constructor|].
  eapply cmc_reach_trans; [|exact IHcmc_run]. eapply cmc_reach_step; [constructor|exact H].
Qed.

Lemma cmc_run_sched_run : forall sw p l s s', cmc_run_sched sw p s l = Some s' -> cmc_run sw p (length l) s s'.
Proof.
  intros sw p. induction l as [|[t alt] l IH]; cbn [cmc_run_sched length]; intros s s' H.
  - injection H as <-. constructor.
  - destruct (cmc_step sw p s t alt) as [s1|] eqn:E; [|discriminate]. econstructor; [exact E|]. apply IH. exact H.
Qed.

Lemma cmc_witness : forall sw c sched (P : cmc_state -> bool),
  match cmc_run_sched sw (cf_par c) (cmc_init c) sched with Some s => P s | None => false end = true ->
  exists s, cmc_reach sw (cf_par c) (cmc_init c) s /\ P s = true.
Proof.
  intros sw c sched P H. destruct (cmc_run_sched sw (cf_par c) (cmc_init c) sched) as [s|] eqn:E; [|discriminate].
  exists s. split; [|exact H]. eapply cmc_run_reach, cmc_run_sched_run, E.
Qed.

Lemma cmc_step_cases : forall sw p s t alt s', cmc_step sw p s t alt = Some s' ->
  cs_err s = None /\
  match t with
  | TE e => exists x, nth_error (cs_els s) e = Some x /\ ce_h x <> ENone /\ alt <= cmc_hpc_alts (ce_h x)
                      /\ cmc_exec_el p s e alt = Some s'
  | _ => exists o k, cmc_stack_of s t = o :: k /\ alt <= cmc_op_alts o /\ cmc_exec sw p s t o k alt = Some s'
  end.
Proof.
  intros sw p s t alt s' H. unfold cmc_step in H.
  destruct (cs_err s); [discriminate|]. split; [reflexivity|].
  destruct t as [| |i|e]; cbn [cmc_stack_of].
  - destruct (cs_h s) as [|o k]; [discriminate|]. destruct (Nat.leb_spec alt (cmc_op_alts o)); [eauto|discriminate].
  - destruct (cs_c s) as [|o k]; [discriminate|]. destruct (Nat.leb_spec alt (cmc_op_alts o)); [eauto|discriminate].
  - destruct (nth_error (cs_cl s) i) as [[|o k]|]; try discriminate.
    destruct (Nat.leb_spec alt (cmc_op_alts o)); [eauto|discriminate].
  - destruct (nth_error (cs_els s) e) as [x|]; [|discriminate]. exists x.
    destruct (ce_h x); try discriminate; destruct (alt <=? _) eqn:El; try discriminate; apply Nat.leb_le in El;
      repeat split; auto; discriminate.
Qed.

Lemma cmc_alts_upto_in : forall t n alt, alt <= n -> n <= 2 -> In (t, alt) (cmc_alts_upto t n).
Proof.
  intros t n alt H1 H2. destruct n as [|[|[|n]]]; try lia; destruct alt as [|[|[|alt]]]; try lia; simpl; auto.
Qed.

Lemma cmc_stack_labels_in : forall t o k alt, alt <= cmc_op_alts o -> In (t, alt) (cmc_stack_labels t (o :: k)).
Proof. intros t o k alt H. apply cmc_alts_upto_in; [exact H|]. destruct o; simpl; lia. Qed.

Lemma cmc_cl_labels_in : forall l i0 i o k alt,
  nth_error l i = Some (o :: k) -> alt <= cmc_op_alts o -> In (TCl (i0 + i), alt) (cmc_cl_labels i0 l).
Proof.
  induction l as [|k0 l IH]; intros i0 i o k alt Hn Ha; [destruct i; discriminate|].
  cbn [cmc_cl_labels]. apply in_or_app. destruct i as [|i]; cbn [nth_error] in Hn.
  - injection Hn as ->. left. rewrite Nat.add_0_r. now apply cmc_stack_labels_in.
  - right. rewrite <- Nat.add_succ_comm. eapply IH; eauto.
Qed.

Lemma cmc_el_labels_in : forall l e0 e x alt,
  nth_error l e = Some x -> ce_h x <> ENone -> alt <= cmc_hpc_alts (ce_h x) -> In (TE (e0 + e), alt) (cmc_el_labels e0 l).
Proof.
  induction l as [|x0 l IH]; intros e0 e x alt Hn Hh Ha; [destruct e; discriminate|].
  destruct e as [|e]; cbn [nth_error cmc_el_labels] in *.
  - injection Hn as ->. rewrite Nat.add_0_r.
    assert (Hin : In (TE e0, alt) (cmc_alts_upto (TE e0) (cmc_hpc_alts (ce_h x)))).
    { apply cmc_alts_upto_in; [exact Ha|]. destruct (ce_h x); simpl; lia. }
    destruct (ce_h x); try congruence; apply in_or_app; left; exact Hin.
  - rewrite <- Nat.add_succ_comm.
    destruct (ce_h x0); try (apply in_or_app; right); eapply IH; eauto.
Qed.

Lemma cmc_step_label : forall sw p s t alt s', cmc_step sw p s t alt = Some s' -> In (t, alt) (cmc_labels s).
Proof.
  intros sw p s t alt s' H. destruct (cmc_step_cases _ _ _ _ _ _ H) as [_ Hc].
  unfold cmc_labels. rewrite !in_app_iff. destruct t as [| |i|e].
  - destruct Hc as (o & k & Hst & Ha & _). left. cbn [cmc_stack_of] in Hst. rewrite Hst. now apply cmc_stack_labels_in.
  - destruct Hc as (o & k & Hst & Ha & _). right. left. cbn [cmc_stack_of] in Hst. rewrite Hst. now apply cmc_stack_labels_in.
  - destruct Hc as (o & k & Hst & Ha & _). right. right. left. apply (cmc_cl_labels_in _ 0 i o k alt); [|exact Ha].
    cbn [cmc_stack_of] in Hst. destruct (nth_error (cs_cl s) i); [now subst|discriminate].
  - destruct Hc as (x & Ex & Hh & Ha & _). right. right. right. exact (cmc_el_labels_in _ 0 e x alt Ex Hh Ha).
Qed.

Lemma cmc_succs_complete : forall sw p s t alt s', cmc_step sw p s t alt = Some s' -> In s' (cmc_succs sw p s).
Proof.
  intros sw p s t alt s' H. unfold cmc_succs. apply in_flat_map. exists (t, alt). split.
  - eapply cmc_step_label. exact H.
  - cbn [fst snd]. rewrite H. left. reflexivity.
Qed.

Lemma cmc_succs_sound : forall sw p s s', In s' (cmc_succs sw p s) -> exists t alt, cmc_step sw p s t alt = Some s'.
Proof.
  intros sw p s s' H. unfold cmc_succs in H. apply in_flat_map in H. destruct H as [[t alt] [_ H]]. cbn [fst snd] in H.
  destruct (cmc_step sw p s t alt) eqn:E; [|destruct H]. destruct H as [H|[]]. subst. eauto.
Qed.

Lemma cmc_succs_nil : forall sw p s, cmc_succs sw p s = [] -> forall t alt, cmc_step sw p s t alt = None.
Proof.
  intros sw p s H t alt. destruct (cmc_step sw p s t alt) eqn:E; [|reflexivity].
  apply cmc_succs_complete in E. rewrite H in E. destruct E.
Qed.

Record cmc_state_good (sw : cmc_sw) (p : cmc_par) (s : cmc_state) : Prop := {
  sg_no_err : cs_err s = None;
  sg_live : cmc_all_done s = false -> exists t alt s', cmc_step sw p s t alt = Some s';
  sg_final : (forall t alt, cmc_step sw p s t alt = None) -> cmc_all_done s = true /\ cmc_all_stopped s = true
}.

Lemma cmc_expand_good : forall sw p s succ, cmc_expand sw p s = Some succ -> cmc_state_good sw p s /\ succ = cmc_succs sw p s.
Proof.
  intros sw p s succ H. unfold cmc_expand, cmc_no_err in H.
  destruct (cs_err s) eqn:Hne; [discriminate|].
  destruct (cmc_succs sw p s) as [|s1 r] eqn:Es.
  - destruct (cmc_all_done s && cmc_all_stopped s) eqn:Ed; [|discriminate]. injection H as <-.
    apply andb_true_iff in Ed. destruct Ed as [Ed1 Ed2]. split; [|reflexivity]. constructor; auto.
    intros Hd. rewrite Hd in Ed1. discriminate.
  - injection H as <-. split; [|reflexivity].
    destruct (cmc_succs_sound sw p s s1) as (t & alt & Hs); [rewrite Es; left; reflexivity|].
    constructor; [exact Hne|eauto|]. intros Hnone. rewrite Hnone in Hs. discriminate.
Qed.

Lemma cmc_reach_star : forall sw p s0 s, cmc_reach sw p s0 s ->
  (forall t, cmc_star cmc_state (cmc_expand sw p) s0 t -> exists succ, cmc_expand sw p t = Some succ) ->
  cmc_star cmc_state (cmc_expand sw p) s0 s.
Proof.
  intros sw p s0 s H Hall. induction H; [constructor|].
  destruct (Hall s1 IHcmc_reach) as [succ Hs]. destruct (cmc_expand_good _ _ _ _ Hs) as [_ Hsucc].
  eapply cmc_star_step; [exact IHcmc_reach|exact Hs|]. subst succ. eapply cmc_succs_complete. exact H0.
Qed.

Theorem cmc_check_cfg_sound : forall sw fuel c, cmc_check_cfg sw fuel c = true ->
  forall s, cmc_reach sw (cf_par c) (cmc_init c) s -> cmc_state_good sw (cf_par c) s.
Proof.
  intros sw fuel c Hc s Hr. unfold cmc_check_cfg in Hc.
  assert (Hall : forall t, cmc_star cmc_state (cmc_expand sw (cf_par c)) (cmc_init c) t ->
                           exists succ, cmc_expand sw (cf_par c) t = Some succ).
  { intros t Ht.
    apply (cmc_explore_sound _ _ _ _ (fun x y => proj1 (cmc_state_eqb_spec x y))
             (fun x => proj2 (cmc_state_eqb_spec x x) eq_refl) _ _ Hc (cmc_init c)); [left; reflexivity|exact Ht]. }
  destruct (Hall s (cmc_reach_star _ _ _ _ Hr Hall)) as [succ He].
  apply (cmc_expand_good _ _ _ _ He).
Qed.

(* the adapter call made by a step is legal if the step does not end in the error state: activate starts
   (unless it gives up: ttl 0, not permanent) an adapter that is not started ... *)
Lemma cmc_act2_guard : forall sw p s t c e k alt s' x ad,
  cmc_exec sw p s t (Act2 c e) k alt = Some s' -> cs_err s' = None ->
  nth_error (cs_els s) e = Some x -> nth_error (cs_ads s) (ce_conv x) = Some ad ->
  (ce_ttl x =? 0)%Z && negb (ca_perm ad) = false -> ca_started ad = false.
Proof.
  intros sw p s t c e k alt s' x ad H He Ex Ea Eg. cbn [cmc_exec] in H. rewrite Ex, Ea, Eg in H.
  destruct (ca_started ad); [|reflexivity]. destruct alt; [|discriminate]. injection H as <-. discriminate He.
Qed.

Lemma cmc_call_guard : forall sw p s t alt s', cmc_step sw p s t alt = Some s' -> cs_err s' = None ->
  match cmc_call s t with
  | Some (true, a) => cmc_started s a = false
  | Some (false, a) => cmc_started s a = true
  | None => True
  end.
Proof.
  intros sw p s t alt s' Hs He. destruct (cmc_step_cases _ _ _ _ _ _ Hs) as [_ Hc].
  destruct t as [| |i|e]; cbn [cmc_call].
  4: { (* ... and an element handler that stops closes one that is *)
    destruct Hc as (x & Ex & _ & _ & Hex). unfold cmc_exec_el in Hex. rewrite Ex in *.
    destruct (ce_h x); try exact I. destruct alt; [|discriminate]. unfold cmc_started.
    destruct (nth_error (cs_ads s) (ce_conv x)) as [ad|]; [|discriminate].
    destruct (ca_started ad); [reflexivity|]. injection Hex as <-. discriminate He. }
  all: destruct Hc as (o & k & Hst & _ & Hex); rewrite Hst; destruct o; try exact I.
  all: destruct (nth_error (cs_els s) _) as [x|] eqn:Ex; [|exact I].
  all: destruct (nth_error (cs_ads s) (ce_conv x)) as [ad|] eqn:Ea; [|exact I].
  all: destruct ((ce_ttl x =? 0)%Z && negb (ca_perm ad)) eqn:Eg; [exact I|].
  all: unfold cmc_started; rewrite Ea; exact (cmc_act2_guard _ _ _ _ _ _ _ _ _ _ _ Hex He Ex Ea Eg).
Qed.

Definition cmc_wsum {A} (w : A -> N) (l : list A) : N := fold_right (fun x r => w x + r)%N 0%N l.
Definition cmc_w_elem (x : cmc_elem) : N := cmc_w_hpc (ce_h x).
Definition cmc_w_adp (ad : cmc_adp) : N := (nlen (ca_chan ad) * cmc_w_msg_chan)%N.
Definition cmc_w_err (e : option cmc_err) : N := match e with None => 1%N | Some _ => 0%N end.

Lemma cmc_rank_eq : forall s, cmc_rank s =
  (cmc_w_stack (nlen (cs_reg s)) (cs_h s) + cmc_w_stack (nlen (cs_reg s)) (cs_c s)
   + cmc_wsum (cmc_w_stack (nlen (cs_reg s))) (cs_cl s) + cmc_wsum cmc_w_elem (cs_els s) + cmc_wsum cmc_w_adp (cs_ads s)
   + nlen (cs_in s) * cmc_w_msg_in + N.of_nat (cs_ticks s) * (3 + nlen (cs_reg s) * cmc_w_tickkey) + cmc_w_err (cs_err s))%N.
Proof. reflexivity. Qed.

Lemma cmc_w_stack_cons : forall n o k, cmc_w_stack n (o :: k) = (cmc_w_op n o + cmc_w_stack n k)%N.
Proof. reflexivity. Qed.

Lemma cmc_nlen_upd {A} : forall (l : list A) i x, nlen (cmc_upd l i x) = nlen l.
Proof.
  unfold nlen. induction l; destruct i; cbn [cmc_upd length]; intros; auto.
  now rewrite Nat2N.inj_succ, IHl, <- Nat2N.inj_succ.
Qed.

Lemma cmc_wsum_upd {A} (w : A -> N) : forall l i x y, nth_error l i = Some x ->
  (cmc_wsum w (cmc_upd l i y) + w x = cmc_wsum w l + w y)%N.
Proof.
  induction l as [|z l IH]; intros i x y H; destruct i; cbn [nth_error cmc_upd cmc_wsum fold_right] in *; try discriminate.
  - injection H as ->. lia.
  - specialize (IH _ _ y H). unfold cmc_wsum in IH. lia.
Qed.

Lemma cmc_wsum_app1 {A} (w : A -> N) : forall l x, (cmc_wsum w (l ++ [x]) = cmc_wsum w l + w x)%N.
Proof. induction l; intros; cbn [app cmc_wsum fold_right] in *; [lia|]. unfold cmc_wsum in IHl. rewrite IHl. lia. Qed.

Lemma cmc_keys_nlen : forall s, (nlen (cmc_keys s) <= nlen (cs_reg s))%N.
Proof.
  intros s. unfold nlen, cmc_keys. generalize 0. induction (cs_reg s) as [|[x|] r IH]; intros i; cbn [cmc_keys_from length];
    [lia| |]; specialize (IH (S i)); lia.
Qed.

Ltac cmc_fields := cbn [cmc_set_h cmc_set_c cmc_set_cl cmc_set_els cmc_set_reg cmc_set_ads cmc_set_in cmc_set_ticks cmc_fail
  cs_h cs_c cs_cl cs_els cs_reg cs_ads cs_in cs_ticks cs_err] in *.

Lemma cmc_rank_set_stack : forall s t o k k1, cmc_stack_of s t = o :: k ->
  (cmc_rank (cmc_set_stack s t k1) + cmc_w_stack (nlen (cs_reg s)) (o :: k)
   = cmc_rank s + cmc_w_stack (nlen (cs_reg s)) k1)%N.
Proof.
  intros s t o k k1 H. rewrite !cmc_rank_eq. destruct t as [| |i|e]; cbn [cmc_stack_of cmc_set_stack] in *; cmc_fields.
  - rewrite H. lia.
  - rewrite H. lia.
  - destruct (nth_error (cs_cl s) i) as [k0|] eqn:E; [subst k0|discriminate].
    pose proof (cmc_wsum_upd (cmc_w_stack (nlen (cs_reg s))) _ i _ k1 E). lia.
  - discriminate.
Qed.

Lemma cmc_rank_fail : forall s e, cs_err s = None -> (cmc_rank (cmc_fail s e) < cmc_rank s)%N.
Proof. intros s e H. rewrite !cmc_rank_eq. cmc_fields. rewrite H. cbn [cmc_w_err]. lia. Qed.

Definition cmc_costs (s s1 : cmc_state) (gain cost : N) : Prop :=
  nlen (cs_reg s1) = nlen (cs_reg s) /\ (forall t, cmc_stack_of s1 t = cmc_stack_of s t)
  /\ (cmc_rank s1 + gain <= cmc_rank s + cost)%N.

Lemma cmc_costs_same : forall s s1,
  (cs_h s1, cs_c s1, cs_cl s1, cs_els s1, cs_reg s1, cs_ads s1, cs_in s1, cs_ticks s1, cs_err s1)
  = (cs_h s, cs_c s, cs_cl s, cs_els s, cs_reg s, cs_ads s, cs_in s, cs_ticks s, cs_err s) -> cmc_costs s s1 0 0.
Proof.
  intros s s1 [= Hh Hc Hcl Hels Hreg Hads Hin Hticks Herr]. split; [now rewrite Hreg|]. split.
  - intros t. unfold cmc_stack_of. now rewrite Hh, Hc, Hcl.
  - rewrite !cmc_rank_eq, Hh, Hc, Hcl, Hels, Hreg, Hads, Hin, Hticks, Herr. lia.
Qed.

Lemma cmc_costs_upd_el : forall s e x y, nth_error (cs_els s) e = Some x ->
  cmc_costs s (cmc_set_els s (cmc_upd (cs_els s) e y)) (cmc_w_elem x) (cmc_w_elem y).
Proof.
  intros s e x y H. split; [reflexivity|split; [reflexivity|]]. rewrite !cmc_rank_eq. cmc_fields.
  pose proof (cmc_wsum_upd cmc_w_elem _ _ _ y H). lia.
Qed.

Lemma cmc_costs_upd_ad : forall s a x y, nth_error (cs_ads s) a = Some x ->
  cmc_costs s (cmc_set_ads s (cmc_upd (cs_ads s) a y)) (cmc_w_adp x) (cmc_w_adp y).
Proof.
  intros s a x y H. split; [reflexivity|split; [reflexivity|]]. rewrite !cmc_rank_eq. cmc_fields.
  pose proof (cmc_wsum_upd cmc_w_adp _ _ _ y H). lia.
Qed.

Lemma cmc_costs_new_el : forall s a ttl, cmc_costs s (cmc_set_els s (cs_els s ++ [cmc_new_elem a ttl])) 0 0.
Proof.
  intros. split; [reflexivity|split; [reflexivity|]]. rewrite !cmc_rank_eq. cmc_fields. rewrite cmc_wsum_app1. cbn. lia.
Qed.

Lemma cmc_costs_upd_reg : forall s a v, cmc_costs s (cmc_set_reg s (cmc_upd (cs_reg s) a v)) 0 0.
Proof.
  intros. split; [apply cmc_nlen_upd|split; [reflexivity|]]. rewrite !cmc_rank_eq. cmc_fields. rewrite cmc_nlen_upd. lia.
Qed.

Lemma cmc_costs_take_msg : forall s m l, cs_in s = m :: l -> cmc_costs s (cmc_set_in s l) cmc_w_msg_in 0.
Proof.
  intros s m l H. split; [reflexivity|split; [reflexivity|]]. rewrite !cmc_rank_eq. cmc_fields. rewrite H, nlen_cons. lia.
Qed.

Lemma cmc_costs_push_msg : forall s m, cmc_costs s (cmc_set_in s (cs_in s ++ [m])) 0 cmc_w_msg_in.
Proof.
  intros s m. split; [reflexivity|split; [reflexivity|]]. rewrite !cmc_rank_eq. cmc_fields. rewrite nlen_app. change (nlen [m]) with 1%N. lia.
Qed.

Lemma cmc_costs_tick : forall s n, cs_ticks s = S n ->
  cmc_costs s (cmc_set_ticks s n) (3 + nlen (cs_reg s) * cmc_w_tickkey) 0.
Proof. intros s n H. split; [reflexivity|split; [reflexivity|]]. rewrite !cmc_rank_eq. cmc_fields. rewrite H. lia. Qed.

Lemma cmc_costs_trans : forall s s1 s2 g1 c1 g2 c2, cmc_costs s s1 g1 c1 -> cmc_costs s1 s2 g2 c2 ->
  cmc_costs s s2 (g1 + g2) (c1 + c2).
Proof.
  intros s s1 s2 g1 c1 g2 c2 (Hn1 & Hs1 & Hr1) (Hn2 & Hs2 & Hr2). split; [congruence|]. split; [|lia].
  intros t. now rewrite Hs2.
Qed.

Lemma cmc_costs_rank : forall s s' g c, cmc_costs s s' g c -> (c < g)%N -> (cmc_rank s' < cmc_rank s)%N.
Proof. intros s s' g c (_ & _ & H) Hlt. lia. Qed.

#[local] Hint Resolve cmc_costs_upd_el cmc_costs_upd_ad cmc_costs_new_el cmc_costs_upd_reg cmc_costs_take_msg
  cmc_costs_tick : cmc_costs.
#[local] Hint Extern 9 (cmc_costs _ _ _ _) => apply cmc_costs_same; reflexivity : cmc_costs.

Lemma cmc_go_rank : forall s s1 t o k k' g c, cmc_stack_of s t = o :: k -> cmc_costs s s1 g c ->
  (c + cmc_w_stack (nlen (cs_reg s)) k' < g + cmc_w_op (nlen (cs_reg s)) o + cmc_w_stack (nlen (cs_reg s)) k)%N ->
  (cmc_rank (cmc_set_stack s1 t k') < cmc_rank s)%N.
Proof.
  intros s s1 t o k k' g c Hst (Hn & Hst1 & Hle) Hw. rewrite <- Hst1 in Hst.
  pose proof (cmc_rank_set_stack s1 t o k k' Hst) as H. rewrite Hn, cmc_w_stack_cons in H. lia.
Qed.

Ltac cmc_destr H :=
  repeat match type of H with
         | context [match ?x with _ => _ end] => destruct x eqn:?
         end; try discriminate.

(* The weight table (cmc_w_op) is made so that every operation weighs more than what it leaves on the stack plus
   what it adds elsewhere: after the case analysis of cmc_exec each leaf is either the step into the error state or
   [go s1 k'] with s1 one of the changes above, and the inequality of cmc_go_rank is arithmetic over the table.
   How the table is made (to change an operation, redo its line): straight-line sequences count down to 1
   (UnrLoad .. UnrDel, the closing sequences of H and C); an operation that calls weighs its callee and the
   return as well: RegLock .. RegActive count down to 1 above the Act0 that RegLoad and RegActive push
   (cmc_w_act0), Act4 returns into cmc_after_act
   (cmc_w_after: RegStore, RegLock2, RegChk2 and a whole unregister, or TickDel); Act3 may start the element's
   handler (ESel = 3: ESel, EStop, EAck), the 3 in cmc_w_act0; HSel leaves HShut0 (6 + n * shutkey), or takes a
   message out of inChnl or a tick, whose weights (cmc_w_msg_in, 3 + n * tickkey) are one more than the
   operations it pushes in front of itself; HTick0 and HShut0 take the keys, at most n of them (cmc_keys_nlen,
   the one fact that is not in the table). *)
Lemma cmc_exec_rank : forall sw p s t o k alt s', cmc_stack_of s t = o :: k -> cs_err s = None ->
  cmc_exec sw p s t o k alt = Some s' -> (cmc_rank s' < cmc_rank s)%N.
Proof.
  intros sw p s t o k alt s' Hst He H.
  pose proof (cmc_keys_nlen s) as Hkeys.
  destruct o; cbn [cmc_exec] in H; unfold cmc_mod_el, cmc_after_act in H; cmc_destr H; injection H as <-.
  all: lazymatch goal with
       | |- (cmc_rank (cmc_fail _ _) < _)%N => exact (cmc_rank_fail _ _ He)
       | _ => eapply (cmc_go_rank s _ t _ _ _ _ _ Hst); [solve [eauto with cmc_costs]|]
       end.
  all: unfold cmc_w_stack, cmc_w_elem, cmc_w_adp;
    cbn [fold_right cmc_w_op cmc_w_hpc ce_h cmc_el_set_mu cmc_el_set_ttl cmc_el_set_syn ca_chan cmc_ad_set_started cmc_w_after];
    rewrite ?nlen_cons; unfold cmc_w_tickkey, cmc_w_shutkey, cmc_w_msg_in, cmc_w_reg, cmc_w_act0, cmc_w_after, cmc_w_unr;
    clear - Hkeys; lia.
Qed.

Lemma cmc_exec_el_rank : forall p s e alt s', cs_err s = None ->
  cmc_exec_el p s e alt = Some s' -> (cmc_rank s' < cmc_rank s)%N.
Proof.
  intros p s e alt s' He H. unfold cmc_exec_el, cmc_mod_el in H. cmc_fields.
  destruct (nth_error (cs_els s) e) as [x|] eqn:Ex; [|discriminate].
  (* the handler's own move, applied after the change s1 of the other fields *)
  assert (Hown : forall s1 y g c, cs_els s1 = cs_els s -> cmc_costs s s1 g c ->
            (c + cmc_w_hpc (ce_h y) < g + cmc_w_hpc (ce_h x))%N ->
            (cmc_rank (cmc_set_els s1 (cmc_upd (cs_els s) e y)) < cmc_rank s)%N).
  { intros s1 y g c Hels Hc Hlt. rewrite <- Hels in Ex |- *.
    exact (cmc_costs_rank _ _ _ _ (cmc_costs_trans _ _ _ _ _ _ _ Hc (cmc_costs_upd_el s1 e x y Ex)) Hlt). }
  destruct (ce_h x); [discriminate| | | |]; destruct alt as [|[|alt]]; try discriminate.
  - destruct (ce_syn x); [|discriminate]. injection H as <-.
    apply (Hown s _ 0 0)%N; [reflexivity|auto with cmc_costs|cbn; lia].
  - (* a status message leaves the adapter's channel: its weight pays for the send into inChnl *)
    destruct (nth_error (cs_ads s) (ce_conv x)) as [ad|] eqn:Ea; [|discriminate].
    destruct (ca_chan ad) as [|d rest] eqn:Ec; [discriminate|]. injection H as <-.
    eapply Hown; [reflexivity|exact (cmc_costs_upd_ad s _ ad _ Ea)|].
    unfold cmc_w_adp, cmc_w_msg_chan. cbn [ca_chan cmc_ad_set_chan cmc_w_hpc ce_h cmc_el_set_h]. rewrite Ec, nlen_cons. lia.
  - destruct (cs_in_closed s); [injection H as <-; exact (cmc_rank_fail _ _ He)|].
    destruct (par_cap p <=? length (cs_in s)); [discriminate|]. injection H as <-.
    eapply Hown; [reflexivity|apply cmc_costs_push_msg|]. cbn. lia.
  - destruct (nth_error (cs_ads s) (ce_conv x)) as [ad|] eqn:Ea; [|discriminate].
    destruct (ca_started ad); injection H as <-; [|exact (cmc_rank_fail _ _ He)].
    eapply Hown; [reflexivity|exact (cmc_costs_upd_ad s _ ad _ Ea)|]. unfold cmc_w_adp. cbn. lia.
  - destruct (ce_ack x); injection H as <-; [exact (cmc_rank_fail _ _ He)|].
    apply (Hown s _ 0 0)%N; [reflexivity|auto with cmc_costs|cbn; lia].
Qed.

Theorem cmc_step_rank : forall sw p s t alt s', cmc_step sw p s t alt = Some s' -> (cmc_rank s' < cmc_rank s)%N.
Proof.
  intros sw p s t alt s' H. destruct (cmc_step_cases _ _ _ _ _ _ H) as [He Hc].
  destruct t as [| |i|e].
  1-3: destruct Hc as (o & k & Hst & _ & Hex); exact (cmc_exec_rank _ _ _ _ _ _ _ _ Hst He Hex).
  destruct Hc as (x & _ & _ & _ & Hex). exact (cmc_exec_el_rank _ _ _ _ _ He Hex).
Qed.

(* hence every run, from any state, is finite: it has at most rank-many steps *)
Theorem cmc_run_rank : forall sw p n s s', cmc_run sw p n s s' -> (N.of_nat n + cmc_rank s' <= cmc_rank s)%N.
Proof.
  intros sw p n s s' H. induction H; [simpl; lia|].
  pose proof (cmc_step_rank _ _ _ _ _ _ H). lia.
Qed.

Lemma cmc_lists_le_complete {A} : forall k (xs : list A) l,
  length l <= k -> (forall x, In x l -> In x xs) -> In l (cmc_lists_le k xs).
Proof.
  induction k as [|k IH]; intros xs l Hl Hin.
  - destruct l; [left; reflexivity|simpl in Hl; lia].
  - destruct l as [|x l]; [left; reflexivity|]. simpl. right. apply in_flat_map. exists x. split.
    + apply Hin. left. reflexivity.
    + apply in_map. apply IH; [simpl in Hl; lia|]. intros y Hy. apply Hin. right. exact Hy.
Qed.

Lemma cmc_acfg_in : forall P M a, cmc_ainit_in_bound P (ac_init a) = true -> length (ac_msgs a) <= M ->
  In a (cmc_all_acfgs P M).
Proof.
  intros P M [i pm ms] Hi Hm. simpl in *. unfold cmc_all_acfgs.
  apply in_flat_map. exists i. split.
  - unfold cmc_all_inits. destruct i as [| |t]; [left; reflexivity|right; left; reflexivity|]. right. right.
    apply in_map. apply in_seq. simpl in Hi. apply Nat.leb_le in Hi. lia.
  - apply in_flat_map. exists pm. split; [destruct pm; simpl; auto|].
    apply in_map_iff. exists ms. split; [reflexivity|].
    apply cmc_lists_le_complete; [exact Hm|]. intros [|] _; simpl; auto.
Qed.

Lemma cmc_msg_count_le : forall ads a, In a ads -> length (ac_msgs a) <= cmc_msg_count ads.
Proof.
  induction ads as [|b ads IH]; intros a Ha; [destruct Ha|]. destruct Ha as [H|H]; simpl.
  - subst. lia.
  - specialize (IH a H). lia.
Qed.

Lemma cmc_cop_in : forall N o, cmc_cop_target o < N -> In o (cmc_all_cops N).
Proof.
  intros N o H. unfold cmc_all_cops. apply in_flat_map. exists (cmc_cop_target o). split.
  - apply in_seq. lia.
  - destruct o; simpl; auto.
Qed.

Theorem cmc_all_cfgs_complete : forall N K M T P c, cmc_in_bound N K M T P c = true -> In c (cmc_all_cfgs N K M T P).
Proof.
  intros N K M T P [ads ops ticks [ttl cap env]] H. unfold cmc_in_bound in H. cbn [cf_ads cf_ops cf_ticks cf_par par_ttl par_cap par_env] in H.
  rewrite !andb_true_iff, !Nat.leb_le, Z.eqb_eq, Nat.eqb_eq, negb_true_iff, !forallb_forall in H.
  destruct H as ((((((((Hads & Hops) & Hmsgs) & Hticks) & Hinit) & Htgt) & ->) & ->) & ->).
  unfold cmc_all_cfgs. apply in_flat_map. exists ads. split.
  - apply cmc_lists_le_complete; [exact Hads|]. intros a Ha. apply cmc_acfg_in; [now apply Hinit|].
    pose proof (cmc_msg_count_le ads a Ha). lia.
  - apply Nat.leb_le in Hmsgs. rewrite Hmsgs. apply in_flat_map. exists ops. split.
    + apply cmc_lists_le_complete; [exact Hops|]. intros o Ho. apply cmc_cop_in. apply Nat.ltb_lt. now apply Htgt.
    + apply in_map_iff. exists ticks. split; [reflexivity|]. apply in_seq. lia.
Qed.

Corollary cmc_family_complete : forall N K M T P c,
  cmc_in_bound N K M T P c = true -> cmc_cfg_ok c = true -> In c (cmc_family N K M T P).
Proof.
  intros. unfold cmc_family. apply filter_In. split; [apply cmc_all_cfgs_complete; assumption|assumption].
Qed.

Lemma cmc_family_checked : forall sw fuel fam,
  forallb (cmc_check_cfg sw fuel) fam = true ->
  forall c, In c fam -> forall s, cmc_reach sw (cf_par c) (cmc_init c) s -> cmc_state_good sw (cf_par c) s.
Proof.
  intros sw fuel fam H c Hc. rewrite forallb_forall in H. apply (cmc_check_cfg_sound sw fuel c). apply H. exact Hc.
Qed.
