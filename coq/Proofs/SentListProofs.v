(* SentListProofs.v - invariants of Model/SentList.v behind the C13 theorems. *)
From DTN Require Import Base ListFacts SentList.
Open Scope N_scope.

Lemma sl_mem_in : forall p l, sl_mem p l = true <-> In p l.
Proof.
  induction l as [|x l IH]; cbn; [split; [discriminate|tauto]|].
  rewrite orb_true_iff, N.eqb_eq, IH. tauto.
Qed.

Lemma sl_mem_not_in : forall p l, sl_mem p l = false <-> ~ In p l.
Proof. intros. rewrite <- sl_mem_in. destruct (sl_mem p l); split; congruence. Qed.

Lemma sl_remove1_in : forall p q l, In q (sl_remove1 p l) -> In q l.
Proof.
  induction l as [|x l IH]; cbn; [tauto|]. destruct (x =? p); cbn; tauto.
Qed.

Lemma sl_remove1_other : forall p q l, q <> p -> In q l -> In q (sl_remove1 p l).
Proof.
  induction l as [|x l IH]; cbn; [tauto|]. intros Hne [->|H].
  - destruct (q =? p) eqn:E; [apply N.eqb_eq in E; contradiction|now left].
  - destruct (x =? p); [exact H|right; auto].
Qed.

Lemma sl_remove1_nodup : forall p l, NoDup l -> NoDup (sl_remove1 p l) /\ ~ In p (sl_remove1 p l).
Proof.
  induction l as [|x l IH]; cbn; intros H; [split; [constructor|tauto]|].
  inversion H as [|? ? Hx Hl]; subst. destruct (x =? p) eqn:E.
  - apply N.eqb_eq in E. subst. auto.
  - apply N.eqb_neq in E. destruct (IH Hl) as [A B]. split.
    + constructor; [|exact A]. intros C. apply Hx. eapply sl_remove1_in; eauto.
    + intros [C|C]; contradiction.
Qed.

Lemma sl_filter_spec : forall cands sent k ch s',
  sl_filter sent cands k = (ch, s') -> NoDup sent -> s' = sent ++ ch /\ NoDup s' /\ incl ch cands.
Proof.
  induction cands as [|c cands IH]; intros sent k ch s' H ND; cbn [sl_filter] in H; [|destruct k as [|k']].
  1, 2: injection H as <- <-; rewrite app_nil_r; auto using incl_nil_l.
  destruct (sl_mem c sent) eqn:M.
  - destruct (IH _ _ _ _ H ND) as (E & A & B). auto using incl_tl.
  - destruct (sl_filter (sent ++ [c]) cands k') as [ch0 s0] eqn:R. injection H as <- <-.
    apply sl_mem_not_in in M.
    destruct (IH _ _ _ _ R (NoDup_snoc _ _ ND M)) as (E & A & B). rewrite <- app_assoc in E.
    split; [exact E|]. split; [exact A|]. apply incl_cons; [now left|apply incl_tl, B].
Qed.

Lemma sl_filter_complete : forall cands sent k ch s',
  sl_filter sent cands k = (ch, s') -> (length cands <= k)%nat ->
  forall p, In p cands -> ~ In p sent -> In p ch.
Proof.
  induction cands as [|c cands IH]; intros sent k ch s' H Hk p Hp Hn; [destruct Hp|].
  cbn [sl_filter] in H. destruct k as [|k']; [cbn in Hk; lia|].
  destruct (sl_mem c sent) eqn:M.
  - apply sl_mem_in in M. destruct Hp as [<-|Hp]; [contradiction|].
    eapply IH; eauto. cbn in Hk. lia.
  - destruct (sl_filter (sent ++ [c]) cands k') as [ch0 s0] eqn:R. injection H as <- <-.
    destruct (N.eq_dec c p) as [->|Hne]; [now left|]. right.
    destruct Hp as [->|Hp]; [contradiction|].
    eapply IH; eauto; [cbn in Hk; lia|].
    intros X. apply in_app_or in X. destruct X as [X|[X|[]]]; contradiction.
Qed.

Lemma sl_choose_inv : forall s cands k s' ch,
  sl_step s (SlChoose cands k) = Some (s', ch) ->
  sl_inflight s = [] /\
  ((sl_alive s = false /\ s' = s /\ ch = []) \/
   (sl_alive s = true /\ sl_filter (sl_sent s) cands k = (ch, sl_sent s') /\ sl_inflight s' = ch /\ sl_alive s' = true)).
Proof.
  intros s cands k s' ch H. cbn [sl_step] in H. destruct (sl_inflight s); [|discriminate]. split; [reflexivity|].
  destruct (sl_alive s); [right|left; injection H as <- <-; auto].
  destruct (sl_filter (sl_sent s) cands k) as [ch0 s0]. injection H as <- <-. auto.
Qed.

Definition sl_inv (s : sl_st) : Prop :=
  NoDup (sl_sent s) /\ NoDup (sl_inflight s) /\ incl (sl_inflight s) (sl_sent s).

(* p is not eligible: the bundle is gone, or p has it (previous node or acknowledged transmission) *)
Definition sl_blocked (p : N) (s : sl_st) : Prop :=
  sl_alive s = false \/ (In p (sl_sent s) /\ ~ In p (sl_inflight s)).

Definition sl_held_ev (e : sl_ev) : Prop := match e with SlNew _ | SlDrop => False | _ => True end.
Definition sl_held (h : list sl_ev) : Prop := Forall sl_held_ev h.

Lemma sl_inv_fresh : forall prev, sl_inv (sl_fresh prev).
Proof.
  intros [p|]; unfold sl_inv, sl_fresh; cbn.
  - split; [constructor; [intros []|constructor]|]. split; [constructor|intros q []].
  - split; [constructor|]. split; [constructor|intros q []].
Qed.

Lemma sl_inv_step : forall s e s' o, sl_step s e = Some (s', o) -> sl_inv s -> sl_inv s'.
Proof.
  intros s e s' o H (A & B & C). destruct e as [prev | cands k | p | p | pers | ]; try cbn [sl_step] in H.
  - injection H as <- _. apply sl_inv_fresh.
  - apply sl_choose_inv in H as (_ & [(_ & -> & _)|(_ & R & F & _)]); [unfold sl_inv; auto|].
    destruct (sl_filter_spec _ _ _ _ _ R A) as (E & ND & _). unfold sl_inv. rewrite F, E in *.
    split; [exact ND|]. split; [exact (proj1 (NoDup_app_inv _ _ ND))|apply incl_appr, incl_refl].
  - destruct (sl_mem p (sl_inflight s)); [|discriminate]. injection H as <- _. unfold sl_inv; cbn.
    split; [exact A|]. split; [apply sl_remove1_nodup, B|]. intros q Hq. apply C. eapply sl_remove1_in; eauto.
  - destruct (sl_mem p (sl_inflight s)); [|discriminate]. injection H as <- _. unfold sl_inv; cbn.
    split; [apply sl_remove1_nodup, A|]. split; [apply sl_remove1_nodup, B|].
    intros q Hq. destruct (N.eq_dec q p) as [->|Hne].
    + exfalso. apply (proj2 (sl_remove1_nodup p _ B)). exact Hq.
    + apply sl_remove1_other; [exact Hne|]. apply C. eapply sl_remove1_in; eauto.
  - destruct (sl_inflight s); [|discriminate]. injection H as <- _. unfold sl_inv; cbn.
    split; [exact A|]. split; [constructor|intros q []].
  - injection H as <- _. unfold sl_inv, sl_gone; cbn. repeat split; try constructor. intros q [].
Qed.

Lemma sl_inv_run : forall h s s', sl_run s h = Some s' -> sl_inv s -> sl_inv s'.
Proof.
  induction h as [|e h IH]; intros s s' H I; cbn [sl_run] in H.
  - injection H as <-. exact I.
  - destruct (sl_step s e) as [[s1 o]|] eqn:S; [|discriminate]. eapply IH; eauto using sl_inv_step.
Qed.

Lemma sl_run_app : forall h1 h2 s s2,
  sl_run s (h1 ++ h2) = Some s2 -> exists s1, sl_run s h1 = Some s1 /\ sl_run s1 h2 = Some s2.
Proof.
  induction h1 as [|e h1 IH]; intros h2 s s2 H; cbn [app sl_run] in *; [eauto|].
  destruct (sl_step s e) as [[sa o]|]; [auto|discriminate].
Qed.

Lemma sl_blocked_step : forall p s e s' o,
  sl_step s e = Some (s', o) -> sl_inv s -> sl_held_ev e -> sl_blocked p s -> sl_blocked p s'.
Proof.
  intros p s e s' o H (A & B & C) He Bl.
  destruct e as [prev | cands k | q | q | pers | ]; cbn in He; try contradiction; try cbn [sl_step] in H.
  - apply sl_choose_inv in H as (_ & [(_ & -> & _)|(AL & R & F & _)]); [exact Bl|].
    destruct (sl_filter_spec _ _ _ _ _ R A) as (E & ND & _). rewrite E in ND.
    destruct Bl as [Bl|[Bl1 Bl2]]; [congruence|]. right. rewrite F, E.
    split; [apply in_or_app; now left|exact (proj2 (NoDup_app_inv _ _ ND) _ Bl1)].
  - destruct (sl_mem q (sl_inflight s)); [|discriminate]. injection H as <- _.
    destruct Bl as [Bl|[Bl1 Bl2]]; [now left|]. right. cbn. split; [exact Bl1|].
    intros X. apply Bl2. eapply sl_remove1_in; eauto.
  - destruct (sl_mem q (sl_inflight s)) eqn:M; [|discriminate]. injection H as <- _.
    destruct Bl as [Bl|[Bl1 Bl2]]; [now left|]. right. cbn. apply sl_mem_in in M.
    assert (p <> q) by (intros ->; contradiction).
    split; [apply sl_remove1_other; assumption|]. intros X. apply Bl2. eapply sl_remove1_in; eauto.
  - destruct (sl_inflight s); [|discriminate]. injection H as <- _.
    destruct Bl as [Bl|[Bl1 Bl2]]; [left; cbn; now rewrite Bl|]. right. cbn. tauto.
Qed.

Lemma sl_blocked_run : forall p h s s',
  sl_run s h = Some s' -> sl_inv s -> sl_held h -> sl_blocked p s -> sl_blocked p s'.
Proof.
  induction h as [|e h IH]; intros s s' H I Hh Bl; cbn [sl_run] in H.
  - injection H as <-. exact Bl.
  - destruct (sl_step s e) as [[s1 o]|] eqn:S; [|discriminate]. inversion Hh; subst.
    eapply IH; eauto using sl_inv_step, sl_blocked_step.
Qed.

Lemma sl_ok_blocked : forall p s s' o, sl_step s (SlOk p) = Some (s', o) -> sl_inv s -> sl_blocked p s'.
Proof.
  intros p s s' o S (_ & B & C). cbn [sl_step] in S.
  destruct (sl_mem p (sl_inflight s)) eqn:M; [|discriminate]. injection S as <- _.
  apply sl_mem_in in M. right. cbn. split; [apply C, M|apply (sl_remove1_nodup p _ B)].
Qed.

Lemma sl_blocked_held : forall p s1 h s cands k s' chosen,
  sl_inv s1 -> sl_blocked p s1 -> sl_run s1 h = Some s -> sl_held h ->
  sl_step s (SlChoose cands k) = Some (s', chosen) -> ~ In p chosen.
Proof.
  intros p s1 h s cands k s' chosen I Bl R Hh C.
  pose proof (sl_blocked_run _ _ _ _ R I Hh Bl) as Bl'. destruct (sl_inv_run _ _ _ R I) as (A & _).
  apply sl_choose_inv in C as (_ & [(_ & _ & ->)|(AL & F & _)]); [tauto|].
  destruct Bl' as [Bl'|[Bl1 _]]; [congruence|].
  destruct (sl_filter_spec _ _ _ _ _ F A) as (E & ND & _). rewrite E in ND.
  exact (proj2 (NoDup_app_inv _ _ ND) _ Bl1).
Qed.

Lemma sl_after_new : forall s0 h1 prev h2 s,
  sl_run s0 (h1 ++ SlNew prev :: h2) = Some s ->
  sl_run (sl_fresh prev) h2 = Some s.
Proof. intros s0 h1 prev h2 s H. apply sl_run_app in H as (s1 & _ & H). exact H. Qed.

Definition sl_result_not (p : N) (e : sl_ev) : Prop :=
  match e with SlOk q | SlFail q => q <> p | _ => False end.

Lemma sl_absent_run : forall p h s s',
  Forall (sl_result_not p) h -> sl_run s h = Some s' -> ~ In p (sl_sent s) -> ~ In p (sl_sent s').
Proof.
  induction h as [|e h IH]; intros s s' Hr R Hn; cbn [sl_run] in R; [now injection R as <-|].
  destruct (sl_step s e) as [[s1 o]|] eqn:S; [|discriminate]. inversion Hr as [|? ? He Hr']; subst.
  apply (IH s1 s' Hr' R).
  destruct e as [ | | q | q | | ]; cbn in He; try contradiction; cbn [sl_step] in S;
    (destruct (sl_mem q (sl_inflight s)); [|discriminate]); injection S as <- _; cbn.
  - exact Hn.
  - intros X. exact (Hn (sl_remove1_in _ _ _ X)).
Qed.
