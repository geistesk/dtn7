(* EidUriProofs.v - endpoint IDs as URI text (bpv7.NewEndpointID / EndpointID.String):
   printing a valid structure and parsing the text gives the structure back; whatever text is
   accepted has a valid structure, and that structure's printed form parses to it again.
   Decimal numbers: printing and strconv.ParseUint-style parsing are inverse below 2^64; the fuel
   of the digit printer (25) covers every number below 10^25. *)
From DTN Require Import Base ListFacts Cbor CborProofs Eid EidProofs.
From Coq Require Import ZifyN ZifyNat ZifyBool.
Open Scope N_scope.

Lemma is_digit_of_mod n : is_digit (48 + n mod 10) = true.
Proof. unfold is_digit. pose proof (N.mod_upper_bound n 10). lia. Qed.

Lemma dec_digits_pos_digits fuel : forall n acc,
  forallb is_digit acc = true -> forallb is_digit (dec_digits_pos fuel n acc) = true.
Proof.
  induction fuel as [|f IH]; intros n acc H; cbn [dec_digits_pos]; [exact H|].
  destruct (n =? 0); [exact H|]. apply IH. cbn [forallb]. rewrite is_digit_of_mod, H. reflexivity.
Qed.

Lemma dec_digits_pos_length fuel : forall n acc, (length acc <= length (dec_digits_pos fuel n acc))%nat.
Proof.
  induction fuel as [|f IH]; intros n acc; cbn [dec_digits_pos]; [lia|].
  destruct (n =? 0); [lia|]. specialize (IH (n / 10) ((48 + n mod 10) :: acc)). cbn [length] in IH. lia.
Qed.

Lemma dec_digits_digits n : forallb is_digit (dec_digits n) = true.
Proof. unfold dec_digits. destruct (n =? 0); [reflexivity|]. apply dec_digits_pos_digits. reflexivity. Qed.

Lemma dec_digits_nonempty n : dec_digits n <> [].
Proof.
  unfold dec_digits. destruct (n =? 0) eqn:E; [discriminate|].
  generalize 24%nat. intros f. cbn [dec_digits_pos]. rewrite E. intros Hn.
  pose proof (dec_digits_pos_length f (n / 10) [48 + n mod 10]) as H. rewrite Hn in H. cbn [length] in H. lia.
Qed.

(* reading back what the digit printer wrote in front of [acc]: the value read so far, [a], is
   shifted by the number of digits of [n] (m = 10 ^ that number) and [n] is added - provided the fuel
   covers [n] and the result fits 64 bits (every intermediate value is then smaller still) *)
Lemma parse_dec_digits_pos fuel : forall n acc, n < 10 ^ N.of_nat fuel ->
  exists m, forall a, a * m + n < 18446744073709551616 ->
    parse_uint_acc a (dec_digits_pos fuel n acc) = parse_uint_acc (a * m + n) acc.
Proof.
  assert (Z : forall acc, exists m, forall a, a * m + 0 < 18446744073709551616 ->
                parse_uint_acc a acc = parse_uint_acc (a * m + 0) acc).
  { intros acc. exists 1. intros a _. rewrite N.mul_1_r, N.add_0_r. reflexivity. }
  induction fuel as [|f IH]; intros n acc Hn; cbn [dec_digits_pos].
  - assert (n = 0) as -> by (change (10 ^ N.of_nat 0) with 1 in Hn; lia). apply Z.
  - destruct (N.eqb_spec n 0) as [->|Hn0]; [apply Z|].
    assert (Hn' : n / 10 < 10 ^ N.of_nat f).
    { rewrite Nat2N.inj_succ, N.pow_succ_r' in Hn. apply N.div_lt_upper_bound; lia. }
    destruct (IH (n / 10) ((48 + n mod 10) :: acc) Hn') as [m Hm]. exists (m * 10). intros a Ha.
    pose proof (N.div_mod n 10 ltac:(lia)) as Hdm. pose proof (N.mod_upper_bound n 10 ltac:(lia)) as Hmod.
    rewrite Hm by lia. cbn [parse_uint_acc].
    replace ((a * m + n / 10) * 10 + (48 + n mod 10 - 48)) with (a * (m * 10) + n) by lia.
    replace (u64_ok (a * (m * 10) + n)) with true by (unfold u64_ok; lia). reflexivity.
Qed.

Lemma fuel_25_covers_u64 n : u64_ok n = true -> n < 10 ^ N.of_nat 25.
Proof. unfold u64_ok. intros H. change (10 ^ N.of_nat 25) with 10000000000000000000000000. lia. Qed.

Theorem parse_dec_digits n : u64_ok n = true -> parse_uint_acc 0 (dec_digits n) = Some n.
Proof.
  intros H. unfold dec_digits. destruct (n =? 0) eqn:E.
  - assert (n = 0) by lia. subst. reflexivity.
  - destruct (parse_dec_digits_pos 25 n [] (fuel_25_covers_u64 n H)) as [k Hk].
    rewrite Hk by (unfold u64_ok in H; lia). cbn [parse_uint_acc]. f_equal; lia.
Qed.

Lemma parse_uint_acc_u64 s : forall a v, u64_ok a = true -> parse_uint_acc a s = Some v -> u64_ok v = true.
Proof.
  induction s as [|c s IH]; intros a v Ha H; cbn [parse_uint_acc] in H.
  - inversion H; subst. exact Ha.
  - destruct (u64_ok (a * 10 + (c - 48))) eqn:E; [|discriminate]. eapply IH; eauto.
Qed.

Lemma span_digits_app ds rest :
  forallb is_digit ds = true ->
  (match rest with [] => true | c :: _ => negb (is_digit c) end) = true ->
  span_digits (ds ++ rest) = (ds, rest).
Proof.
  intros Hd Hr. induction ds as [|c ds IH]; cbn [app].
  - destruct rest as [|c rest]; [reflexivity|]. cbn [span_digits]. apply negb_true_iff in Hr. rewrite Hr. reflexivity.
  - cbn [forallb] in Hd. apply andb_prop in Hd. destruct Hd as [Hc Hd]. cbn [span_digits]. rewrite Hc, (IH Hd). reflexivity.
Qed.

Lemma span_digits_inv s : forall a b, span_digits s = (a, b) -> s = a ++ b /\ forallb is_digit a = true.
Proof.
  induction s as [|c s IH]; intros a b H; cbn [span_digits] in H.
  - inversion H; subst. split; reflexivity.
  - destruct (is_digit c) eqn:E.
    + destruct (span_digits s) as [a' b'] eqn:E2. inversion H; subst. destruct (IH a' b eq_refl) as [-> Hd].
      split; [reflexivity|]. cbn [forallb]. rewrite E, Hd. reflexivity.
    + inversion H; subst. split; reflexivity.
Qed.

Lemma strip_prefix_spec p : forall s r, strip_prefix p s = Some r -> s = p ++ r.
Proof.
  induction p as [|a p IH]; intros s r H; cbn [strip_prefix] in H.
  - inversion H; subst. reflexivity.
  - destruct s as [|b s]; [discriminate|]. destruct (a =? b) eqn:E; [|discriminate].
    apply N.eqb_eq in E. subst. cbn [app]. f_equal. apply IH, H.
Qed.
Lemma strip_prefix_app p : forall r, strip_prefix p (p ++ r) = Some r.
Proof. induction p as [|a p IH]; intros r; cbn [strip_prefix app]; [reflexivity|]. rewrite N.eqb_refl. apply IH. Qed.

Lemma eid_parse_print_dtn node demux : eid_valid (Dtn node demux) = true ->
  eid_parse (eid_print (Dtn node demux)) = Some (Dtn node demux).
Proof.
  intros Hv. unfold eid_parse, eid_print. rewrite strip_prefix_app, ssp_not_none, parse_ssp_ssp by exact Hv. reflexivity.
Qed.

Lemma eid_parse_ipn d1 d2 :
  d1 <> [] -> d2 <> [] -> forallb is_digit d1 = true -> forallb is_digit d2 = true ->
  eid_parse (str_ipn_colon ++ d1 ++ [46] ++ d2)
  = match parse_uint_acc 0 d1, parse_uint_acc 0 d2 with
    | Some n, Some s => if (1 <=? n) && (1 <=? s) then Some (Ipn n s) else None
    | _, _ => None
    end.
Proof.
  intros H1 H2 Hd1 Hd2. unfold eid_parse.
  change (strip_prefix str_dtn_colon (str_ipn_colon ++ d1 ++ [46] ++ d2)) with (@None (list N)).
  rewrite strip_prefix_app, span_digits_app by (assumption || reflexivity). cbn [app].
  pose proof (span_digits_app d2 [] Hd2 eq_refl) as E2. rewrite app_nil_r in E2. rewrite E2.
  destruct d1; [contradiction|]. destruct d2; [contradiction|]. reflexivity.
Qed.

Theorem eid_parse_print e : eid_valid e = true -> eid_wf e = true -> eid_parse (eid_print e) = Some e.
Proof.
  intros Hv Hw. destruct e as [|node demux|n s].
  - reflexivity.
  - apply eid_parse_print_dtn, Hv.
  - cbn [eid_valid eid_wf] in *. apply andb_prop in Hv, Hw. destruct Hv as [Hn1 Hs1], Hw as [Hn Hs].
    unfold eid_print. rewrite eid_parse_ipn by (apply dec_digits_nonempty || apply dec_digits_digits).
    rewrite !parse_dec_digits by assumption. rewrite Hn1, Hs1. reflexivity.
Qed.

(* as EidProofs.match_slash *)
Lemma match_dot {A} (c : N) (x y : A) : match c with 46 => x | _ => y end = if c =? 46 then x else y.
Proof. destruct c as [|p]; [reflexivity|]. repeat (destruct p as [p|p|]; try reflexivity). Qed.

(* The shape of every accepted text.  dtn: the text *is* the printed form of the structure.
   ipn: two non-empty digit strings whose values are the two numbers, both in [1, 2^64); leading
   zeros are the only freedom (RFC 6260 allows them), e.g. ipn:01.1 and ipn:1.1 are the same endpoint. *)
Theorem eid_parse_inv uri e : eid_parse uri = Some e ->
  match e with
  | Ipn n s => exists d1 d2, uri = str_ipn_colon ++ d1 ++ [46] ++ d2
                 /\ d1 <> [] /\ d2 <> [] /\ forallb is_digit d1 = true /\ forallb is_digit d2 = true
                 /\ parse_uint_acc 0 d1 = Some n /\ parse_uint_acc 0 d2 = Some s
                 /\ 1 <= n < 18446744073709551616 /\ 1 <= s < 18446744073709551616
  | _ => uri = eid_print e /\ eid_valid e = true
  end.
Proof.
  unfold eid_parse. destruct (strip_prefix str_dtn_colon uri) as [ssp|] eqn:E1.
  - apply strip_prefix_spec in E1. subst uri.
    destruct (bytes_eqb ssp str_none) eqn:E2.
    + apply bytes_eqb_eq in E2. subst. intros H. inversion H; subst. split; reflexivity.
    + destruct (parse_ssp ssp) as [[node demux]|] eqn:E3; [|discriminate]. intros H. inversion H; subst.
      apply parse_ssp_inv in E3. destruct E3 as [-> Hv]. split; [reflexivity|exact Hv].
  - destruct (strip_prefix str_ipn_colon uri) as [r|] eqn:E2; [|discriminate].
    apply strip_prefix_spec in E2. subst uri.
    destruct (span_digits r) as [d1 r1] eqn:E3. destruct (span_digits_inv _ _ _ E3) as [-> Hd1].
    destruct d1 as [|c1 d1]; [discriminate|]. destruct r1 as [|c r2]; [discriminate|].
    rewrite match_dot. destruct (c =? 46) eqn:Ec; [|discriminate]. apply N.eqb_eq in Ec. subst c.
    destruct (span_digits r2) as [d2 r3] eqn:E4. destruct (span_digits_inv _ _ _ E4) as [-> Hd2].
    destruct d2 as [|c2 d2]; [discriminate|]. destruct r3 as [|? ?]; [|discriminate].
    destruct (parse_uint_acc 0 (c1 :: d1)) as [n|] eqn:P1; [|discriminate].
    destruct (parse_uint_acc 0 (c2 :: d2)) as [s|] eqn:P2; [|discriminate].
    destruct ((1 <=? n) && (1 <=? s)) eqn:E5; [|discriminate]. intros H. inversion H; subst.
    apply andb_prop in E5. destruct E5 as [Hn1 Hs1].
    pose proof (parse_uint_acc_u64 _ 0 n eq_refl P1) as Hu1. pose proof (parse_uint_acc_u64 _ 0 s eq_refl P2) as Hu2.
    exists (c1 :: d1), (c2 :: d2). rewrite app_nil_r. unfold u64_ok in *.
    repeat split; try assumption; try discriminate; lia.
Qed.

(* text -> structure -> canonical text is idempotent *)
Theorem eid_parse_valid uri e : eid_parse uri = Some e ->
  eid_valid e = true /\ eid_parse (eid_print e) = Some e.
Proof.
  intros H. pose proof (eid_parse_inv uri e H) as Hi. destruct e as [|node demux|n s].
  - split; reflexivity.
  - destruct Hi as [_ Hv]. split; [exact Hv|apply eid_parse_print_dtn, Hv].
  - destruct Hi as (d1 & d2 & _ & _ & _ & _ & _ & _ & _ & Hn & Hs).
    assert (Hv : eid_valid (Ipn n s) = true) by (cbn [eid_valid]; lia).
    split; [exact Hv|]. apply eid_parse_print; [exact Hv|]. cbn [eid_wf]. unfold u64_ok. lia.
Qed.

Definition str (l : list N) := l.

(* no text is accepted as ipn with a zero or with a number of 2^64 or more, and none as
   dtn with an empty node, a character outside [A-Za-z0-9_.-] in the node or a newline in the demux *)
Corollary eid_parse_range uri n s : eid_parse uri = Some (Ipn n s) ->
  1 <= n < 18446744073709551616 /\ 1 <= s < 18446744073709551616.
Proof. intros H. apply eid_parse_inv in H. destruct H as (d1 & d2 & H). tauto. Qed.

Corollary eid_parse_dtn uri node demux : eid_parse uri = Some (Dtn node demux) ->
  uri = str_dtn_colon ++ ssp_bytes node demux /\ node <> [] /\ forallb is_node_char node = true /\ no_newline demux = true.
Proof.
  intros H. apply eid_parse_inv in H. destruct H as [-> Hv]. split; [reflexivity|].
  unfold eid_valid in Hv. apply andb_prop in Hv. destruct Hv as [Hv Hd]. apply andb_prop in Hv. destruct Hv as [Hne Hc].
  repeat split; try assumption. destruct node; [discriminate|discriminate].
Qed.
