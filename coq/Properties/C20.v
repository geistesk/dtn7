(* C20 - DTLSR forwards along a least-cost path of the known link-state graph.

   Vocabulary (Proofs/DtlsrProofs.v): [is_path g u p v] - p is a list of arcs of g leading from u
   to v; [pcost] its cost; [min_cost g s t r] - r is the minimum cost of a path s ~> t, None iff
   there is none; [optimal_first_hop g d h] - an arc 0 -> h of g starts a loop-free path to d whose
   cost is minimal among all paths 0 ~> d; [dt_inv] / [dt_past] - state invariant / every recorded
   loss time is <= now ("lost at a past time"); [first_max l b] - b is the first record of l
   carrying the greatest timestamp. *)
From DTN Require Import Base Dtlsr DtlsrProofs ConstsOkDtlsr.
Local Open Scope nat_scope.

(* The reference shortest-path function (Bellman-Ford over the arc list) returns the minimum path
   cost, and None exactly when there is no path: for every finite graph with non-negative costs. *)
Theorem C20_bf_correct : forall n g s t, wf_graph n g -> nonneg g -> s < n ->
  min_cost g s t (dt_dist n g s t).
Proof. exact bf_correct. Qed.
Print Assumptions C20_bf_correct.

(* After every recomputation, in every state reachable by any history of link-state arrivals, peer
   appearances / disappearances, purges and recomputations, with all losses in the past: every table
   entry dest -> hop is an optimal first hop in the graph built from the known link state; a tracked
   node has an entry exactly when the graph contains a path to it; at most one entry per node. *)
Theorem C20_table_spec : forall self ts0 ops now,
  let st := dt_run (dt_init self ts0) ops in
  dt_past st now ->
  let idx := dt_index st in
  let g := dt_graph st now in
  let tbl := dt_table (dt_compute st now) in
  (forall dest hop, In (dest, hop) tbl ->
     exists d h, nth_error idx d = Some dest /\ nth_error idx h = Some hop /\ 1 <= d /\ optimal_first_hop g d h) /\
  (forall d dest, 1 <= d -> nth_error idx d = Some dest ->
     ((exists hop, In (dest, hop) tbl) <-> (exists p, is_path g 0 p d))) /\
  (forall dest h1 h2, In (dest, h1) tbl -> In (dest, h2) tbl -> h1 = h2).
Proof. intros self ts0 ops now st Hp. exact (table_spec st now (dt_run_inv ops _ (dt_init_inv self ts0)) Hp). Qed.
Print Assumptions C20_table_spec.

(* ... and the next hop is one of the node's own current (t = 0, cost 0) or recently lost (lost at t,
   not yet purged, cost now - t) neighbours - provided no stored record claims the node's own ID. *)
Theorem C20_next_hop_is_neighbour : forall self ts0 ops now,
  let st := dt_run (dt_init self ts0) ops in
  dt_past st now -> dt_recv_get (dt_self st) (dt_recv st) = None ->
  forall dest hop, In (dest, hop) (dt_table (dt_compute st now)) ->
  exists t, In (hop, t) (dt_own st) /\
            exists a, In a (dt_graph st now) /\ arc_src a = 0 /\ nth_error (dt_index st) (arc_dst a) = Some hop /\
                      arc_cost a = dt_edge_cost now t.
Proof. intros self ts0 ops now st Hp. exact (table_hop_is_neighbour st now (dt_run_inv ops _ (dt_init_inv self ts0)) Hp). Qed.
Print Assumptions C20_next_hop_is_neighbour.

(* Without that hypothesis the statement is false for the code as it is: a stored record claiming the
   node's own ID (NotifyNewBundle does not look at the ID) contributes arcs leaving vertex 0, so the
   table can name a next hop that is not in the node's own peer list.  (Modelled quirk, not repaired;
   the node's own broadcast is harmless - it carries the own peer list itself.) *)
Theorem C20_next_hop_is_neighbour_refuted : exists ops now dest hop,
  let st := dt_run (dt_init 0 0) ops in
  dt_past st now /\ In (dest, hop) (dt_table (dt_compute st now)) /\ forall t, ~ In (hop, t) (dt_own st).
Proof.
  exists [DtNotify (mk_pd 0 5 [(7, 0)]%N)], 100%N, 7%N, 7%N. cbv zeta. split; [|split].
  - split; cbn; [intros p t []|]. intros d p t [<-|[]] [E|[]]. inversion E. lia.
  - vm_compute. left. reflexivity.
  - intros t H. cbn in H. exact H.
Qed.
Print Assumptions C20_next_hop_is_neighbour_refuted.

(* A neighbour that is connected now - the last appearance / disappearance event about it is an
   appearance - is live (loss time 0, link cost 0) in the node's own link state after EVERY history:
   lost and come back before the purge, purged and come back, any number of times; no purge removes
   it while it is connected.  (Together with C20_table_spec: the next hop is the first hop of a
   least-cost path in the graph in which the links to the connected neighbours cost 0.) *)
Theorem C20_connected_neighbour_live : forall st ops p now,
  dt_connected ops p = true ->
  dt_assoc_get p (dt_own (dt_run st ops)) = Some 0%N /\
  In (p, 0%N) (dt_own (dt_run st ops)) /\ dt_edge_cost now 0 = 0%Z.
Proof.
  intros st ops p now H.
  assert (G : dt_assoc_get p (dt_own (dt_run st ops)) = Some 0%N).
  { eapply connected_live_from; [exact H|discriminate]. }
  split; [exact G|]. split; [apply assoc_get_in; exact G|reflexivity].
Qed.
Print Assumptions C20_connected_neighbour_live.

(* The checkers the correspondence run applies to the routing table produced by the Go code decide
   exactly the property's predicates. *)
Theorem C20_checker_exact : forall n g d h, wf_graph n g -> nonneg g -> 0 < n ->
  (dt_ofh_b n g d h = true <-> optimal_first_hop g d h) /\
  (dt_reachable_b n g d = true <-> exists p, is_path g 0 p d).
Proof. intros. split; [apply ofh_b_iff|apply reachable_b_iff]; assumption. Qed.
Print Assumptions C20_checker_exact.

(* Link-state replacement: in every history (any interleaving, any arrival order) the record stored
   for a node is the first-arrived one among those with the greatest timestamp ... *)
Theorem C20_replace : forall ops st id, dt_recv_get id (dt_recv st) = None ->
  match dt_recv_get id (dt_recv (dt_run st ops)) with
  | Some b => first_max (notifs_of id ops) b
  | None => notifs_of id ops = []
  end.
Proof.
  intros ops st id H0. rewrite run_recv, H0.
  destruct (notifs_of id ops) as [|x l]; [reflexivity|]. cbn [fold_left dt_upd].
  destruct (fold_upd l x) as (b & -> & Hb). exact Hb.
Qed.
Print Assumptions C20_replace.

(* ... so the winning timestamp does not depend on the arrival order (nor does the record, when the
   timestamps are pairwise distinct) ... *)
Theorem C20_replace_any_order : forall l1 l2 b1 b2, Permutation.Permutation l1 l2 -> first_max l1 b1 -> first_max l2 b2 ->
  pd_ts b1 = pd_ts b2 /\ (NoDup (map pd_ts l1) -> b1 = b2).
Proof. exact replace_order_independent. Qed.
Print Assumptions C20_replace_any_order.

(* ... and a stored record is replaced only by a record of the same node with a strictly newer timestamp. *)
Theorem C20_replace_only_newer : forall st o id old,
  dt_recv_get id (dt_recv st) = Some old ->
  dt_recv_get id (dt_recv (dt_step st o)) = Some old \/
  exists d, o = DtNotify d /\ pd_id d = id /\ (pd_ts old < pd_ts d)%N /\ dt_recv_get id (dt_recv (dt_step st o)) = Some d.
Proof.
  intros st o id old H. rewrite step_recv, H. destruct o as [d| | | | |]; auto.
  destruct (N.eqb_spec (pd_id d) id) as [E|E]; auto. cbn.
  unfold dt_should_replace. destruct (N.ltb_spec (pd_ts old) (pd_ts d)); auto.
  right. exists d. auto.
Qed.
Print Assumptions C20_replace_only_newer.

(* Forwarding, unicast: apart from direct delivery to connected senders of the destination node, the
   bundle is handed to at most one sender - the table's next hop for the destination - and is released
   exactly when a sender was chosen. *)
Theorem C20_forward : forall table senders sent dest chosen sent' del,
  dt_forward_select table senders sent false dest = (chosen, sent', del) ->
  sent' = sent /\ (del = true <-> chosen <> []) /\
  ((chosen <> [] /\ chosen = filter (N.eqb (dst_node dest)) senders) \/
   (filter (N.eqb (dst_node dest)) senders = [] /\
    (chosen = [] \/ exists h, chosen = [h] /\ dst_bare dest = true /\ dt_assoc_get (dst_node dest) table = Some h /\ In h senders))).
Proof. exact forward_unicast. Qed.
Print Assumptions C20_forward.

(* Forwarding, broadcast: over any history of offers with changing peers nobody is handed the bundle
   twice and nobody of the initially excluded (previous node); each offer covers every connected peer. *)
Theorem C20_forward_broadcast : forall calls sent, NoDup sent ->
  NoDup (sent ++ concat (dt_bcast_run sent calls)) /\
  (forall senders f s, dt_filter_clas senders sent = (f, s) -> forall p, In p senders -> In p sent \/ In p f) /\
  (forall table senders dest chosen sent' del, filter (N.eqb (dst_node dest)) senders = [] ->
     dt_forward_select table senders sent true dest = (chosen, sent', del) ->
     del = false /\ dt_filter_clas senders sent = (chosen, sent')).
Proof.
  intros calls sent H. split; [exact (bcast_once calls sent H)|]. split.
  - intros senders f s E p Hp. destruct (filter_clas_spec _ _ _ _ E) as (H1 & _ & _ & H4).
    apply in_app_or. rewrite <- H1. exact (H4 p Hp).
  - intros table senders dest chosen sent' del F E. unfold dt_forward_select in E. rewrite F in E.
    unfold dt_sender_for_bundle in E. destruct (dt_filter_clas senders sent) as (f, s). inversion E; subst. auto.
Qed.
Print Assumptions C20_forward_broadcast.

(* ---- non-vacuity ---- *)
(* 0 -> 1 lost 5 s ago, 0 -> 2 live, 2 -> 1 live, 1 -> 3 live, 2 -> 0 live (zero-cost link back):
   node 1 and 3 are reached through 2 at cost 0; hop 1 is not optimal for 3; nothing reaches 4. *)
Definition ex_g : list dt_arc := [(0, 1, 5000%Z); (0, 2, 0%Z); (2, 1, 0%Z); (1, 3, 0%Z); (2, 0, 0%Z)].
Example C20_example_table :
  dt_table_idx 5 ex_g = [(1, 2); (2, 2); (3, 2)]
  /\ dt_dist 5 ex_g 0 3 = Some 0%Z /\ dt_dist 5 ex_g 0 4 = None
  /\ dt_ofh_b 5 ex_g 3 2 = true /\ dt_ofh_b 5 ex_g 3 1 = false.
Proof. vm_compute. repeat split; reflexivity. Qed.

(* a neighbour with a zero-cost link back to 0 does NOT qualify for a destination only reachable
   elsewhere, although  cost(0,1) + dist(1,3) = dist(0,3)  holds through the loop 0 -> 1 -> 0 *)
Example C20_example_no_loop :
  let g := [(0, 1, 0%Z); (1, 0, 0%Z); (0, 2, 0%Z); (2, 3, 0%Z)] in
  dt_ofh_b 4 g 3 1 = false /\ dt_ofh_b 4 g 3 2 = true /\ dt_dist 4 g 1 3 = Some 0%Z.
Proof. vm_compute. repeat split; reflexivity. Qed.

(* equal timestamps: the first arrival stays; a newer one replaces; an older one does not *)
Example C20_example_replace :
  let a := mk_pd 7 10 [(1, 0)]%N in let b := mk_pd 7 10 [(2, 0)]%N in
  let c := mk_pd 7 11 [(3, 0)]%N in let d := mk_pd 7 9 []%N in
  dt_recv_get 7 (dt_recv (dt_run (dt_init 0 0) [DtNotify a; DtNotify b])) = Some a
  /\ dt_recv_get 7 (dt_recv (dt_run (dt_init 0 0) [DtNotify b; DtNotify a])) = Some b
  /\ dt_recv_get 7 (dt_recv (dt_run (dt_init 0 0) [DtNotify a; DtNotify c; DtNotify d; DtNotify b])) = Some c
  /\ dt_index (dt_run (dt_init 0 0) [DtNotify a; DtNotify c]) = [0; 7; 1; 3]%N.
Proof. vm_compute. repeat split; reflexivity. Qed.

(* a state built by a history, its graph and table: peer 1 up, peer 2 up then lost at 4000,
   node 1 reports 1 -> 3 live and 1 -> 2 live; at now = 9000 everything goes through 1 *)
Example C20_example_state :
  let st := dt_run (dt_init 0 0) [DtAppear 1 1000; DtAppear 2 2000; DtDisappear 2 4000;
                                  DtNotify (mk_pd 1 3000 [(3, 0); (2, 0)]%N); DtCron 9000]%N in
  dt_table st = [(1, 1); (2, 1); (3, 1)]%N
  /\ dt_graph st 9000%N = [(1, 2, 0%Z); (1, 3, 0%Z); (0, 2, 5000%Z); (0, 1, 0%Z)]
  /\ dt_recv_change st = false.
Proof. vm_compute. repeat split; reflexivity. Qed.

Example C20_example_forward :
  dt_forward_select [(3, 1)]%N [1; 2]%N [] false (mk_dest 3 true) = ([1], [], true)%N
  /\ dt_forward_select [(3, 1)]%N [1; 2]%N [] false (mk_dest 3 false) = ([], [], false)%N
  /\ dt_forward_select [(3, 1)]%N [1; 2; 3]%N [] false (mk_dest 3 false) = ([3], [], true)%N
  /\ dt_forward_select [(3, 1)]%N [1; 2]%N [2]%N true (mk_dest 99 true) = ([1], [2; 1], false)%N
  /\ dt_bcast_run [2]%N [[1; 2]; [1; 2; 4]; [4; 5]]%N = [[1]; [4]; [5]]%N.
Proof. vm_compute. repeat split; reflexivity. Qed.

(* a neighbour that comes back: lost at 4000, back at 5000 - live again, the purge at 9000000 (purge
   time 3050000) leaves it alone, node 3 behind it keeps its route; neighbour 2, lost and not back, is purged *)
Example C20_example_reappear :
  let ops := [DtAppear 1 1000; DtAppear 2 1500; DtDisappear 1 4000; DtDisappear 2 4500; DtAppear 1 5000;
              DtNotify (mk_pd 1 3000 [(3, 0)]%N); DtPurge 9000000 3050000; DtCompute 9000000]%N in
  let st := dt_run (dt_init 0 0) ops in
  dt_connected ops 1 = true /\ dt_connected ops 2 = false
  /\ dt_own st = [(1, 0)]%N /\ dt_table st = [(1, 1); (3, 1)]%N.
Proof. vm_compute. repeat split; reflexivity. Qed.
