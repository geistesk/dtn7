(* C16 (last clause), interleaving level - "closing the manager stops every started adapter exactly
   once, without panic or deadlock", for ALL interleavings of the goroutines of pkg/cla/manager.go and
   manager_elem.go at the granularity of synchronisation operations (Model/ClaMgrConc.v):
   Manager.handler, the goroutine calling Close(), client goroutines calling Register / Unregister /
   Restart, the convergenceElem handlers, adapters with status messages waiting in their channels.

   BOUNDED result: the theorems quantify over every configuration within [cmc_c16_bound]
     (at most 2 adapters - each absent / started / pending with ttl 0 or 1, a pending one permanent or
      not -, at most 1 client call, at most 1 waiting status message (PeerDisappeared or other), at
      most 1 retry tick;  or at most 1 adapter, permanent or not, and at most 3 client calls)
   with the production parameters (queueTtl 10, inChnl capacity 100, independent consumer of
   Channel()) that obeys [cmc_cfg_ok] (the client calls the code supports concurrently, see
   Model/ClaMgrConc.v), and over every state reachable by any interleaving.  They are closed by an
   exhaustive exploration of all these configurations, evaluated by vm_compute
   (Proofs/ClaMgrConcRun0..6.v) and lifted by the soundness theorem of the explorer
   (ClaMgrConcProofs.cmc_explore_sound) and the completeness of the enumeration
   (cmc_all_cfgs_complete).  Only the finiteness of runs is proved without a bound, by a ranking
   function (C16_conc_every_run_finite).  The hypotheses are sharp: the Examples below give, as schedules, the
   violations outside cmc_cfg_ok / the bound, and the violations of the same model with the seeded
   defect or without one of the two concurrency fixes. *)
From DTN Require Import Base ClaMgrConc ClaMgrConcProofs ClaMgrConcMain ConstsOkClaMgrConc.
Open Scope nat_scope.

(* No reachable deadlock: while some thread has not returned, some thread can step.  Termination: from
   a reachable state every run has at most cmc_rank-many steps, so every maximal run is finite; and a
   state in which no thread can step is one where every thread has returned - Close() has returned. *)
Theorem C16_close_no_deadlock : forall c, cmc_c16_bound c = true -> cmc_cfg_ok c = true ->
  forall s, cmc_reach cmc_code_as_is (cf_par c) (cmc_init c) s ->
    (cmc_all_done s = false -> exists t alt s', cmc_step cmc_code_as_is (cf_par c) s t alt = Some s')
    /\ (forall n s', cmc_run cmc_code_as_is (cf_par c) n s s' -> (N.of_nat n <= cmc_rank s)%N)
    /\ ((forall t alt, cmc_step cmc_code_as_is (cf_par c) s t alt = None) ->
        cmc_all_done s = true /\ cmc_close_returned s = true).
Proof.
  intros c Hb Hok s Hr. pose proof (cmc_c16_good c Hb Hok s Hr) as G. split; [apply (sg_live _ _ _ G)|]. split.
  - intros n s' Hrun. pose proof (cmc_run_rank _ _ _ _ _ Hrun). lia.
  - intros Hnone. destruct (sg_final _ _ _ G Hnone) as [Hd _]. split; [exact Hd|].
    unfold cmc_all_done in Hd. unfold cmc_close_returned.
    repeat (apply andb_true_iff in Hd; destruct Hd as [Hd ?]). assumption.
Qed.
Print Assumptions C16_close_no_deadlock.

(* Exactly once: at every point of every run the adapter call a step makes is legal - conv.Start() only
   of an adapter that is not started, conv.Close() only of a started one, so the calls of each adapter
   alternate - and when no thread can step any more every adapter is stopped, the registry is empty and no
   element is active: nothing is left running or listed. *)
Theorem C16_close_exactly_once : forall c, cmc_c16_bound c = true -> cmc_cfg_ok c = true ->
  forall s, cmc_reach cmc_code_as_is (cf_par c) (cmc_init c) s ->
    (forall t alt s', cmc_step cmc_code_as_is (cf_par c) s t alt = Some s' ->
       match cmc_call s t with
       | Some (true, a) => cmc_started s a = false
       | Some (false, a) => cmc_started s a = true
       | None => True
       end)
    /\ ((forall t alt, cmc_step cmc_code_as_is (cf_par c) s t alt = None) -> cmc_all_stopped s = true).
Proof.
  intros c Hb Hok s Hr. pose proof (cmc_c16_good c Hb Hok) as G. split.
  - intros t alt s' Hs. eapply cmc_call_guard; [exact Hs|].
    apply (sg_no_err _ _ _ (G s' (cmc_reach_step _ _ _ _ _ _ _ Hr Hs))).
  - intros Hnone. apply (sg_final _ _ _ (G s Hr) Hnone).
Qed.
Print Assumptions C16_close_exactly_once.

(* No panic: no reachable state results from closing a closed (or nil) channel, sending on a closed
   channel or unlocking an unlocked mutex (cs_err also records an illegal adapter call). *)
Theorem C16_close_no_panic : forall c, cmc_c16_bound c = true -> cmc_cfg_ok c = true ->
  forall s, cmc_reach cmc_code_as_is (cf_par c) (cmc_init c) s -> cs_err s = None.
Proof. intros c Hb Hok s Hr. apply (sg_no_err _ _ _ (cmc_c16_good c Hb Hok s Hr)). Qed.
Print Assumptions C16_close_no_panic.

(* UNBOUNDED part of the termination clause: in every state whatsoever (any number of adapters, client
   calls, waiting messages, ticks; any of the three switches) every step of every thread decreases
   cmc_rank, so every run from every state has at most cmc_rank-many steps: no livelock, no scheduler
   fairness needed. *)
Theorem C16_conc_every_run_finite : forall sw p n s s', cmc_run sw p n s s' -> (N.of_nat n + cmc_rank s' <= cmc_rank s)%N.
Proof. exact cmc_run_rank. Qed.
Print Assumptions C16_conc_every_run_finite.

(* the enumeration behind the exploration covers the bound (so the bound is what the theorems say) *)
Theorem C16_conc_family_complete : forall N K M T P c,
  cmc_in_bound N K M T P c = true -> cmc_cfg_ok c = true -> In c (cmc_family N K M T P).
Proof. exact cmc_family_complete. Qed.
Print Assumptions C16_conc_family_complete.

(* ------------------------------------------------------------------ *)
(* non-vacuity                                                         *)
(* ------------------------------------------------------------------ *)
Definition c16c_ad (i : cmc_ainit) (m : list bool) : cmc_acfg := {| ac_init := i; ac_perm := false; ac_msgs := m |}.
Definition c16c_cfg (ads : list cmc_acfg) (ops : list cmc_cop) (ticks : nat) : cmc_cfg :=
  {| cf_ads := ads; cf_ops := ops; cf_ticks := ticks; cf_par := cmc_par_prod |}.

(* a started adapter with a PeerDisappeared waiting, a second adapter being registered by a client: within
   the bound; 19266 states are reachable, 33 of them final *)
Definition c16c_two : cmc_cfg := c16c_cfg [c16c_ad AStarted [true]; c16c_ad AAbsent []] [CoReg 1] 0.
Example C16_conc_example_in_bound : cmc_c16_bound c16c_two = true /\ cmc_cfg_ok c16c_two = true.
Proof. split; vm_compute; reflexivity. Qed.
Example C16_conc_example_explored :
  ex_count _ (cmc_explore cmc_state cmc_state_eqb cmc_hash (cmc_expand cmc_code_as_is cmc_par_prod) cmc_fuel [cmc_init c16c_two])
  = 19266%N.
Proof. vm_compute. reflexivity. Qed.
(* one complete run (73 steps): the client registers adapter 1 (its start succeeds), the peer loss is handled
   (restart of adapter 0), Close() - overlapping the client's second look at the stop flag - stops both: every
   thread returned, nothing is left running or listed *)
Definition c16c_two_sched : list (cmc_tid * nat) :=
  [(TC, 0); (TCl 0, 0); (TCl 0, 0); (TCl 0, 0); (TCl 0, 0); (TCl 0, 0); (TCl 0, 0); (TCl 0, 0); (TCl 0, 0);
   (TCl 0, 0); (TE 0, 1); (TE 0, 0); (TH, 1); (TH, 0); (TH, 0); (TH, 0); (TH, 0); (TH, 0); (TE 0, 0); (TE 0, 0);
   (TE 0, 0); (TH, 0); (TH, 0); (TH, 0); (TH, 0); (TH, 0); (TH, 0); (TH, 0); (TH, 0); (TH, 0); (TH, 0); (TH, 0);
   (TH, 0); (TH, 0); (TC, 0); (TC, 0); (TH, 0); (TH, 0); (TH, 0); (TH, 0); (TH, 0); (TH, 0); (TH, 0); (TC, 0);
   (TCl 0, 0); (TCl 0, 0); (TCl 0, 0); (TCl 0, 0); (TCl 0, 0); (TCl 0, 0); (TCl 0, 0); (TE 1, 0); (TE 1, 0);
   (TE 1, 0); (TCl 0, 0); (TCl 0, 0); (TCl 0, 0); (TCl 0, 0); (TE 2, 0); (TE 2, 0); (TE 2, 0); (TH, 0); (TH, 0);
   (TH, 0); (TH, 0); (TH, 0); (TH, 0); (TH, 0); (TH, 0); (TH, 0); (TH, 0); (TH, 0); (TC, 0)].
Example C16_conc_example_run :
  exists s, cmc_reach cmc_code_as_is cmc_par_prod (cmc_init c16c_two) s
            /\ (cmc_all_done s && cmc_all_stopped s && cmc_no_err s && negb (cmc_enabled cmc_code_as_is cmc_par_prod s)) = true.
Proof. apply (cmc_witness cmc_code_as_is c16c_two c16c_two_sched). vm_compute. reflexivity. Qed.

(* ------------------------------------------------------------------ *)
(* the model is sharp: seeded defect and the two repaired defects      *)
(* ------------------------------------------------------------------ *)
Definition c16c_sw_seeded : cmc_sw := {| sw_close_holds := true; sw_no_deact_chk := false; sw_no_reg_chk := false |}.
Definition c16c_sw_before_aef8c74 : cmc_sw := {| sw_close_holds := false; sw_no_deact_chk := true; sw_no_reg_chk := false |}.
Definition c16c_sw_before_4771bec : cmc_sw := {| sw_close_holds := false; sw_no_deact_chk := false; sw_no_reg_chk := true |}.

(* seeded defect (Close() keeps stopFlagMutex while it waits for stopAck): one started adapter reports a
   peer loss; the handler takes it, restarts the adapter and blocks in Register's isStopped(); Close()
   waits for stopAck for ever.  The same configuration is inside the bound of the theorems. *)
Definition c16c_one_D : cmc_cfg := c16c_cfg [c16c_ad AStarted [true]] [] 0.
Example C16_conc_seeded_defect_deadlocks :
  exists s, cmc_reach c16c_sw_seeded cmc_par_prod (cmc_init c16c_one_D) s
            /\ (cmc_deadlocked c16c_sw_seeded cmc_par_prod s && negb (cmc_close_returned s)) = true.
Proof.
  apply (cmc_witness c16c_sw_seeded c16c_one_D
    [(TC, 0); (TC, 0); (TC, 0); (TC, 0); (TE 0, 1); (TE 0, 0); (TH, 1); (TH, 0); (TH, 0); (TH, 0); (TH, 0); (TH, 0);
     (TE 0, 0); (TE 0, 0); (TE 0, 0); (TH, 0); (TH, 0); (TH, 0); (TH, 0)]).
  vm_compute. reflexivity.
Qed.
Example C16_conc_seeded_cfg_in_theorem : cmc_c16_bound c16c_one_D = true /\ cmc_cfg_ok c16c_one_D = true.
Proof. split; vm_compute; reflexivity. Qed.

(* without fix aef8c74 (deactivate does not look at isActive again under its mutex): an Unregister racing
   the shutdown closes the element's stop channel a second time *)
Definition c16c_one_unreg : cmc_cfg := c16c_cfg [c16c_ad AStarted []] [CoUnreg 0] 0.
Example C16_conc_before_aef8c74_double_close :
  exists s, cmc_reach c16c_sw_before_aef8c74 cmc_par_prod (cmc_init c16c_one_unreg) s
            /\ option_eqb cmc_err_eqb (cs_err s) (Some (ErrCloseClosed 0)) = true.
Proof.
  apply (cmc_witness c16c_sw_before_aef8c74 c16c_one_unreg
    [(TC, 0); (TC, 0); (TC, 0); (TC, 0); (TH, 0); (TH, 0); (TH, 0); (TH, 0); (TH, 0); (TH, 0); (TH, 0); (TCl 0, 0); (TCl 0, 0);
     (TE 0, 0); (TE 0, 0); (TE 0, 0); (TH, 0); (TH, 0); (TH, 0); (TCl 0, 0); (TCl 0, 0)]).
  vm_compute. reflexivity.
Qed.
Example C16_conc_aef8c74_cfg_in_theorem : cmc_c16_bound c16c_one_unreg = true /\ cmc_cfg_ok c16c_one_unreg = true.
Proof. split; vm_compute; reflexivity. Qed.

(* without fix 4771bec (Register does not look at the stop flag again after filing the CLA): Close() has
   returned, every thread but the new element handler has returned, the adapter is started and listed *)
Definition c16c_one_reg : cmc_cfg := c16c_cfg [c16c_ad AAbsent []] [CoReg 0] 0.
Example C16_conc_before_4771bec_left_running :
  exists s, cmc_reach c16c_sw_before_4771bec cmc_par_prod (cmc_init c16c_one_reg) s
            /\ (negb (cmc_enabled c16c_sw_before_4771bec cmc_par_prod s) && cmc_no_err s && cmc_close_returned s
                && cmc_started s 0 && negb (cmc_all_stopped s)) = true.
Proof.
  apply (cmc_witness c16c_sw_before_4771bec c16c_one_reg
    [(TC, 0); (TCl 0, 0); (TCl 0, 0); (TC, 0); (TC, 0); (TC, 0); (TH, 0); (TH, 0); (TH, 0); (TH, 0); (TH, 0); (TH, 0); (TC, 0);
     (TCl 0, 0); (TCl 0, 0); (TCl 0, 0); (TCl 0, 0); (TCl 0, 0); (TCl 0, 0); (TCl 0, 0)]).
  vm_compute. reflexivity.
Qed.
Example C16_conc_4771bec_cfg_in_theorem : cmc_c16_bound c16c_one_reg = true /\ cmc_cfg_ok c16c_one_reg = true.
Proof. split; vm_compute; reflexivity. Qed.

(* ------------------------------------------------------------------ *)
(* FINDINGS: the code as it is, outside cmc_cfg_ok / the bound          *)
(* ------------------------------------------------------------------ *)
(* (1) Register of an adapter that is already registered, racing Close(): the shutdown deactivates the
   element, Register (past its first isStopped()) finds it inactive, starts it and files it, the shutdown
   deletes the entry; Register's second isStopped() sees the flag, but unregisterConvergence finds nothing:
   Close() returned, the adapter is running and not listed. *)
Definition c16c_rereg : cmc_cfg := c16c_cfg [c16c_ad AStarted []] [CoReg 0] 0.
Example C16_conc_finding_reregister_left_running :
  cmc_cfg_ok c16c_rereg = false /\
  exists s, cmc_reach cmc_code_as_is cmc_par_prod (cmc_init c16c_rereg) s
            /\ (negb (cmc_enabled cmc_code_as_is cmc_par_prod s) && cmc_no_err s && cmc_close_returned s
                && cmc_started s 0 && negb (cmc_all_stopped s)) = true.
Proof.
  split; [vm_compute; reflexivity|].
  apply (cmc_witness cmc_code_as_is c16c_rereg
    [(TC, 0); (TCl 0, 0); (TCl 0, 0); (TC, 0); (TC, 0); (TC, 0); (TH, 0); (TH, 0); (TH, 0); (TH, 0); (TH, 0); (TH, 0); (TH, 0); (TH, 0);
     (TCl 0, 0); (TE 0, 0); (TE 0, 0); (TE 0, 0); (TH, 0); (TH, 0); (TH, 0);
     (TCl 0, 0); (TCl 0, 0); (TCl 0, 0); (TCl 0, 0); (TCl 0, 0); (TCl 0, 0); (TCl 0, 0);
     (TH, 0); (TH, 0); (TH, 0); (TH, 0); (TH, 0); (TC, 0); (TCl 0, 0); (TCl 0, 0); (TCl 0, 0)]).
  vm_compute. reflexivity.
Qed.

(* (2) Register racing Close(), the new adapter reports a status message: its element handler forwards it
   to inChnl, which the shutdown has closed meanwhile - panic: send on closed channel. *)
Definition c16c_reg_msg : cmc_cfg := c16c_cfg [c16c_ad AAbsent [false]] [CoReg 0] 0.
Example C16_conc_finding_send_on_closed_inChnl :
  cmc_cfg_ok c16c_reg_msg = false /\
  exists s, cmc_reach cmc_code_as_is cmc_par_prod (cmc_init c16c_reg_msg) s
            /\ option_eqb cmc_err_eqb (cs_err s) (Some (ErrSendClosed 0)) = true.
Proof.
  split; [vm_compute; reflexivity|].
  apply (cmc_witness cmc_code_as_is c16c_reg_msg
    [(TC, 0); (TCl 0, 0); (TCl 0, 0); (TC, 0); (TC, 0); (TC, 0); (TH, 0); (TH, 0); (TH, 0); (TH, 0);
     (TCl 0, 0); (TCl 0, 0); (TCl 0, 0); (TCl 0, 0); (TCl 0, 0); (TE 0, 1); (TE 0, 0)]).
  vm_compute. reflexivity.
Qed.

(* (3) Register of a pending adapter racing the retry tick: activate() checks isActive() only outside the
   element's mutex, both callers pass it, both call conv.Start(). *)
Definition c16c_reg_tick : cmc_cfg := c16c_cfg [c16c_ad (APending 1) []] [CoReg 0] 1.
Example C16_conc_finding_double_start :
  cmc_cfg_ok c16c_reg_tick = false /\
  exists s, cmc_reach cmc_code_as_is cmc_par_prod (cmc_init c16c_reg_tick) s
            /\ option_eqb cmc_err_eqb (cs_err s) (Some (ErrDoubleStart 0)) = true.
Proof.
  split; [vm_compute; reflexivity|].
  apply (cmc_witness cmc_code_as_is c16c_reg_tick
    [(TH, 2); (TH, 0); (TH, 0); (TH, 0); (TH, 0); (TH, 0); (TH, 0); (TCl 0, 0); (TCl 0, 0); (TCl 0, 0); (TCl 0, 0); (TCl 0, 0);
     (TH, 0); (TH, 0); (TCl 0, 0); (TCl 0, 0)]).
  vm_compute. reflexivity.
Qed.

(* (4) Unregister racing the retry tick: deactivate() leaves the element inactive with a fresh ttl, the
   retry pass takes it for a failed start and starts it again, Unregister deletes the entry: running, not
   listed, not stopped by Close(). *)
Definition c16c_unreg_tick : cmc_cfg := c16c_cfg [c16c_ad AStarted []] [CoUnreg 0] 1.
Example C16_conc_finding_unregister_tick_left_running :
  cmc_cfg_ok c16c_unreg_tick = false /\
  exists s, cmc_reach cmc_code_as_is cmc_par_prod (cmc_init c16c_unreg_tick) s
            /\ (negb (cmc_enabled cmc_code_as_is cmc_par_prod s) && cmc_no_err s && cmc_close_returned s
                && cmc_started s 0 && negb (cmc_all_stopped s)) = true.
Proof.
  split; [vm_compute; reflexivity|].
  apply (cmc_witness cmc_code_as_is c16c_unreg_tick
    [(TH, 2); (TH, 0); (TH, 0); (TC, 0); (TC, 0); (TC, 0); (TC, 0); (TCl 0, 0); (TCl 0, 0); (TCl 0, 0); (TCl 0, 0); (TCl 0, 0);
     (TE 0, 0); (TE 0, 0); (TE 0, 0); (TCl 0, 0); (TCl 0, 0); (TH, 0); (TH, 0); (TCl 0, 0); (TH, 0); (TH, 0); (TH, 0); (TH, 0);
     (TH, 0); (TH, 0); (TCl 0, 0); (TH, 0); (TH, 0); (TH, 0); (TH, 0); (TH, 0); (TC, 0)]).
  vm_compute. reflexivity.
Qed.

(* (5) two Registers of the same (new) adapter: each allocates its own element, both call conv.Start(). *)
Definition c16c_reg_reg : cmc_cfg := c16c_cfg [c16c_ad AAbsent []] [CoReg 0; CoReg 0] 0.
Example C16_conc_finding_two_registers_double_start :
  cmc_cfg_ok c16c_reg_reg = false /\
  exists s, cmc_reach cmc_code_as_is cmc_par_prod (cmc_init c16c_reg_reg) s
            /\ option_eqb cmc_err_eqb (cs_err s) (Some (ErrDoubleStart 0)) = true.
Proof.
  split; [vm_compute; reflexivity|].
  apply (cmc_witness cmc_code_as_is c16c_reg_reg
    [(TCl 0, 0); (TCl 0, 0); (TCl 0, 0); (TCl 0, 0); (TCl 0, 0); (TCl 0, 0); (TCl 1, 0); (TCl 1, 0); (TCl 1, 0); (TCl 1, 0); (TCl 1, 0); (TCl 1, 0)]).
  vm_compute. reflexivity.
Qed.

(* (6) Unregister racing the handler's own restart after a peer loss of the same adapter: Unregister's
   Delete removes the element the handler has just restarted. *)
Definition c16c_unreg_D : cmc_cfg := c16c_cfg [c16c_ad AStarted [true]] [CoUnreg 0] 0.
Example C16_conc_finding_unregister_restart_left_running :
  cmc_cfg_ok c16c_unreg_D = false /\
  exists s, cmc_reach cmc_code_as_is cmc_par_prod (cmc_init c16c_unreg_D) s
            /\ (negb (cmc_enabled cmc_code_as_is cmc_par_prod s) && cmc_no_err s && cmc_close_returned s
                && cmc_started s 0 && negb (cmc_all_stopped s)) = true.
Proof.
  split; [vm_compute; reflexivity|].
  apply (cmc_witness cmc_code_as_is c16c_unreg_D
    [(TC, 0); (TCl 0, 0); (TCl 0, 0); (TCl 0, 0); (TCl 0, 0); (TCl 0, 0); (TE 0, 1); (TE 0, 0); (TH, 1); (TH, 0); (TE 0, 0); (TE 0, 0); (TE 0, 0);
     (TCl 0, 0); (TCl 0, 0); (TH, 0); (TH, 0); (TH, 0); (TH, 0); (TH, 0); (TH, 0); (TH, 0); (TH, 0); (TH, 0); (TH, 0); (TH, 0); (TH, 0); (TH, 0); (TH, 0);
     (TC, 0); (TC, 0); (TC, 0); (TH, 0); (TCl 0, 0); (TCl 0, 0); (TH, 0); (TH, 0); (TH, 0); (TH, 0); (TH, 0); (TC, 0)]).
  vm_compute. reflexivity.
Qed.

(* (7) beyond the message bound, no client call, production capacity 100: one started adapter with 101
   status messages waiting.  Its element handler puts 100 of them into inChnl (full) and blocks sending
   the 101st; Close() is called, the handler's select takes stopSyn, the shutdown deactivates the element
   and waits for its stopAck, which the blocked element handler never closes: deadlock, Close() never
   returns.  (The statement of the theorems is false for an unbounded number of waiting messages.) *)
Definition c16c_flood : cmc_cfg := c16c_cfg [c16c_ad AStarted (repeat false 101)] [] 0.
Definition c16c_flood_sched : list (cmc_tid * nat) :=
  concat (repeat [(TE 0, 1); (TE 0, 0)] 100) ++ [(TE 0, 1)]
  ++ [(TC, 0); (TC, 0); (TC, 0); (TC, 0)]
  ++ [(TH, 0); (TH, 0); (TH, 0); (TH, 0); (TH, 0); (TH, 0); (TH, 0); (TH, 0)].
Example C16_conc_finding_inChnl_full_deadlock :
  cmc_cfg_ok c16c_flood = true /\
  exists s, cmc_reach cmc_code_as_is cmc_par_prod (cmc_init c16c_flood) s
            /\ (cmc_deadlocked cmc_code_as_is cmc_par_prod s && negb (cmc_close_returned s)) = true.
Proof.
  split; [vm_compute; reflexivity|].
  apply (cmc_witness cmc_code_as_is c16c_flood c16c_flood_sched). vm_compute. reflexivity.
Qed.

(* (8) outside the production parameters of the theorems, but as routing.Core uses the manager: the
   goroutine that reads Manager.Channel() is the one that calls Manager.Close() (Core.handler).  Once it
   has entered Close() nobody reads outChnl; a handler that is forwarding a status message blocks in the
   send and never sees stopSyn: deadlock. *)
Definition c16c_core : cmc_cfg :=
  {| cf_ads := [c16c_ad AStarted [false]]; cf_ops := []; cf_ticks := 0;
     cf_par := {| par_ttl := 10%Z; par_cap := 100; par_env := true |} |}.
Example C16_conc_finding_consumer_is_closer_deadlock :
  exists s, cmc_reach cmc_code_as_is (cf_par c16c_core) (cmc_init c16c_core) s
            /\ (cmc_deadlocked cmc_code_as_is (cf_par c16c_core) s && negb (cmc_close_returned s)) = true.
Proof.
  apply (cmc_witness cmc_code_as_is c16c_core [(TE 0, 1); (TE 0, 0); (TH, 1); (TC, 0); (TC, 0); (TC, 0); (TC, 0)]).
  vm_compute. reflexivity.
Qed.
