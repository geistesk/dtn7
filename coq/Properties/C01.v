(* C01 - the bundle wire codec is lossless, deterministic and idempotent. *)
From DTN Require Import Base Cbor Crc Eid Bundle BundleWf BundleProofs ValidProofs DecodeWf ConstsOkCodec.
Open Scope N_scope.

(* Serialising any valid bundle (every field in the range its Go type holds, passing CheckValid at
   time [now]) succeeds; parsing the bytes - followed by anything - yields the same bundle, equal in
   every field of the primary block and in every canonical block's type, number, flags, CRC type
   and content, and leaves exactly what followed; hence serialising the result again yields the
   same bytes.  No bound on sizes: the CBOR width boundaries are cases of one lemma. *)
Theorem C01_roundtrip : forall now b r,
  bundle_wf b = true -> check_valid now b = true ->
  exists bs, enc_bundle b = Some bs
             /\ dec_bundle now (bs ++ r) = Some (b, r)
             /\ (forall b', dec_bundle now (bs ++ r) = Some (b', r) -> enc_bundle b' = Some bs).
Proof.
  intros now b r Hwf Hv. exists (bundle_bytes b). split; [exact (enc_bundle_ok b Hwf)|].
  split; [exact (dec_bundle_enc now b r Hwf Hv)|].
  intros b' Hb'. rewrite (dec_bundle_enc now b r Hwf Hv) in Hb'. injection Hb' as <-. exact (enc_bundle_ok b Hwf).
Qed.
Print Assumptions C01_roundtrip.

(* The entry order inside the map-valued blocks is unspecified in Go; whatever order the encoder
   picks is some duplicate-free list b', and the theorem above applies to b' itself: the decoder
   returns exactly the encoder's order. *)

(* Second sentence: every byte string (of bytes) the parser accepts yields a bundle b that
   re-serialises to bytes bs' which the parser accepts again, completely, as norm_bundle b - that is b
   with the fragment offset / total length cleared when the fragment flag is not set (the parser
   tolerates a 10/11-element primary block without the flag; the serialiser drops the two fields):
   same bundle ID, the very same blocks and payload, the payload block last; and serialising that
   result again yields the same bytes.  No hypothesis beyond "the input consists of bytes". *)
Theorem C01_reserialise : forall now bs b rest,
  bytes_ok bs = true -> dec_bundle now bs = Some (b, rest) ->
  exists bs', enc_bundle b = Some bs'
              /\ dec_bundle now bs' = Some (norm_bundle b, [])
              /\ enc_bundle (norm_bundle b) = Some bs'
              /\ id_str (norm_bundle b) = id_str b
              /\ b_blocks (norm_bundle b) = b_blocks b
              /\ (exists pre pl, b_blocks b = pre ++ [pl] /\ c_type pl = 1).
Proof.
  intros now bs b rest Hb Hd.
  pose proof (decoded_bundle_wf now bs b rest Hb Hd) as Hwf.
  pose proof (dec_bundle_valid now bs b rest Hd) as Hv.
  assert (Hv' : check_valid now (norm_bundle b) = true) by (rewrite norm_check_valid; exact Hv).
  assert (Henc : enc_bundle b = enc_bundle (norm_bundle b)).
  { unfold enc_bundle, norm_bundle. cbn [b_pri b_blocks]. rewrite norm_enc_primary. reflexivity. }
  exists (bundle_bytes (norm_bundle b)).
  split; [rewrite Henc; exact (enc_bundle_ok _ Hwf)|].
  split; [exact (dec_bundle_enc_nil now _ Hwf Hv')|].
  split; [exact (enc_bundle_ok _ Hwf)|].
  split; [exact (norm_id_str b)|]. split; [reflexivity|].
  destruct (wf_payload_last now b (check_valid_sound now b Hv)) as (pre & pl & H1 & H2 & _). exists pre, pl. tauto.
Qed.
Print Assumptions C01_reserialise.

(* non-vacuity: a concrete bundle with CRC-32 primary, an age block (CRC-16) and a payload *)
Definition ex_bundle : bundle :=
  {| b_pri := {| p_flags := 4; p_crc := 2; p_dst := Dtn [100] [97]; p_src := Ipn 23 42; p_rpt := DtnNone;
                 p_time := 0; p_seq := 256; p_life := 65536; p_off := 0; p_total := 0 |};
     b_blocks := [ {| c_num := 2; c_flags := 0; c_crc := 1; c_val := XAge 24 |};
                   {| c_num := 1; c_flags := 0; c_crc := 0; c_val := XPayload [1; 2; 3] |} ] |}.
Example C01_example : bundle_wf ex_bundle = true /\ check_valid 1000 ex_bundle = true
  /\ dec_bundle 1000 (bundle_bytes ex_bundle) = Some (ex_bundle, []).
Proof. vm_compute. repeat split; reflexivity. Qed.
