(* C12 - MTCP and broadcast (BBC) links deliver exactly what was sent or report failure. *)
From DTN Require Import Base ListFacts Bbc BbcProofs BbcSafety BbcReuse ConstsOkBbc Mtcp MtcpProofs ConstsOkMtcp SpecMtcp.
Local Open Scope nat_scope.

(* ======================= BBC ======================= *)

(* Outgoing side, every transmission id, every modem MTU >= 3 (room = mtu - 2 >= 1) and every non-empty
   blob: no fragment exceeds the MTU, the payloads concatenate to the blob, fragment i (from 0)
   carries sequence number (i+1) mod 16, the start mark iff i = 0, the end mark iff it is the last, never
   the fail mark; a receiver fed the train in order rebuilds the identical blob, and the connector
   starting from an empty table outputs exactly that blob once and ends with an empty table. *)
Theorem C12_bbc_train : forall (decodes : list N -> bool) tid mtu blob fs,
  3 <= mtu -> blob <> [] -> out_fragments tid (mtu - 2) blob = Some fs ->
  Forall (fun f => length (frag_bytes f) <= mtu) fs
  /\ concat (map f_payload fs) = blob
  /\ (forall i, i < length fs ->
        f_tid (nth i fs dfrag) = tid /\ f_fail (nth i fs dfrag) = false
        /\ f_seq (nth i fs dfrag) = (N.of_nat (S i) mod 16)%N
        /\ f_start (nth i fs dfrag) = Nat.eqb i 0
        /\ f_end (nth i fs dfrag) = Nat.eqb (S i) (length fs))
  /\ (exists t, receive_in_order fs = Some t /\ i_payload t = blob /\ i_finished t = true /\ i_tid t = tid)
  /\ (decodes blob = true -> handle_all decodes [] fs = ([], [OutBlob tid blob])).
Proof.
  intros decodes tid mtu blob fs Hm Hne Hout.
  destruct (bbc_train tid (mtu - 2) blob fs ltac:(lia) Hne Hout) as (H1 & <- & H3).
  split; [|split; [reflexivity|split; [|split]]].
  - apply Forall_impl with (2 := H1). intros f Hf. lia.
  - apply (shape_nth tid fs _ _ H3 eq_refl).
  - apply (bbc_inorder_reception tid fs H3).
  - apply (bbc_handle_train_any decodes [] tid fs eq_refl H3).
Qed.
Print Assumptions C12_bbc_train.

(* Safety.  Trains Ts (blob k fragmented under transmission id tids[k], ids pairwise distinct); a
   received sequence r of references (train, fragment index) - arbitrary references express drops,
   duplications, reorderings and interleavings of several concurrent transmissions; locality: for
   each train, two consecutively received indices a, b satisfy a - 14 <= b <= a + 16, i.e. b is
   displaced from the expected a+1 by fewer than sixteen ("fewer than sixteen in a row").  Then
   every blob the connector hands to the bundle decoder, whatever the decoder's verdicts, is the
   blob that was sent under that transmission id: never a different bundle. *)
Theorem C12_bbc_safety : forall (decodes : list N -> bool) (Ts : list (list fragment)) (tids : list N)
    (blobs : list (list N)) (r : list (nat * nat)) tb outs,
  length Ts = length tids -> length blobs = length Ts -> NoDup tids ->
  (forall k, k < length Ts -> exists room, 1 <= room /\ nth k blobs [] <> []
      /\ out_fragments (nth k tids 0%N) room (nth k blobs []) = Some (nth k Ts [])) ->
  Forall (valid_ref Ts) r -> locality r ->
  handle_all decodes [] (map (frag_at Ts) r) = (tb, outs) ->
  forall tid blob, In (OutBlob tid blob) outs ->
    exists k, k < length Ts /\ nth k tids 0%N = tid /\ blob = nth k blobs [].
Proof.
  intros decodes Ts tids blobs r tb outs Hlen Hlb Hnd Hsent Hv Hl H tid blob Hin.
  assert (Htrain : forall k, k < length Ts ->
            concat (map f_payload (nth k Ts [])) = nth k blobs []
            /\ train_shape (nth k tids 0%N) 0%N true (nth k Ts [])).
  { intros k Hk. destruct (Hsent k Hk) as (room & Hr & Hne & Hout). apply (bbc_train _ _ _ _ Hr Hne Hout). }
  destruct (bbc_safety decodes Ts tids Hlen (fun k Hk => proj2 (Htrain k Hk)) Hnd r tb outs Hv Hl H tid blob Hin)
    as (k & Hk & Ht & ->).
  exists k. split; [exact Hk|]. split; [exact Ht|]. apply (Htrain k Hk).
Qed.
Print Assumptions C12_bbc_safety.

(* the same over any trains of the right shape (not only those out_fragments produces) *)
Theorem C12_bbc_safety_shape : forall (decodes : list N -> bool) (Ts : list (list fragment)) (tids : list N),
  length Ts = length tids ->
  (forall k, k < length Ts -> train_shape (nth k tids 0%N) 0%N true (nth k Ts [])) ->
  NoDup tids ->
  forall r tb outs, Forall (valid_ref Ts) r -> locality r ->
  handle_all decodes [] (map (frag_at Ts) r) = (tb, outs) ->
  forall tid blob, In (OutBlob tid blob) outs ->
    exists k, k < length Ts /\ tidk tids k = tid /\ blob = blob_of Ts k.
Proof. exact bbc_safety. Qed.
Print Assumptions C12_bbc_safety_shape.

(* Detection.  Train k was received without fault up to index a, which is not its last fragment
   (other transmissions interleaved at will, themselves faulty or not); the next fragment of train k
   that arrives is any other than a+1 within the locality bound (a drop of fewer than sixteen, a
   duplicate, a reordered one): handling it emits exactly one failure fragment carrying that
   transmission id, and the transmission is dropped from the table. *)
Theorem C12_bbc_detect : forall (decodes : list N -> bool) (Ts : list (list fragment)) (tids : list N),
  length Ts = length tids ->
  (forall k, k < length Ts -> train_shape (nth k tids 0%N) 0%N true (nth k Ts [])) ->
  NoDup tids ->
  forall r a b k tb1 o1 tb2 o2,
  Forall (valid_ref Ts) r -> locality r -> valid_ref Ts (k, b) ->
  ksub k r = seq 0 (S a) -> S a < length (tr Ts k) ->
  b <> S a -> near a b ->
  handle_all decodes [] (map (frag_at Ts) r) = (tb1, o1) ->
  handle_fragment decodes tb1 (frag_at Ts (k, b)) = (tb2, o2) ->
  o2 = [OutFailFrag (report_failure (frag_at Ts (k, b)))]
  /\ f_tid (report_failure (frag_at Ts (k, b))) = tidk tids k
  /\ f_fail (report_failure (frag_at Ts (k, b))) = true
  /\ tbl_find tb2 (tidk tids k) = None.
Proof. exact bbc_detect. Qed.
Print Assumptions C12_bbc_detect.

(* The two places where the implementation (modelled as it is) does NOT give what the property text
   asks ("if a fragment is lost, duplicated ... the receiver signals failure"); both are excluded by
   the hypotheses of C12_bbc_detect (a further fragment of the train arrives / a < last index). *)

(* (1) key bbc.fault.trailing-incomplete: the final fragment(s) lost, nothing of the train follows:
   no failure fragment, nothing delivered, the transmission stays open (there is no timer). *)
Theorem C12_bbc_trailing_loss_refuted :
  exists tid room blob fs n tb,
    out_fragments tid room blob = Some fs /\ 1 <= room /\ blob <> [] /\ 0 < n < length fs
    /\ handle_all (fun _ => true) [] (firstn n fs) = (tb, [])
    /\ tbl_find tb tid <> None.
Proof.
  exists 7%N, 2, [1;2;3;4;5]%N. eexists. exists 2. eexists.
  split; [vm_compute; reflexivity|]. split; [lia|]. split; [discriminate|].
  split; [cbn; lia|]. split; [vm_compute; reflexivity|]. vm_compute. discriminate.
Qed.
Print Assumptions C12_bbc_trailing_loss_refuted.

(* (2) key bbc.dup.complete-train-redelivered: a complete train that arrives twice (e.g. a duplicated
   single-fragment transmission) is a second complete transmission: delivered twice (the identical
   blob, so safety holds), no failure fragment. *)
Theorem C12_bbc_dup_redelivered_refuted :
  exists tid room blob fs,
    out_fragments tid room blob = Some fs /\ 1 <= room /\ blob <> []
    /\ handle_all (fun _ => true) [] (fs ++ fs) = ([], [OutBlob tid blob; OutBlob tid blob]).
Proof.
  exists 9%N, 5, [1;2]%N. eexists.
  split; [vm_compute; reflexivity|]. split; [lia|]. split; [discriminate|]. vm_compute. reflexivity.
Qed.
Print Assumptions C12_bbc_dup_redelivered_refuted.


(* Histories on one connector in which transmission ids are used again (the id is one byte: a sender's
   counter wraps after 256 bundles, another sender may have drawn the same id).

   End of a transmission.  After ANY history h (arbitrary fragments: trains that were delivered, that
   failed a sequence check, that finished with a payload the decoder rejects - garbage, a truncated
   bundle, a burst of sixteen lost fragments -, peers' failure fragments), whenever handling a data
   fragment makes the connector emit anything - a failure fragment or a finished blob - the table
   holds no entry for that transmission id afterwards; a peer's failure fragment leaves the table
   untouched and is only handed to Send. *)
Theorem C12_bbc_end_clears : forall (decodes : list N -> bool) (h : list fragment) f tb1 o1 tb2 o2,
  handle_all decodes [] h = (tb1, o1) -> handle_fragment decodes tb1 f = (tb2, o2) ->
  (f_fail f = false -> o2 <> [] -> tbl_find tb2 (f_tid f) = None)
  /\ (f_fail f = true -> tb2 = tb1 /\ o2 = [OutFailedTid (f_tid f)]).
Proof.
  intros decodes h f tb1 o1 tb2 o2 H1 H2. split.
  - apply (handle_fragment_end_clears decodes tb1 f tb2 o2); [|exact H2].
    apply (handle_all_wf decodes h [] tb1 o1 tbl_wf_nil H1).
  - intros Hff. rewrite handle_fragment_fail in H2 by exact Hff. injection H2 as <- <-. auto.
Qed.
Print Assumptions C12_bbc_end_clears.

(* Re-use.  After any history h that leaves no entry for transmission id tid, an intact train under
   that id (any MTU >= 3, any blob the decoder accepts) is delivered: exactly one blob, the identical
   one, no failure fragment, and the table is as before. *)
Theorem C12_bbc_reuse : forall (decodes : list N -> bool) (h : list fragment) tb outs tid mtu blob fs,
  handle_all decodes [] h = (tb, outs) -> tbl_find tb tid = None ->
  3 <= mtu -> blob <> [] -> out_fragments tid (mtu - 2) blob = Some fs -> decodes blob = true ->
  handle_all decodes [] (h ++ fs) = (tb, outs ++ [OutBlob tid blob]).
Proof.
  intros decodes h tb outs tid mtu blob fs Hh Hnone Hm Hne Hout Hdec.
  destruct (bbc_train tid (mtu - 2) blob fs ltac:(lia) Hne Hout) as (_ & <- & Hs).
  rewrite handle_all_app, Hh, (bbc_handle_train_any decodes tb tid fs Hnone Hs Hdec). reflexivity.
Qed.
Print Assumptions C12_bbc_reuse.

(* Both together: a transmission ends on fragment f (the connector signals failure or hands the blob
   up); fragments g of other transmission ids follow at will; then an intact train that uses the id
   again is delivered identically, without a failure fragment. *)
Theorem C12_bbc_reuse_after_end : forall (decodes : list N -> bool) (h : list fragment) f (g : list fragment)
    tb1 o1 tb2 o2 tb3 o3 mtu blob fs,
  handle_all decodes [] h = (tb1, o1) -> handle_fragment decodes tb1 f = (tb2, o2) ->
  f_fail f = false -> o2 <> [] ->
  Forall (fun x => f_tid x <> f_tid f) g -> handle_all decodes tb2 g = (tb3, o3) ->
  3 <= mtu -> blob <> [] -> out_fragments (f_tid f) (mtu - 2) blob = Some fs -> decodes blob = true ->
  handle_all decodes tb3 fs = (tb3, [OutBlob (f_tid f) blob]).
Proof.
  intros decodes h f g tb1 o1 tb2 o2 tb3 o3 mtu blob fs H1 H2 Hff Hne Hg H3 Hm Hbl Hout Hdec.
  pose proof (handle_all_wf decodes h [] tb1 o1 tbl_wf_nil H1) as Hwf1.
  pose proof (handle_all_other decodes (f_tid f) g tb2 tb3 o3 (handle_fragment_wf _ _ _ _ _ Hwf1 H2) Hg H3) as Hnone.
  rewrite (handle_fragment_end_clears decodes tb1 f tb2 o2 Hwf1 H2 Hff Hne) in Hnone.
  destruct (bbc_train (f_tid f) (mtu - 2) blob fs ltac:(lia) Hbl Hout) as (_ & <- & Hs).
  apply (bbc_handle_train_any decodes tb3 (f_tid f) fs Hnone Hs Hdec).
Qed.
Print Assumptions C12_bbc_reuse_after_end.

(* The shared outgoing queue (fragmentOut, capacity 64, written with blocking sends by Send and by the
   failure report of the reading handler, emptied by handlerWrite): every run that has drained
   transmitted exactly the own fragments and exactly the failure fragments, each in order - a failure
   report is never lost, however long the own transmission and however slow the modem; while anything
   is pending some step is enabled, and every run can be completed. *)
Theorem C12_bbc_queue_lossless : forall cap own fails evs s,
  Forall (fun f => f_fail f = false) own -> Forall (fun f => f_fail f = true) fails ->
  bbcq_run cap (bbcq_init own fails) evs = Some s -> bbcq_done s = true ->
  filter nofail (bq_sent s) = own /\ filter f_fail (bq_sent s) = fails
  /\ bbcq_sent_ok own fails (bq_sent s) = true
  /\ length evs = 2 * (length own + length fails).
Proof.
  intros cap own fails evs s H1 H2 Hrun Hdone.
  destruct (bq_run_inv cap own fails evs _ s (bq_init_inv own fails H1 H2) Hrun) as [HI Hm].
  destruct (bq_inv_done own fails s HI Hdone) as (I1 & I2 & Hz).
  split; [exact I1|]. split; [exact I2|]. split.
  - unfold bbcq_sent_ok. fold nofail. rewrite I1, I2, !bbc_frags_eqb_refl. reflexivity.
  - rewrite Hz in Hm. unfold bq_measure in Hm. cbn [bbcq_init bq_own bq_fail bq_queue length] in Hm. lia.
Qed.
Print Assumptions C12_bbc_queue_lossless.

Theorem C12_bbc_queue_drains : forall own fails,
  Forall (fun f => f_fail f = false) own -> Forall (fun f => f_fail f = true) fails ->
  forall evs s, bbcq_run (Z.to_nat bbc_queue_cap) (bbcq_init own fails) evs = Some s ->
  (bbcq_done s = false -> exists e s', bbcq_step (Z.to_nat bbc_queue_cap) s e = Some s')
  /\ exists evs' s', bbcq_run (Z.to_nat bbc_queue_cap) s evs' = Some s' /\ bbcq_done s' = true.
Proof.
  intros own fails H1 H2 evs s Hr.
  assert (Hc : 1 <= Z.to_nat bbc_queue_cap) by (vm_compute; lia).
  split; [apply bbcq_progress; exact Hc|apply bbcq_drains_any; exact Hc].
Qed.
Print Assumptions C12_bbc_queue_drains.

(* ======================= MTCP ======================= *)

(* CBOR byte-string head: written with minimal width, read back exactly, rest of the stream untouched *)
Theorem C12_mtcp_head_roundtrip : forall n r, (n < 2 ^ 64)%N -> mtcp_read_head (mtcp_head n ++ r) = Some (n, r).
Proof. exact mtcp_head_roundtrip. Qed.
Print Assumptions C12_mtcp_head_roundtrip.

(* Every sequence of Sends (non-empty bundles shorter than 2^64 bytes) with keep-alives placed at any
   frame boundaries: the server's loop hands up the same bundles in the same order; keep-alives and
   the probe after each bundle are invisible. *)
Theorem C12_mtcp_stream : forall evs, Forall ev_ok evs ->
  mtcp_server_opaque (mtcp_client_stream evs) = mtcp_sent evs.
Proof.
  intros evs H. destruct (events_as_options evs) as (l & -> & -> & Hl).
  apply (mtcp_stream_gen (fun b => b) mtcp_parse_opaque (fun b => b <> [] /\ (nlen b < 2 ^ 64)%N));
    [tauto|tauto|intros x r _; apply parse_opaque_ok|exact (Hl H)].
Qed.
Print Assumptions C12_mtcp_stream.

(* The same for the server as written (it delimits a bundle by the bundle's own CBOR structure, not by
   the announced length), for any bundle codec that reads back what it wrote and leaves the rest of
   the stream alone (property C01) and never writes an empty string. *)
Theorem C12_mtcp_stream_codec : forall (B : Type) (enc : B -> list N) (parse : N -> list N -> option (B * list N)),
  (forall x r, parse (nlen (enc x)) (enc x ++ r) = Some (x, r)) ->
  (forall x, enc x <> []) -> (forall x, (nlen (enc x) < 2 ^ 64)%N) ->
  forall l : list (option B),    (* Some x = Send x, None = keep-alive *)
  mtcp_server parse (mtcp_client_stream (map (cev enc) l)) = handed_up l.
Proof.
  intros B enc parse Hparse Hne Hlen l. apply (mtcp_stream_gen enc parse (fun _ => True)); auto.
  apply Forall_forall. intros [x|] _; exact I.
Qed.
Print Assumptions C12_mtcp_stream_codec.

(* Connection cut after any number of bytes: the server hands up a prefix of what was sent - nothing
   else, nothing reordered, nothing altered. *)
Theorem C12_mtcp_cut : forall evs p q, Forall ev_ok evs -> mtcp_client_stream evs = p ++ q ->
  exists k, mtcp_server_opaque p = firstn k (mtcp_sent evs).
Proof.
  intros evs p q H E. rewrite <- (C12_mtcp_stream evs H), E.
  apply server_loop_mono; [intros n s x r; apply take_exact_more|rewrite app_length; lia].
Qed.
Print Assumptions C12_mtcp_cut.

(* Send on a connection whose writes can fail (cut = the k-th write of this Send fails after m bytes;
   broken = an earlier write failed): an error is returned exactly when a write failed, exactly then
   the peer is reported gone; on success the whole frame went out; always a prefix of the frame. *)
Theorem C12_mtcp_error : forall broken b cut,
  let r := mtcp_send broken b cut in
  (sr_error r = true <->
     broken = true \/ exists k m, cut = Some (k, m) /\ k < length (mtcp_send_chunks b))
  /\ sr_disappeared r = sr_error r
  /\ sr_broken r = (broken || sr_error r)
  /\ (sr_error r = false -> concat (sr_written r) = mtcp_frame b)
  /\ exists q, mtcp_frame b = concat (sr_written r) ++ q.
Proof.
  intros broken b cut. cbv zeta. unfold mtcp_send. destruct broken.
  - cbn. repeat split; auto; try discriminate. exists (mtcp_frame b). reflexivity.
  - destruct (write_chunks_spec (mtcp_send_chunks b) cut) as (Hf & Hw & Hq). rewrite send_chunks_concat in Hq.
    destruct (mtcp_write_chunks (mtcp_send_chunks b) cut) as [w f].
    cbn [fst snd sr_error sr_disappeared sr_written sr_broken orb] in *. repeat split; auto.
    + intros E. right. rewrite Hf in E. destruct cut as [[k m]|]; [|discriminate]. exists k, m. apply Nat.ltb_lt in E. auto.
    + intros [H|(k & m & -> & H)]; [discriminate|]. rewrite Hf. apply Nat.ltb_lt, H.
    + intros E. rewrite (Hw E). apply send_chunks_concat.
Qed.
Print Assumptions C12_mtcp_error.

(* ======================= non-vacuity ======================= *)
Definition ex_T0 : list fragment := match out_fragments 7%N 2 [1;2;3;4;5;6;7]%N with Some fs => fs | None => [] end.
Definition ex_T1 : list fragment := match out_fragments 9%N 3 [10;11;12;13]%N with Some fs => fs | None => [] end.

Example C12_ex_train : map frag_bytes ex_T0 = [[7;12;1;2]; [7;16;3;4]; [7;24;5;6]; [7;34;7]]%N.
Proof. vm_compute. reflexivity. Qed.

(* a faulty interleaving satisfying the hypotheses: train 0 loses fragment 2, train 1 is complete *)
Example C12_ex_locality : locality [(0,0); (1,0); (0,1); (1,1); (0,3)].
Proof.
  intros k l1 a b l2 E. destruct k as [|[|k]]; vm_compute in E.
  - destruct l1 as [|x [|y [|z l1]]]; try discriminate; injection E; intros; subst; unfold near; try lia.
    destruct l1; discriminate.
  - destruct l1 as [|x [|y l1]]; try discriminate; injection E; intros; subst; unfold near; try lia.
    destruct l1; discriminate.
  - destruct l1; discriminate.
Qed.

Example C12_ex_faulty_run :
  snd (handle_all (fun _ => true) [] (map (frag_at [ex_T0; ex_T1]) [(0,0); (1,0); (0,1); (1,1); (0,3)]))
  = [OutBlob 9 [10;11;12;13]; OutFailFrag (new_fragment 7 4 false false true [])]%N.
Proof. vm_compute. reflexivity. Qed.

(* re-use: train A (id 7) reaches its end mark with a payload the decoder rejects - failure fragment,
   nothing delivered, id free again -; the intact train B under the same id is delivered *)
Example C12_ex_reuse :
  let dec := fun b : list N => match b with 1%N :: _ => true | _ => false end in
  let A := match out_fragments 7%N 2 [9;9;9;9;9]%N with Some fs => fs | None => [] end in
  handle_all dec [] (A ++ ex_T0)
  = ([], [OutFailFrag (new_fragment 7 3 false false true []); OutBlob 7 [1;2;3;4;5;6;7]])%N.
Proof. vm_compute. reflexivity. Qed.

(* the queue with capacity 2: three own fragments, one failure fragment squeezed in while it is full *)
Example C12_ex_queue :
  let own := ex_T0 in let fl := [new_fragment 9 4 false false true []]%N in
  match bbcq_run 2 (bbcq_init own fl) [BqOwn; BqOwn; BqPop; BqFail; BqPop; BqOwn; BqPop; BqOwn; BqPop; BqPop] with
  | Some s => bbcq_done s = true /\ bbcq_sent_ok own fl (bq_sent s) = true
              /\ bbcq_step 2 (bbcq_init own fl) BqPop = None
  | None => False
  end
  /\ bbcq_run 2 (bbcq_init ex_T0 [new_fragment 9 4 false false true []]%N) [BqOwn; BqOwn; BqFail] = None.
Proof. vm_compute. auto. Qed.

Example C12_ex_mtcp_stream :
  mtcp_client_stream [MKeepalive; MSend [1;2;3]; MKeepalive; MSend [9]]%N = [64; 67;1;2;3;64; 64; 65;9;64]%N
  /\ mtcp_server_opaque [64; 67;1;2;3;64; 64; 65;9;64]%N = [[1;2;3]; [9]]%N
  /\ mtcp_server_opaque [64; 67;1;2;3;64; 64; 65]%N = [[1;2;3]]%N.
Proof. vm_compute. auto. Qed.

Example C12_ex_mtcp_heads :
  mtcp_head 23 = [87]%N /\ mtcp_head 24 = [88; 24]%N /\ mtcp_head 255 = [88; 255]%N
  /\ mtcp_head 256 = [89; 1; 0]%N /\ mtcp_head 65535 = [89; 255; 255]%N /\ mtcp_head 65536 = [90; 0; 1; 0; 0]%N.
Proof. vm_compute. auto 10. Qed.

Example C12_ex_mtcp_error :
  let r := mtcp_send false [1;2;3]%N (Some (1, 0)) in
  sr_error r = true /\ sr_disappeared r = true /\ sr_written r = [[67;1;2;3]]%N.
Proof. vm_compute. auto. Qed.
