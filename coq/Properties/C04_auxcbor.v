(* C04 - decoders of the CBOR-based auxiliary formats (part file, merged by ./check with Properties/C04.v). *)
From DTN Require Import Base Cbor CborProofs Eid EidProofs Bundle BundleWf BundleProofs
  AuxCbor AuxCborProofs EidUriProofs ConstsOkAuxCbor.
Open Scope N_scope.


(* ======================= C04: the decoders as attack surface ======================= *)

(* For every byte string and every decoder of this package (creation timestamp, endpoint ID, bundle
   ID, status item, status report, administrative record, announcement, announcement list,
   WebSocket-agent message): the outcome is a value or an error, never a panic ... *)
Theorem C04_aux_no_panic : forall now k bs, is_panic (adec_aux true now k bs) = false.
Proof. intros now k bs. exact (proj1 (adec_aux_bounded now k bs)). Qed.
Print Assumptions C04_aux_no_panic.


(* ... and the memory allocated in sizes taken from the wire (string lengths, item counts) is at most
   136 bytes per byte of input plus 1 MiB (the one pre-allocation cboring makes for a string of at
   most 1 MiB before its bytes are there).  The bundle inside a WebSocket-agent message is decoded by
   the bundle decoder, whose account is not part of this package. *)
Theorem C04_aux_alloc_bounded : forall now k bs,
  cost_of (adec_aux true now k bs) <= 136 * nlen bs + 1048576.
Proof. intros now k bs. exact (proj2 (adec_aux_bounded now k bs)). Qed.
Print Assumptions C04_aux_alloc_bounded.


(* the plain decoders of C17 are these decoders with the account dropped *)
Theorem C04_aux_same_decoders : forall now k bs, to_res (adec_aux true now k bs) = dec_aux now k bs.
Proof. exact to_res_adec_aux. Qed.
Print Assumptions C04_aux_same_decoders.


(* termination: all decoders are structurally recursive; the two counted loops carry a fuel of
   (input length + 1), and giving them any more fuel never changes their result - the fuel is not what
   stops them (each item consumes at least one byte) *)
Theorem C04_aux_terminates : forall extra n bs,
  arepeat adec_sitem sitem_per (S (length bs) + extra) n bs = arepeat adec_sitem sitem_per (S (length bs)) n bs
  /\ arepeat adec_ann ann_per (S (length bs) + extra) n bs = arepeat adec_ann ann_per (S (length bs)) n bs.
Proof.
  intros extra n bs. split.
  - apply (arepeat_fuel _ _ 8 (within_sitem 8)); lia.
  - apply (arepeat_fuel _ _ 8 (fun b => within_ann 8 b (N.le_refl 8))); lia.
Qed.
Print Assumptions C04_aux_terminates.


(* endpoint-ID strings: the parser is a total function - a structure or an error for every text -
   and what it accepts is valid (its regular expressions and the Go regexp engine's linear-time
   matching are library code: exercised by the harness, not modelled) *)
Theorem C04_aux_uri_total : forall uri, eid_parse uri = None \/ exists e, eid_parse uri = Some e /\ eid_valid e = true.
Proof.
  intros uri. destruct (eid_parse uri) as [e|] eqn:E; [right; exists e; split; [reflexivity|exact (proj1 (eid_parse_valid uri e E))]|left; reflexivity].
Qed.
Print Assumptions C04_aux_uri_total.


(* the code as found (before the fix commits) violates both clauses: a 8-byte administrative record /
   a 5-byte announcement packet makes it allocate ~96 GiB / ~128 GiB, a 12-byte / 9-byte one panics *)
Theorem C04_aux_unfixed_refuted :
  (exists bs, (length bs <= 12)%nat /\ ~ bounded alloc_k bs (adec_admrec false bs)) /\
  (exists bs, (length bs <= 12)%nat /\ is_panic (adec_admrec false bs) = true) /\
  (exists bs, (length bs <= 9)%nat /\ ~ bounded alloc_k bs (adec_anns false bs)) /\
  (exists bs, (length bs <= 9)%nat /\ is_panic (adec_anns false bs) = true).
Proof. exact adec_unfixed_refuted. Qed.
Print Assumptions C04_aux_unfixed_refuted.


Example C04_aux_example_bounded_after_fix :
  (* the killer inputs, decoded by the repaired code: an error and nothing allocated *)
  adec_admrec true killer_admrec_oom = AErr 0 /\ adec_admrec true killer_admrec_panic = AErr 0
  /\ adec_anns true killer_anns_oom = AErr 0 /\ adec_anns true killer_anns_panic = AErr 0.
Proof. vm_compute. repeat split. Qed.

