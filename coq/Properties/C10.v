(* C10 - reassembly accepts any covering set of fragments and nothing else.

   Vocabulary (Proofs/ReasmProofs.v):
     frag_of p bl f   f is a fragment of the bundle with payload p and extension blocks bl: Is-Fragment
                      flag, total = |p|, data = p[off, off+len), off+len <= |p|, all blocks at offset 0 and
                      the replicated ones elsewhere - ANY offset / length, so first-level fragments of any
                      size limit, fragments of fragments, overlapping and contained pieces all qualify;
     covered fs i     byte i of the payload lies in [off f, off f + len f) for some f in fs;
     covers fs t      every i < t is covered (with frag_of: the union of the intervals = [0,t));
     sorted_by_off s  s is sorted by fragment offset.
   The Go sort (sort.Slice) is not stable: every statement about ReassembleFragments /
   IsBundleReassemblable is made for EVERY permutation s of the input that is sorted by offset,
   whatever the order among equal offsets - hence for the one the implementation produces (the
   harness records it and the driver replays it) and for the model's own insertion sort. *)
From Coq Require Import Permutation.
From DTN Require Import Base Reasm ReasmProofs ConstsOkReasm.
Open Scope N_scope.

(* Any list fs (any order, duplicates, overlaps, containment, first- and second-level pieces) of
   fragments of one bundle: reassembly returns the original payload and blocks exactly when fs is
   non-empty and covers [0,|p|); otherwise it returns an error.  It never returns other data and
   never panics. *)
Theorem C10_iff_cover : forall p bl fs s,
  Forall (frag_of p bl) fs -> Permutation s fs -> sorted_by_off s ->
  (rs_reassemble_sorted s = RsOk p bl <-> fs <> [] /\ covers fs (nlen p))
  /\ (rs_reassemble_sorted s = RsOk p bl \/ exists e, rs_reassemble_sorted s = RsErr e).
Proof. exact (fun p bl fs s HF HP Hs => proj2 (reassemble_iff_cover p bl fs s HF HP Hs)). Qed.
Print Assumptions C10_iff_cover.

(* the same for the model's own sort, input in any order *)
Theorem C10_iff_cover_any_order : forall p bl fs,
  Forall (frag_of p bl) fs ->
  (rs_reassemble fs = RsOk p bl <-> fs <> [] /\ covers fs (nlen p))
  /\ (rs_reassemble fs = RsOk p bl \/ exists e, rs_reassemble fs = RsErr e).
Proof. intros p bl fs HF. exact (C10_iff_cover p bl fs _ HF (sort_perm fs) (sort_sorted fs)). Qed.
Print Assumptions C10_iff_cover_any_order.

(* IsBundleReassemblable <-> cover *)
Theorem C10_reassemblable_iff_cover : forall p bl fs s,
  Forall (frag_of p bl) fs -> Permutation s fs -> sorted_by_off s ->
  (rs_is_reassemblable_sorted s = true <-> fs <> [] /\ covers fs (nlen p)).
Proof. exact (fun p bl fs s HF HP Hs => proj1 (reassemble_iff_cover p bl fs s HF HP Hs)). Qed.
Print Assumptions C10_reassemblable_iff_cover.

(* Go's slice-bounds panic in mergeFragmentPayload is an explicit outcome of the model; it is
   unreachable for EVERY input list - also for fragments that do not belong together. *)
Theorem C10_never_panics : forall s, rs_reassemble_sorted s <> RsPanic.
Proof. exact reassemble_sorted_no_panic. Qed.
Print Assumptions C10_never_panics.

(* Fragment applied to a fragment (or to the whole bundle), for every sequence of piece sizes the
   size arithmetic may choose: every piece is the parent itself (single piece) or again a fragment
   of the ORIGINAL bundle, with off = off_parent + j and total = total_parent. *)
Theorem C10_refragment : forall p bl f parts c,
  parent_ok p bl f -> In c (rs_refragment f parts) ->
  c = f \/ (frag_of p bl c /\ fr_total c = rs_total f /\
            exists j, j < nlen (fr_data f) /\ fr_off c = rs_base f + j).
Proof.
  intros p bl f parts c Hp Hin.
  assert (H : c = f \/ In c (rs_refrag_loop f 0 parts)).
  { unfold rs_refragment in Hin. destruct (rs_refrag_loop f 0 parts) as [| x [| y l]]; auto.
    destruct Hin as [<- | []]; auto. }
  destruct H as [-> | H]; [left; reflexivity | right; exact (refrag_loop_in _ _ _ _ _ _ Hp H)].
Qed.
Print Assumptions C10_refragment.

(* ... and the pieces cover exactly the parent's interval (sizes positive and sufficient - which
   Fragment guarantees: it fails when a piece would be empty, and loops until the payload ends). *)
Theorem C10_refragment_cover : forall p bl f parts x,
  parent_ok p bl f ->
  Forall (fun sz => 0 < sz) parts -> nlen (fr_data f) <= fold_right N.add 0 parts ->
  (covered (rs_refragment f parts) x <-> covered [f] x).
Proof. exact refragment_cover. Qed.
Print Assumptions C10_refragment_cover.

(* The store: IsComplete / Load of the part list built by pushing fs one after the other.
   As stated in the property this is REFUTED for the code as it is: Push treats a fragment whose
   (offset,total) is already recorded as known and drops it, also when it is longer than the
   recorded one (two fragmentations with different limits both start at offset 0). *)
Theorem C10_store_complete_refuted : exists p bl fs,
  Forall (frag_of p bl) fs /\ fs <> [] /\ covers fs (nlen p)
  /\ rs_store_is_complete (rs_store_push_all fs) = false.
Proof. exact store_complete_refuted. Qed.
Print Assumptions C10_store_complete_refuted.

(* It holds when no fragment is pushed after a shorter one with the same (offset,total) - exactly
   the situation of the finding. *)
Theorem C10_store_complete : forall p bl fs,
  Forall (frag_of p bl) fs -> no_later_longer fs ->
  (rs_store_is_complete (rs_store_push_all fs) = true <-> fs <> [] /\ covers fs (nlen p))
  /\ (rs_store_load (rs_store_push_all fs) = RsOk p bl <-> fs <> [] /\ covers fs (nlen p))
  /\ (rs_store_load (rs_store_push_all fs) = RsOk p bl
      \/ exists e, rs_store_load (rs_store_push_all fs) = RsErr e).
Proof. exact store_complete_iff_cover. Qed.
Print Assumptions C10_store_complete.

(* With the proposed repair of Push (keep the longer of two parts with the same (offset,total)) the
   kept parts cover what the pushed fragments cover, without side condition. *)
Theorem C10_store_repair_keeps_cover : forall fs parts i,
  covered (fold_left rs_store_push_longer fs parts) i <-> covered parts i \/ covered fs i.
Proof.
  induction fs as [| f fs IH]; cbn [fold_left]; intros parts i.
  - rewrite covered_nil. tauto.
  - rewrite IH, store_push_longer_cover, covered_cons. tauto.
Qed.
Print Assumptions C10_store_repair_keeps_cover.

(* ---- non-vacuity --------------------------------------------------------------------------------- *)
Definition c10_p : list N := [10; 11; 12; 13; 14; 15; 16; 17; 18; 19].
Definition c10_bl : list (N * bool) := [(7, true); (10, false)].
Definition c10_f (o : N) (d : list N) : rs_frag :=
  {| fr_off := o; fr_total := 10; fr_data := d; fr_isfrag := true;
     fr_blocks := if o =? 0 then c10_bl else [(7, true)] |}.

(* overlap, containment, a duplicate, unsorted: the pieces are fragments of c10_p and reassemble *)
Example C10_ex_cover :
  Forall (frag_of c10_p c10_bl)
    [c10_f 5 [15;16;17;18;19]; c10_f 2 [12;13;14]; c10_f 0 [10;11;12;13;14;15;16;17]; c10_f 2 [12;13;14]]
  /\ rs_reassemble
       [c10_f 5 [15;16;17;18;19]; c10_f 2 [12;13;14]; c10_f 0 [10;11;12;13;14;15;16;17]; c10_f 2 [12;13;14]]
     = RsOk c10_p c10_bl.
Proof.
  split; [| vm_compute; reflexivity].
  repeat (apply Forall_cons;
          [unfold frag_of; vm_compute; repeat split; try reflexivity; try discriminate |]).
  apply Forall_nil.
Qed.

(* byte 5 missing *)
Example C10_ex_noncover :
  rs_reassemble [c10_f 6 [16;17;18;19]; c10_f 0 [10;11;12;13;14]; c10_f 2 [12;13]] = RsErr RsGap
  /\ rs_reassemble [c10_f 0 [10;11;12;13;14]; c10_f 2 [12;13]] = RsErr RsTotal
  /\ rs_reassemble [] = RsErr RsEmpty.
Proof. repeat split; vm_compute; reflexivity. Qed.

(* the code before the fix panicked on [0,10) [2,5) [5,10) and rejected [0,8) [2,5) [6,10) *)
Example C10_ex_unfixed :
  rs_reassemble_sorted_unfixed
    [c10_f 0 c10_p; c10_f 2 [12;13;14]; c10_f 5 [15;16;17;18;19]] = RsPanic
  /\ rs_reassemble_sorted_unfixed
    [c10_f 0 [10;11;12;13;14;15;16;17]; c10_f 2 [12;13;14]; c10_f 6 [16;17;18;19]] = RsErr RsGap.
Proof. split; vm_compute; reflexivity. Qed.

(* fragment [4,8) of c10_p cut into pieces of 3: offsets 4 and 7, total 10 *)
Example C10_ex_refragment :
  rs_refragment (c10_f 4 [14;15;16;17]) [3; 3]
  = [c10_f 4 [14;15;16]; c10_f 7 [17]].
Proof. vm_compute. reflexivity. Qed.
