(* C04 - TCPCLv4 message decoders (part file, merged by ./check with Properties/C04.v). *)
From DTN Require Import Base TcpclMsg TcpclMsgProofs ConstsOkTcpclMsg.
Open Scope N_scope.

(* ReadMessage on any byte string returns a value or an error: it never panics *)
Theorem C04_tcpcl_no_panic : forall bs, bytes_ok bs = true -> fst (tm_read bs) <> TmPanic.
Proof.
  intros bs Hb. pose proof (tm_tri_read bs Hb) as H.
  destruct (tm_read bs) as [[m r| |] n]; cbn [fst]; [discriminate|discriminate|contradiction].
Qed.
Print Assumptions C04_tcpcl_no_panic.

(* what it allocates by sizes taken from the wire is at most 8 x the bytes present + 65535 *)
Theorem C04_tcpcl_alloc_bounded : forall bs, bytes_ok bs = true ->
  snd (tm_read bs) <= tm_alloc_bound (nlen bs).
Proof.
  intros bs Hb. pose proof (tm_tri_read bs Hb) as H. unfold tm_alloc_bound, tm_alloc_c1, tm_alloc_c0.
  destruct (tm_read bs) as [[m r| |] n]; cbn [snd]; [|lia|contradiction].
  destruct H as (_ & _ & H). lia.
Qed.
Print Assumptions C04_tcpcl_alloc_bounded.

(* the receive loop over a whole connection: never crashes, allocation linear in the bytes received *)
Theorem C04_tcpcl_stream_safe : forall bs, bytes_ok bs = true ->
  snd (fst (tm_stream bs)) <> TmCrash /\ snd (tm_stream bs) <= tm_stream_bound (nlen bs).
Proof. exact (fun bs Hb => tm_stream_fuel_safe (length bs) bs Hb (le_n _)). Qed.
Print Assumptions C04_tcpcl_stream_safe.

(* it terminates: every message takes at least one byte, so the loop's fuel (the input length) is
   never exhausted - any larger fuel gives the same result (repaired and original code) *)
Theorem C04_tcpcl_terminates : forall fx fuel bs, (length bs <= fuel)%nat ->
  tm_stream_fuel fx fuel bs = tm_stream_fuel fx (length bs) bs.
Proof. exact (fun fx fuel bs H => tm_stream_fuel_any fx fuel (length bs) bs H (le_n _)). Qed.
Print Assumptions C04_tcpcl_terminates.

(* the code before the three repairs violates both clauses *)
Theorem C04_tcpcl_orig_refuted :
  (exists bs, bytes_ok bs = true /\ fst (tm_read_orig bs) = TmPanic)
  /\ (exists bs, bytes_ok bs = true /\ tm_alloc_bound (nlen bs) < snd (tm_read_orig bs)).
Proof. exact tm_orig_refuted. Qed.
Print Assumptions C04_tcpcl_orig_refuted.

Example C04_tcpcl_example_hostile :
  (* XFER_SEGMENT announcing 2^64-1 data bytes, SESS_INIT announcing 2^32-1 extension bytes *)
  tm_read tm_wit_segment_panic = (TmErr, 1024) /\ tm_read tm_wit_init_ext = (TmErr, 0)
  /\ tm_read_orig tm_wit_segment_panic = (TmPanic, 0) /\ tm_read_orig tm_wit_init_ext = (TmErr, 4294967295).
Proof. vm_compute. repeat split; reflexivity. Qed.
