(* C07 (concurrency clause: "also while clients register, unregister or fetch concurrently with arriving
   bundles") for the agent multiplexer.  Model: Model/MuxConc.v - sub-steps at the granularity of mutex and
   channel operations of MuxAgent.handle / Register / unregister / handleChild / Endpoints, AgentManager.Deliver
   and handler, the goroutines of a WebSocket client and of the PingAgent; every channel unbuffered (pinned in
   ConstsOkMuxConc).  All theorems quantify over every interleaving ([mxc_reach] = any sequence of [mxc_step]s
   from the initial state), any number of children, callers, bundles, connection scripts: induction over
   reachability with the invariant [mxc_inv] of Proofs/MuxConcProofs.v - nothing is bounded.  [mxc_real] is
   the code as it is: drain loop of 7ebd25e, Endpoints iterating under the lock, the AgentManager's handler
   working the messages of mux.sender off itself. *)
From DTN Require Import Base MuxConc MuxConcProofs ConstsOkMuxConc.
Open Scope nat_scope.

(* No deadlock - the code as it is (sequential AgentManager.handler).  In every reachable state in which something
   is left to do ([mxc_settled] = false: a caller has an unfinished Endpoints / Deliver, handle holds a message,
   a Register or unregister is under way, a closed sender has not led to the unregistration yet, a reader has
   not processed a close, a connection goroutine has scripted work) some goroutine of the program - not an
   environment fault - can take a step, PROVIDED
   - no child that is still in the multiplexer's children list has stopped reading without disconnecting
     ([mxc_no_stall]: a reader in state MxRstall; a reader that fails / shuts down keeps taking messages
     through the drain loop until the multiplexer closes its receiver and is not "stalled"),
   - no child answers upstream from the goroutine that reads its receiver ([mxc_cfg_no_reply]; true for every
     agent kind of the tree since 56aabd8, see C07_mux_tree_kinds),
   - somebody reads mux.sender ([mxc_cfg_has_up]: the AgentManager's handler exists). *)
Theorem C07_mux_no_deadlock : forall chs cls s,
  mxc_cfg_no_reply chs = true -> mxc_cfg_has_up cls = true ->
  mxc_reach mxc_real (mxc_init chs cls) s ->
  mxc_no_stall s = true -> mxc_settled s = false ->
  exists t s', mxc_is_env t = false /\ mxc_step mxc_real s t = Some s'.
Proof. intros chs cls s Hr Hu R Hst Hns. apply (mxc_no_deadlock_reach mxc_real chs cls s); auto. Qed.
Print Assumptions C07_mux_no_deadlock.

(* The agent kinds of the tree as children of the model (Model/MuxConc.v, with the places in the code):
   WebSocket client, PingAgent (pongs from goroutines of their own), RestAgent (upstream from the HTTP
   goroutines), plain receiving agents - none answers from its reader goroutine. *)
Theorem C07_mux_tree_kinds : forall e1 up e2 pongs e3 built e4,
  mxc_cfg_no_reply [mxc_kind_ws e1 up; mxc_kind_ping e2 pongs; mxc_kind_rest e3 built; mxc_kind_recv e4] = true.
Proof. reflexivity. Qed.
Print Assumptions C07_mux_tree_kinds.

(* The second hypothesis is needed (FINDING, confirmed on the Go code, repaired by 56aabd8): with a child that
   answers from its reader goroutine - the PingAgent as it was - four pings in a row end in a state in which
   handle holds the lock sending ping 4 to the agent, which waits with pong 3 for handleChild, which waits with
   pong 2 for the handler, which is inside SendBundle(pong 1) -> Core.HasEndpoint -> MuxAgent.Endpoints -> Lock.
   No label at all (not even an environment fault) is enabled, nobody is stalled. *)
Theorem C07_mux_deadlock_unfixed_ping :
  exists s, mxc_reach mxc_real (mxc_init [mxc_kind_ping_old 7%N] mxc_w3_cls) s
    /\ mxc_no_stall s = true /\ mxc_has_up s = true /\ mxc_settled s = false
    /\ forall t, mxc_step mxc_real s t = None.
Proof.
  eexists. split; [apply (mxc_run_reach _ mxc_w3_sched _ _ _ (mxc_reach0 _ _)); vm_compute; reflexivity|].
  split; [reflexivity|]. split; [reflexivity|]. split; [reflexivity|].
  apply mxc_stuck_complete. vm_compute. reflexivity.
Qed.
Print Assumptions C07_mux_deadlock_unfixed_ping.

(* Variant `go manager.handleMessage(msg)` in AgentManager.handler (not the code): no hypothesis on the agent
   kinds and on the reader of mux.sender is needed. *)
Theorem C07_mux_no_deadlock_async_handler : forall chs cls s,
  mxc_reach mxc_async (mxc_init chs cls) s ->
  mxc_no_stall s = true -> mxc_settled s = false ->
  exists t s', mxc_is_env t = false /\ mxc_step mxc_async s t = Some s'.
Proof. intros chs cls s R Hst Hns. apply (mxc_no_deadlock_reach mxc_async chs cls s); auto. discriminate. Qed.
Print Assumptions C07_mux_no_deadlock_async_handler.

(* Sharpness of the drain loop (7ebd25e): without it a client that took bundle 1, failed to write it and
   shut down blocks handle - holding the lock - on bundle 2; unregister waits for the lock for ever. *)
Theorem C07_mux_deadlock_without_drain :
  exists s, mxc_reach mxc_w1_cfg (mxc_init mxc_w1_chs mxc_w1_cls) s
    /\ mxc_no_stall s = true /\ mxc_settled s = false /\ forall t, mxc_step mxc_w1_cfg s t = None.
Proof.
  eexists. split; [apply (mxc_run_reach _ mxc_w1_sched _ _ _ (mxc_reach0 _ _)); vm_compute; reflexivity|].
  split; [reflexivity|]. split; [reflexivity|]. apply mxc_stuck_complete. vm_compute. reflexivity.
Qed.
Print Assumptions C07_mux_deadlock_without_drain.

(* MuxAgent.handle never sends on a receiver that unregister has closed. *)
Theorem C07_mux_no_send_on_closed : forall chs cls s,
  mxc_reach mxc_real (mxc_init chs cls) s -> mxs_panic s = false.
Proof. intros chs cls s. exact (mxc_no_panic mxc_real chs cls s eq_refl). Qed.
Print Assumptions C07_mux_no_send_on_closed.

(* Delivery.  Let child c be in the children list with endpoint e in a reachable state s1 (its Register has
   appended it), and still be there and reading (reader goroutine not failed / stalled / shut down) in a
   state s2 reached from s1 by ANY interleaving - other children registering, unregistering, disconnecting,
   setting endpoints, queries, any deliveries.  Then the messages handle took from mux.receiver between s1
   and s2 ([new], in the order of the rendezvous) and what c received are related exactly:
     received(s2) ++ owed(s2) = received(s1) ++ owed(s1) ++ [m in new | destination m = e]
   where owed = the one message handle is working on and has not yet handed to c (empty when handle waits
   at mux.receiver): every such bundle once, unchanged, in order, nothing else. *)
Theorem C07_mux_delivers : forall chs cls s1 s2 c e,
  mxc_reach mxc_real (mxc_init chs cls) s1 -> mxc_reach mxc_real s1 s2 ->
  In c (mxs_children s1) -> mxh_ep (mxc_getc s1 c) = Some e ->
  In c (mxs_children s2) -> mxc_reading (mxc_getc s2 c) = true ->
  exists new, mxs_acc s2 = mxs_acc s1 ++ new
    /\ mxh_log (mxc_getc s2 c) ++ filter (mxc_match (Some e)) (mxc_owed s2 c)
       = mxh_log (mxc_getc s1 c) ++ filter (mxc_match (Some e)) (mxc_owed s1 c) ++ filter (mxc_match (Some e)) new.
Proof.
  intros chs cls s1 s2 c e R1 R2. pose proof (mxc_inv_reached mxc_real chs cls s1 eq_refl R1) as I1.
  rewrite !mxc_owed_hd. exact (mxc_delivers mxc_real s1 s2 c e I1 (mxc_reach_next mxc_real s1 s2 eq_refl I1 R2)).
Qed.
Print Assumptions C07_mux_delivers.

(* Nobody else: whatever any child (registered or not, reading or not) has received was handed to the
   multiplexer and is addressed to the endpoint this child answers to. *)
Theorem C07_mux_only_own : forall chs cls s c m,
  mxc_reach mxc_real (mxc_init chs cls) s -> In m (mxh_log (mxc_getc s c)) ->
  mxh_ep (mxc_getc s c) = Some (mxb_dst m) /\ In m (mxs_acc s).
Proof. intros chs cls s c m R. exact (mxc_only_own mxc_real s c m (mxc_inv_reached mxc_real chs cls s eq_refl R)). Qed.
Print Assumptions C07_mux_only_own.

(* "In the children list" is what lies between the append in Register and the removal in unregister. *)
Theorem C07_mux_registered : forall chs cls s c,
  mxc_reach mxc_real (mxc_init chs cls) s ->
  (In c (mxs_children s) <-> mxc_regd (mxc_getc s c) = true).
Proof. intros chs cls s c R. exact (iv_regd _ _ (mxc_inv_reached mxc_real chs cls s eq_refl R) c). Qed.
Print Assumptions C07_mux_registered.

(* Endpoints() / HasEndpoint / the check in Deliver never miss a child: every answer of every query
   contains the endpoints of all children that were registered (with an endpoint) when the query took the
   lock ([must]; such a child cannot leave before the query's Unlock): HasEndpoint e answers true if e is
   among them, and Deliver reports "no registered agent" only if the destination is not. *)
Theorem C07_mux_endpoints_complete : forall chs cls s i r,
  mxc_reach mxc_real (mxc_init chs cls) s -> In r (mxl_res (mxc_getl s i)) -> mxc_res_ok r.
Proof. intros chs cls s i r R. exact (iv_res _ _ (mxc_inv_reached mxc_real chs cls s eq_refl R) i r). Qed.
Print Assumptions C07_mux_endpoints_complete.

(* Sharpness (seeded defect: Endpoints takes the slice header under the lock and iterates after Unlock while
   unregister removes in place): a query for endpoint 2 answers false although child 1 with endpoint 2 was
   registered when the query started and still is when it ends. *)
Theorem C07_mux_endpoints_nocopy_misses :
  exists s must, mxc_reach mxc_w2_cfg (mxc_init mxc_w2_chs mxc_w2_cls) s
    /\ mxl_res (mxc_getl s 0) = [MxHas 2%N false must] /\ In 2%N must
    /\ In 1 (mxs_children s) /\ mxh_ep (mxc_getc s 1) = Some 2%N.
Proof.
  eexists. exists [1%N; 2%N; 3%N].
  split; [apply (mxc_run_reach _ mxc_w2_sched _ _ _ (mxc_reach0 _ _)); vm_compute; reflexivity|].
  split; [reflexivity|]. split; [cbn; auto|]. split; [cbn; auto|]. reflexivity.
Qed.
Print Assumptions C07_mux_endpoints_nocopy_misses.

(* ---- non-vacuity ---- *)
(* two WebSocket clients for endpoint 5 and one for 6; client 1 disconnects in the middle; two bundles for 5,
   one for 6, a HasEndpoint probe; client 0 sends a bundle upstream *)
Definition c07c_chs : list (option N * bool * list mxc_cop) :=
  [(None, false, [MxSetEp 5%N; MxSend (mk_mxb 9 6 0)]); (Some 5%N, false, []); (Some 6%N, false, [])].
Definition c07c_cls : list (list mxc_op * bool) :=
  [([MxDeliver (mk_mxb 1 5 0); MxDeliver (mk_mxb 2 6 0); MxDeliver (mk_mxb 3 5 0); MxQuery 5%N], false); ([], true)].
Definition c07c_sched : list mxc_tid :=
  mxc_rep 4 (MxTG 0) ++ mxc_rep 4 (MxTG 1) ++ mxc_rep 4 (MxTG 2) ++ [MxTN 0]
  ++ mxc_rep 6 (MxTC 0) ++ mxc_rep 7 MxTH                       (* bundle 1: clients 0 and 1 *)
  ++ [MxTRfail 1; MxTR 1]                                       (* client 1: write error, shutdown *)
  ++ [MxTN 0; MxTK 0]                                           (* client 0 submits a bundle for 6 *)
  ++ mxc_rep 6 (MxTC 0) ++ mxc_rep 6 MxTH                       (* bundle 2: client 2 *)
  ++ mxc_rep 6 (MxTC 1) ++ mxc_rep 6 MxTH                       (* the submitted bundle: client 2 *)
  ++ mxc_rep 6 (MxTC 0) ++ mxc_rep 7 MxTH                       (* bundle 3: client 0, drained by 1 *)
  ++ mxc_rep 5 (MxTK 1) ++ [MxTR 1]                             (* client 1 is unregistered *)
  ++ mxc_rep 4 (MxTC 0).                                        (* HasEndpoint 5 *)
Example C07_conc_example :
  option_map (fun s => (mxc_settled s, mxs_children s,
                        map (fun ch => map mxb_id (mxh_log ch)) (mxs_chs s),
                        map mxl_res (mxs_cls s)))
             (mxc_run mxc_real (mxc_init c07c_chs c07c_cls) c07c_sched)
  = Some (true, [0; 2], [[1; 3]; [1]; [2; 9]]%N,
          [[MxSent (mk_mxb 1 5 0); MxSent (mk_mxb 2 6 0); MxSent (mk_mxb 3 5 0); MxHas 5%N true [5; 6]%N];
           [MxSent (mk_mxb 9 6 0)]]).
Proof. vm_compute. reflexivity. Qed.

(* with the drain loop the schedule of the first witness does not get stuck ... *)
Example C07_conc_example_drain :
  option_map (fun s => mxc_stuck mxc_real s) (mxc_run mxc_real (mxc_init mxc_w1_chs mxc_w1_cls) mxc_w1_sched)
  = Some false.
Proof. vm_compute. reflexivity. Qed.
(* ... and the PingAgent as it is now answers four pings in a row (pongs for an endpoint nobody registered) *)
Definition c07c_pong (k : N) : mxc_bundle := mk_mxb k 100 100.
Example C07_conc_example_pings :
  option_map (fun s => (mxc_settled s, map mxb_id (mxh_log (mxc_getc s 0)), map (@length _) (map mxl_res (mxs_cls s))))
    (mxc_run mxc_real (mxc_init [mxc_kind_ping 7%N [c07c_pong 1; c07c_pong 2; c07c_pong 3; c07c_pong 4]] mxc_w3_cls)
       (mxc_rep 4 (MxTG 0)
        ++ mxc_rep 4 (MxTC 0) ++ mxc_rep 4 MxTH ++ mxc_rep 4 (MxTC 0) ++ mxc_rep 4 MxTH
        ++ mxc_rep 4 (MxTC 0) ++ mxc_rep 4 MxTH ++ mxc_rep 4 (MxTC 0) ++ mxc_rep 4 MxTH
        ++ [MxTN 0; MxTK 0] ++ mxc_rep 3 (MxTC 1) ++ [MxTN 0; MxTK 0] ++ mxc_rep 3 (MxTC 1)
        ++ [MxTN 0; MxTK 0] ++ mxc_rep 3 (MxTC 1) ++ [MxTN 0; MxTK 0] ++ mxc_rep 3 (MxTC 1)))
  = Some (true, [1; 2; 3; 4]%N, [4; 4]).
Proof. vm_compute. reflexivity. Qed.
