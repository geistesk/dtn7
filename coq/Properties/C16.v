(* C16 - the CLA manager reports an adapter active exactly while it is started.

   Model: Model/ClaMgr.v (pkg/cla manager.go + manager_elem.go as repaired by the fix commit
   "cla: a failing start must not count an element's ttl below zero").
   [cm_run cfg tr] is the state after the event / oracle sequence [tr] (any length) over
   {ERegister, EUnregister, ERestart, ETick, EPeerGone, EClose}; the oracle of a step gives the
   outcome {SOk, SFailRetry, SFailNo} of a Start call per adapter.  [cfg_ads] is any list of
   adapters (address, permanent?, role, endpoint ids - addresses may coincide), [cfg_ttl] any
   retry budget >= 0 (the production value 10 is tied by ConstsOkClaMgr.cm_default_ttl_nonneg).
   [st_log] records every Start / Close call made on the adapters, [cm_started log id] is
   "the most recent Start of id succeeded and no Close of id followed". *)
From DTN Require Import Base ClaMgr ClaMgrProofs SpecClaMgr ConstsOkClaMgr.
Open Scope Z_scope.

(* In every reachable state - all event sequences, all oracles, any adapters, any budget >= 0 -
   Sender() lists exactly the started adapters that are senders, Receiver() exactly the started
   receivers; so an adapter is listed iff its last Start succeeded and it was not closed since. *)
Theorem C16_active_iff_started : forall cfg tr id, 0 <= cfg_ttl cfg ->
  let st := cm_run cfg tr in
  (In id (cm_senders cfg st) <-> cm_started (st_log st) id = true /\ cm_is_sender (cm_ad cfg id) = true)
  /\ (In id (cm_receivers cfg st) <-> cm_started (st_log st) id = true /\ cm_is_receiver (cm_ad cfg id) = true)
  /\ (In id (cm_senders cfg st) \/ In id (cm_receivers cfg st) <-> cm_started (st_log st) id = true).
Proof.
  intros cfg tr id Hq st. pose proof (run_inv cfg tr Hq) as HI. fold st in HI.
  unfold cm_senders, cm_receivers. rewrite !role_list_spec, (inv_sync _ _ HI).
  unfold cm_is_sender, cm_is_receiver. destruct (ad_role (cm_ad cfg id)); intuition congruence.
Qed.
Print Assumptions C16_active_iff_started.

(* Retry, permanent adapter: from any reachable state in which it waits (registered, not active),
   every retry pass whose Start fails with retry=true calls Start exactly once and leaves it
   waiting - for any number of passes; a pass whose Start succeeds makes it started. *)
Theorem C16_retry_permanent : forall cfg tr id os, 0 <= cfg_ttl cfg ->
  ad_perm (cm_ad cfg id) = true ->
  let st := cm_run cfg tr in
  cm_waiting st id = true ->
  Forall (fun o => cm_orc o id = SFailRetry) os ->
  let st' := cm_run_from cfg st (cm_ticks os) in
  cm_waiting st' id = true /\ start_count st' id = (start_count st id + length os)%nat.
Proof. intros cfg tr id os Hq Hperm. exact (ticks_perm cfg id os _ Hq Hperm (run_inv cfg tr Hq)). Qed.
Print Assumptions C16_retry_permanent.

Theorem C16_retry_permanent_recovers : forall cfg tr id o, 0 <= cfg_ttl cfg ->
  ad_perm (cm_ad cfg id) = true ->
  let st := cm_run cfg tr in
  cm_waiting st id = true -> cm_orc o id = SOk ->
  cm_started (st_log (cm_step cfg st ETick o)) id = true.
Proof. intros cfg tr id o Hq Hperm. exact (tick_perm_starts cfg id o _ Hq Hperm (run_inv cfg tr Hq)). Qed.
Print Assumptions C16_retry_permanent_recovers.

(* Retry, non-permanent adapter with budget n = cfg_ttl: from any reachable state, over any number
   of consecutive retry passes in which its Start never succeeds, Start is called at most n times,
   and after more than n passes it no longer waits: it is forgotten (absent from the registry)
   unless it is running.  (What the code does exactly: with budget n the Register call and the
   following passes make n failing starts in total, the next pass removes the element without a
   further Start; budget 0 = Register does not even call Start - see the examples.) *)
Theorem C16_retry : forall cfg tr id os, 0 <= cfg_ttl cfg ->
  ad_perm (cm_ad cfg id) = false ->
  let st := cm_run cfg tr in
  Forall (fun o => cm_orc o id <> SOk) os ->
  let st' := cm_run_from cfg st (cm_ticks os) in
  (start_count st' id <= start_count st id + Z.to_nat (cfg_ttl cfg))%nat
  /\ ((Z.to_nat (cfg_ttl cfg) < length os)%nat ->
      cm_waiting st' id = false
      /\ (cm_started (st_log st') id = false -> cm_in_registry st' id = false)).
Proof.
  intros cfg tr id os Hq Hperm st Hall st'. pose proof (run_inv cfg tr Hq) as HI. fold st in HI.
  destruct (ticks_nonperm cfg id Hq Hperm os st HI Hall) as [H1 H2]. fold st' in H1, H2.
  destruct (budget_bound cfg st id HI) as [Hstarts Hpasses].
  split; [lia|]. intros Hlen. apply (passes_left_zero cfg); [apply run_from_inv; auto|lia].
Qed.
Print Assumptions C16_retry.

(* One element per address, at most one started instance per address, and registering (any
   instance of) an address that has a started instance changes nothing and calls nothing. *)
Theorem C16_single_instance : forall cfg tr, 0 <= cfg_ttl cfg ->
  let st := cm_run cfg tr in
  NoDup (map fst (st_reg st))
  /\ (forall id1 id2, cm_started (st_log st) id1 = true -> cm_started (st_log st) id2 = true ->
        ad_addr (cm_ad cfg id1) = ad_addr (cm_ad cfg id2) -> id1 = id2)
  /\ (forall id id' o, cm_started (st_log st) id' = true ->
        ad_addr (cm_ad cfg id') = ad_addr (cm_ad cfg id) ->
        cm_step cfg st (ERegister id) o = st).
Proof.
  intros cfg tr Hq st. pose proof (run_inv cfg tr Hq) as HI. fold st in HI.
  split; [apply (inv_ok _ _ HI)|]. split.
  - intros id1 id2 H1 H2 Haddr. destruct (started_get _ _ _ HI H1) as (e1 & Hg1 & Hi1 & _).
    destruct (started_get _ _ _ HI H2) as (e2 & Hg2 & Hi2 & _). rewrite Haddr in Hg1. congruence.
  - intros id id' o H Haddr. destruct (started_get _ _ _ HI H) as (e & Hg & _ & Ha). rewrite Haddr in Hg.
    now apply (register_active _ _ _ _ e).
Qed.
Print Assumptions C16_single_instance.

(* Closing the manager (first Close) after any history: no panic, and the calls it makes are
   exactly one Close per started adapter, none for the others, no Start; afterwards nothing is
   started or listed. *)
Theorem C16_close_once : forall cfg tr o, 0 <= cfg_ttl cfg -> cm_nclose tr = 0%nat ->
  let st := cm_run cfg tr in
  let st' := cm_step cfg st EClose o in
  st_panic st' = false /\ st_closed st' = true
  /\ (exists cs, st_log st' = st_log st ++ cs
        /\ (forall id, cm_count (cm_is_close_of id) cs = if cm_started (st_log st) id then 1%nat else 0%nat)
        /\ (forall id, cm_count (cm_is_start_of id) cs = 0%nat))
  /\ (forall id, cm_started (st_log st') id = false)
  /\ cm_senders cfg st' = [] /\ cm_receivers cfg st' = [].
Proof.
  intros cfg tr o Hq Hn st st'. destruct (first_close cfg tr o Hq Hn) as (cs & Hst & Hcs). fold st in Hst, Hcs.
  unfold st'. rewrite Hst. cbn [st_panic st_closed st_log]. split; [reflexivity|]. split; [reflexivity|].
  split; [exists cs; split; [reflexivity|split; intros id; apply Hcs]|].
  split; [intros id; apply Hcs|split; reflexivity].
Qed.
Print Assumptions C16_close_once.

(* The panic state (close of a nil / already closed stop channel in deactivate, i.e. stopping an
   adapter that is not running or stopping it twice) is unreachable in every history that calls
   Manager.Close at most once.  (A second Manager.Close panics in Go - close of the closed stopSyn
   channel - and in the model; io.Closer leaves a second Close undefined.) *)
Theorem C16_no_panic : forall cfg tr, 0 <= cfg_ttl cfg -> (cm_nclose tr <= 1)%nat ->
  st_panic (cm_run cfg tr) = false.
Proof. intros cfg tr Hq. apply run_flags, Hq. Qed.
Print Assumptions C16_no_panic.

(* Closing the manager while PeerDisappeared messages are still queued in its handler goroutine:
   whichever of them the handler still takes before the stop flag is set ([pre]: full Restart, any
   Start outcomes), whichever after it ([post]: the Restart's Register returns at once, so only the
   Unregister half happens) and whichever are dropped - i.e. under every schedule of Close()
   against the handler - there is no panic (no adapter is stopped twice or without having been
   started), and afterwards the registry is empty and nothing is started or listed.  That Close()
   also *returns* under these schedules is checked on the implementation (C16clamgrconc), not
   proved: the model has no blocking operations. *)
Theorem C16_close_concurrent : forall cfg tr pre post, 0 <= cfg_ttl cfg -> cm_nclose tr = 0%nat ->
  let st' := cm_conc_close cfg (cm_run cfg tr) pre post in
  st_panic st' = false /\ st_closed st' = true /\ st_reg st' = []
  /\ (forall id, cm_started (st_log st') id = false)
  /\ cm_senders cfg st' = [] /\ cm_receivers cfg st' = [].
Proof.
  intros cfg tr pre post Hq Hn st'.
  set (mid := map (fun p : nat * list cm_outcome => (ERestart (fst p), snd p)) pre
              ++ map (fun id : nat => (EUnregister id, @nil cm_outcome)) post).
  assert (Hn' : cm_nclose (tr ++ mid) = 0%nat).
  { unfold mid. rewrite !nclose_app, Hn, !nclose_map; [reflexivity| |]; discriminate. }
  destruct (first_close cfg (tr ++ mid) [] Hq Hn') as (cs & Hst & Hcs).
  replace st' with (cm_step cfg (cm_run cfg (tr ++ mid)) EClose []).
  - rewrite Hst. cbn [st_panic st_closed st_reg st_log]. repeat split; try reflexivity. intros id. apply Hcs.
  - unfold st', cm_conc_close, cm_conc_trace, cm_run. rewrite app_assoc. fold mid. now rewrite !run_from_app.
Qed.
Print Assumptions C16_close_concurrent.

(* ---------------- non-vacuity ---------------- *)
(* cm_ex_perm: budget 1, one permanent sender+receiver; cm_ex_nonperm n: budget n, one non-permanent
   sender; cm_fr: the oracle "Start fails, retry" (Model/ClaMgr.v) *)

(* the history that made the unrepaired code list a never-started permanent adapter and panic in
   Close: budget 1, Register fails, two retry passes fail, Close *)
Example C16_ex_permanent_failing :
  let st := cm_run cm_ex_perm [(ERegister 0%nat, cm_fr); (ETick, cm_fr); (ETick, cm_fr); (ETick, cm_fr)] in
  cm_senders cm_ex_perm st = [] /\ cm_waiting st 0%nat = true /\ start_count st 0%nat = 4%nat
  /\ st_panic (cm_step cm_ex_perm st EClose []) = false
  /\ st_log (cm_step cm_ex_perm st EClose []) = st_log st.
Proof. vm_compute. repeat split; reflexivity. Qed.

Example C16_ex_permanent_recovers :
  let st := cm_run cm_ex_perm [(ERegister 0%nat, cm_fr); (ETick, cm_fr); (ETick, [SOk])] in
  cm_senders cm_ex_perm st = [0%nat] /\ cm_receivers cm_ex_perm st = [0%nat]
  /\ st_log (cm_step cm_ex_perm st EClose []) = st_log st ++ [CClose 0%nat].
Proof. vm_compute. repeat split; reflexivity. Qed.

(* non-permanent, budget 2: two failing starts (Register + one pass), the third pass forgets it *)
Example C16_ex_budget2 :
  let st := cm_run (cm_ex_nonperm 2) [(ERegister 0%nat, cm_fr); (ETick, cm_fr); (ETick, cm_fr); (ETick, cm_fr)] in
  start_count st 0%nat = 2%nat /\ cm_in_registry st 0%nat = false
  /\ cm_in_registry (cm_run (cm_ex_nonperm 2) [(ERegister 0%nat, cm_fr); (ETick, cm_fr)]) 0%nat = true.
Proof. vm_compute. repeat split; reflexivity. Qed.

(* budget 0: a non-permanent adapter is not even started by Register *)
Example C16_ex_budget0 :
  st_log (cm_run (cm_ex_nonperm 0) [(ERegister 0%nat, [SOk])]) = [].
Proof. vm_compute. reflexivity. Qed.

(* peer loss restarts the adapter; a second instance on the same address is ignored *)
Example C16_ex_peer_gone_and_twice :
  let cfg := mkCfg 3 [mkAd 7%N false RSender 1%N 2%N; mkAd 7%N false RSender 1%N 2%N] in
  let st := cm_run cfg [(ERegister 0%nat, [SOk; SOk]); (ERegister 1%nat, [SOk; SOk]); (EPeerGone 0%nat, [SOk; SOk])] in
  st_log st = [CStart 0%nat SOk; CClose 0%nat; CStart 0%nat SOk] /\ cm_senders cfg st = [0%nat].
Proof. vm_compute. repeat split; reflexivity. Qed.

(* the hypothesis of C16_no_panic is needed: a second Manager.Close panics *)
Example C16_ex_second_close :
  st_panic (cm_run cm_ex_perm [(EClose, []); (EClose, [])]) = true.
Proof. vm_compute. reflexivity. Qed.

(* Close() against two queued peer-loss messages: the first is still handled as a restart, the
   second after the stop flag was set (the adapter is only stopped); nothing is stopped twice *)
Example C16_ex_close_concurrent :
  let cfg := mkCfg 3 [mkAd 7%N false RSender 1%N 2%N; mkAd 8%N true RReceiver 3%N 4%N] in
  let st := cm_run cfg [(ERegister 0%nat, [SOk; SOk]); (ERegister 1%nat, [SOk; SOk])] in
  st_log (cm_conc_close cfg st [(0%nat, [SOk; SOk])] [1%nat])
  = [CStart 0%nat SOk; CStart 1%nat SOk; CClose 0%nat; CStart 0%nat SOk; CClose 1%nat; CClose 0%nat].
Proof. vm_compute. reflexivity. Qed.
