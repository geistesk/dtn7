(* C11 (part: goroutine / channel network of an established TCPCLv4 session) - "... the send call
   returns success only if the receiver obtained the complete transfer ...; this also holds while
   both sides send several bundles concurrently".

   Model: Model/TcpclConc.v - processes = MessageSwitch reader / writer, SessEstablishedStage,
   TransferManager.handle, per Send call its emitting goroutine and its main loop, Client.handle,
   the consumer of Client.Channel(); channels with their capacities ([tcn_conf]; the capacities of
   the code are [tcn_real], tied to the Go literals by ConstsOkTcpclConc); the transport is a FIFO
   of T messages per direction, T = 0 is a rendezvous (net.Pipe).  One step = one channel
   operation; [cf_fix] = commit b52fcd3 present.  Proofs: Proofs/TcpclConcProofs.v (one session
   against the ideal peer), Proofs/TcpclConcPair.v (two sessions back to back).

   "live" process = any but the timers (keepalive tick, the 10 s timeout of Send); a stall is a
   state in which no live process can step.  All four progress / stall theorems are unbounded:
   they hold for every channel capacity >= 1, every transport capacity T, every number of Send
   calls and segments; the witnesses are for the capacities of the code over net.Pipe. *)
From DTN Require Import Base TcpclConc TcpclConcProofs TcpclConcPair ConstsOkTcpclConc.
Open Scope nat_scope.

(* ---- ONE session against the ideal peer ---- *)
(* The peer keeps reading whatever the session writes, acknowledges every segment it reads, and
   writes the messages of [script] - any sequence of segments of any transfers, pipelined, and
   keepalives - at any speed.  The session itself runs [length ns] concurrent Send calls of
   [ns_i] segments each.  With the repair b52fcd3, for all capacities >= 1 and every reachable
   state of a run without Send timeouts: some live process can step, or everything is finished:
   the peer has been sent exactly the acknowledgements owed for what it wrote, every complete
   incoming transfer has been handed up exactly once and in order, every Send has returned success
   after the peer read exactly its segments, and the peer has nothing left to write. *)
Theorem C11_session_receiver_progress : forall cf ns ticks script ps y,
  cf_fix cf = true -> tcn_caps_ok cf ->
  Forall (fun n => 1 <= n) ns -> tcn_script_live script ->
  tcn_erun cf (tcn_sys0 ns ticks script) ps = Some y -> tcn_elive_run ps ->
  (exists p y', tcn_elive p = true /\ tcn_estep cf y p = Some y') \/ tcn_efinal ns script y.
Proof.
  intros cf ns ticks script ps y Fx Cp Hn Hs R Lv.
  pose proof (tcn_erun_inv2 cf ns script ps _ _ R Lv (tcn_inv2_init ns ticks script Hn Hs)) as I.
  destruct (tcn_estuck cf y) eqn:St.
  - right. eapply tcn_stuck_final; eauto.
  - left. apply tcn_estuck_false; assumption.
Qed.
Print Assumptions C11_session_receiver_progress.

(* the capacities of the code satisfy the hypotheses, whatever the transport holds *)
Theorem C11_session_receiver_progress_real : forall T, cf_fix (tcn_real true T) = true /\ tcn_caps_ok (tcn_real true T).
Proof. exact (fun T => conj eq_refl (tcn_caps_real true T)). Qed.
Print Assumptions C11_session_receiver_progress_real.

(* Defect (1), the code WITHOUT b52fcd3 (capacities of the code, net.Pipe): the peer pipelines the
   66 segments of one transfer; the schedule [tcn_burst_run] ends in a state in which no live process
   can step although nothing has been acknowledged to the peer and nothing handed up: the stage
   waits for space in ExchangeMsgIn (32 of 32) while TransferManager.handle waits for space in
   ExchangeMsgOut (32 of 32) with the 33rd acknowledgement. *)
Theorem C11_session_receiver_stalls_without_fix :
  let cf := tcn_real false 0 in
  let ps := fst (tcn_burst_run false 0 66) in
  let y := snd (tcn_burst_run false 0 66) in
  tcn_erun cf (tcn_sys0 [] 0 (tcn_xsegs 0 66)) ps = Some y
  /\ tcn_elive_run ps
  /\ tcn_estuck cf y = true
  /\ filter tcn_is_ack (ev_got (sy_e y)) = [] /\ tcn_up (sy_s y) = []
  /\ length (tcn_acks [] (tcn_xsegs 0 66)) = 66 /\ tcn_ups (tcn_xsegs 0 66) = [0]
  /\ tcn_st (sy_s y) = GUp (CSeg 0 true) /\ tcn_h (sy_s y) = HAckOut (CAck 0 33) None
  /\ length (tcn_xin (sy_s y)) = 32 /\ length (tcn_xout (sy_s y)) = 32.
Proof.
  cbv zeta. split; [vm_compute; reflexivity|].
  split; [apply tcn_elive_runb_ok; vm_compute; reflexivity|].
  vm_compute. repeat split; reflexivity.
Qed.
Print Assumptions C11_session_receiver_stalls_without_fix.

(* Send: for every interleaving of the session's processes with the peer (any capacities, with or
   without the repair, timeouts and keepalive ticks included, the peer may also refuse transfers):
   when Send i has returned success, the peer has read exactly the segments of transfer i - all
   of them, in order, the last one with the END flag. *)
Theorem C11_send_success_sound_conc : forall cf ns ticks script ps y i d,
  Forall (fun n => 1 <= n) ns -> Forall (fun m => tcn_is_ack m = false) script ->
  tcn_erun cf (tcn_sys0 ns ticks script) ps = Some y ->
  nth_error (tcn_snd (sy_s y)) i = Some d -> sd_res d = Some ROk ->
  filter (tcn_is_seg_of i) (ev_got (sy_e y)) = tcn_xsegs i (sd_n d) /\ nth_error ns i = Some (sd_n d).
Proof.
  intros cf ns ticks script ps y i d Hn Hs R Hd Hr.
  pose proof (tcn_erun_inv1 cf ns script ps _ _ R (tcn_inv1_init ns ticks script Hn Hs)) as I.
  exact (tcn_success_view ns script (tcn_sview y) i d I Hd Hr).
Qed.
Print Assumptions C11_send_success_sound_conc.

(* ---- a PAIR of sessions, back to back ---- *)
(* Known finding tcpcl.pair.bulk-both-directions-stalls as a theorem (capacities of the code,
   net.Pipe, b52fcd3 present): with 67 single-segment bundles in flight per side a state is
   reachable in which no live process can step and no Send has returned. *)
Theorem C11_pair_bulk_stall_refuted :
  exists s ps y,
    tcn_prun (tcn_real true 0) (tcn_pair0 (repeat 1 s) (repeat 1 s) 0 0) ps = Some y
    /\ tcn_plive_run ps /\ tcn_pstuck (tcn_real true 0) y = true /\ tcn_pdone y = false
    /\ s + s = tcn_stall_need (tcn_real true 0) /\ s = 67.
Proof.
  destruct (tcn_pair_stall_check_ok _ _ _ _ (eq_trans (proj1 (tcn_both_check _ 67)) (proj1 tcn_both_67)))
    as (y & R & L & S & D).
  exists 67, (fst (tcn_both_run (tcn_real true 0) 67)), y.
  exact (conj R (conj L (conj S (conj D (conj eq_refl eq_refl))))).
Qed.
Print Assumptions C11_pair_bulk_stall_refuted.

(* FINDING: traffic in ONE direction is enough.  A sends 134 single-segment bundles, B sends nothing
   and only acknowledges: a stall is reachable (the acknowledgements fill B's outChan, the
   transport and A's inChan while A's stage keeps choosing ExchangeMsgOut in its select). *)
Theorem C11_pair_one_direction_stall_refuted :
  exists s ps y,
    tcn_prun (tcn_real true 0) (tcn_pair0 (repeat 1 s) [] 0 0) ps = Some y
    /\ tcn_plive_run ps /\ tcn_pstuck (tcn_real true 0) y = true /\ tcn_pdone y = false
    /\ s = tcn_stall_need (tcn_real true 0) /\ s = 134.
Proof.
  destruct (tcn_pair_stall_check_ok _ _ _ _ (eq_trans (proj1 (tcn_one_check _ 67 134)) (proj1 tcn_one_134)))
    as (y & R & L & S & D).
  exists 134, (fst (tcn_one_run (tcn_real true 0) 67 134)), y.
  exact (conj R (conj L (conj S (conj D (conj eq_refl eq_refl))))).
Qed.
Print Assumptions C11_pair_one_direction_stall_refuted.

(* The shape and the price of every stall of the pair (all capacities >= 1, all T, all numbers of
   Sends and segments, runs without timeouts and ticks): if no live process can step and not all
   Sends have returned success, then on both sides the stage is inside messageOut, outChan and
   inChan are full, the writer holds a message, the transport is full and the reader holds a
   message - and the Sends of both sides together have at least
   2 * (inChan + outChan + T + 3) segments emitted but not yet acknowledged to them. *)
Theorem C11_pair_stall_window : forall cf nsa nsb ta tb ps y,
  cf_fix cf = true -> tcn_caps_ok cf ->
  Forall (fun n => 1 <= n) nsa -> Forall (fun n => 1 <= n) nsb ->
  tcn_prun cf (tcn_pair0 nsa nsb ta tb) ps = Some y -> tcn_plive_run ps ->
  tcn_pstuck cf y = true -> tcn_pdone y = false ->
  tcn_jammed cf (pa_a y) (pa_ba y) /\ tcn_jammed cf (pa_b y) (pa_ab y)
  /\ tcn_stall_need cf <= tcn_inflight (pa_a y) + tcn_inflight (pa_b y).
Proof.
  intros cf nsa nsb ta tb ps y Fx Cp Ha Hb R Lv St Nd.
  apply tcn_pair_stall_needs; auto.
  eapply tcn_prun_pinv; eauto. apply tcn_pinv_init; assumption.
Qed.
Print Assumptions C11_pair_stall_window.

(* Traffic in one direction only (B has no Send, it only acknowledges): the pair cannot stall - under
   the hypothesis that excludes exactly the defect, i.e. as long as A has fewer than
   2 * (inChan + outChan + T + 3) segments to send altogether (134 for the code over net.Pipe): in
   every reachable state some live process can step or all Sends have returned success. *)
Theorem C11_pair_progress_one_direction : forall cf nsa ta tb ps y,
  cf_fix cf = true -> tcn_caps_ok cf -> Forall (fun n => 1 <= n) nsa ->
  list_sum nsa < tcn_stall_need cf ->
  tcn_prun cf (tcn_pair0 nsa [] ta tb) ps = Some y -> tcn_plive_run ps ->
  (exists p y', tcn_live (snd p) = true /\ tcn_pstep cf y p = Some y') \/ tcn_pdone y = true.
Proof.
  intros cf nsa ta tb ps y Fx Cp Ha Hsmall R Lv.
  apply (tcn_pair_progress_small cf nsa [] ta tb ps y); auto.
  change (list_sum []) with 0. now rewrite Nat.add_0_r.
Qed.
Print Assumptions C11_pair_progress_one_direction.

(* the same for traffic in both directions *)
Theorem C11_pair_progress_window : forall cf nsa nsb ta tb ps y,
  cf_fix cf = true -> tcn_caps_ok cf ->
  Forall (fun n => 1 <= n) nsa -> Forall (fun n => 1 <= n) nsb ->
  list_sum nsa + list_sum nsb < tcn_stall_need cf ->
  tcn_prun cf (tcn_pair0 nsa nsb ta tb) ps = Some y -> tcn_plive_run ps ->
  (exists p y', tcn_live (snd p) = true /\ tcn_pstep cf y p = Some y') \/ tcn_pdone y = true.
Proof. exact tcn_pair_progress_small. Qed.
Print Assumptions C11_pair_progress_window.

(* ---- the capacities are the ones of the code ---- *)
Theorem C11_conc_capacities : forall fx T,
  tcn_real fx T = mkTcnConf fx 32 32 32 32 32 32 T
  /\ tcn_stall_need (tcn_real fx T) = 2 * (67 + T).
Proof. exact (fun fx T => conj (tcn_real_caps fx T) (tcn_stall_need_real fx T)). Qed.
Print Assumptions C11_conc_capacities.

(* ---- non-vacuity and scaling ---- *)
(* the same burst with the repair runs to the end: 66 acknowledgements at the peer, the bundle handed up *)
Example C11_conc_example_burst_with_fix :
  let y := snd (tcn_burst_run true 0 66) in
  tcn_estuck (tcn_real true 0) y = true
  /\ length (filter tcn_is_ack (ev_got (sy_e y))) = 66 /\ tcn_up (sy_s y) = [0].
Proof. vm_compute. repeat split; reflexivity. Qed.

(* the stalled states, and: one bundle less runs to the end under the same schedules *)
Example C11_conc_example_stall_details :
  let cf := tcn_real true 0 in
  let y2 := snd (tcn_both_run cf 67) in
  let y1 := snd (tcn_one_run cf 67 134) in
  tcn_inflight (pa_a y2) + tcn_inflight (pa_b y2) = 134 /\ tcn_up (pa_a y2) = [] /\ tcn_up (pa_b y2) = []
  /\ tcn_st (pa_a y2) = GOut (CSeg 66 true) /\ tcn_st (pa_b y2) = GOut (CSeg 66 true)
  /\ tcn_inflight (pa_a y1) = 134 /\ length (tcn_up (pa_b y1)) = 67
  /\ tcn_st (pa_a y1) = GOut (CSeg 133 true) /\ tcn_st (pa_b y1) = GOut (CAck 66 1)
  /\ tcn_pair_done_check cf (repeat 1 66) (repeat 1 66) (fst (tcn_both_run cf 66)) = true
  /\ tcn_pair_done_check cf (repeat 1 133) [] (fst (tcn_one_run cf 67 133)) = true.
Proof.
  cbv zeta.
  destruct tcn_both_67 as (_ & A1 & A2 & A3 & A4 & A5), tcn_one_134 as (_ & B1 & B2 & B3 & B4).
  refine (conj A1 (conj A2 (conj A3 (conj A4 (conj A5 (conj B1 (conj B2 (conj B3 (conj B4 _))))))))).
  rewrite (proj2 (tcn_both_check (tcn_real true 0) 66)), (proj2 (tcn_one_check (tcn_real true 0) 67 133)),
          tcn_both_run_f, tcn_one_run_f.
  vm_compute. split; reflexivity.
Qed.

(* scaling: all six channels of capacity 1 over net.Pipe stall from 10 segments on (5 + 5, or 10 in
   one direction) and not with one less under the same schedules; the code over a transport that
   holds 2 messages per direction needs 138 *)
Example C11_conc_example_scaled :
  tcn_stall_need (tcn_scaled true 1 0) = 10
  /\ tcn_pair_stall_check (tcn_scaled true 1 0) (repeat 1 5) (repeat 1 5) (fst (tcn_both_run (tcn_scaled true 1 0) 5)) = true
  /\ tcn_pair_done_check (tcn_scaled true 1 0) (repeat 1 4) (repeat 1 4) (fst (tcn_both_run (tcn_scaled true 1 0) 4)) = true
  /\ tcn_pair_stall_check (tcn_scaled true 1 0) (repeat 1 10) [] (fst (tcn_one_run (tcn_scaled true 1 0) 5 10)) = true
  /\ tcn_pair_done_check (tcn_scaled true 1 0) (repeat 1 9) [] (fst (tcn_one_run (tcn_scaled true 1 0) 5 9)) = true
  /\ tcn_stall_need (tcn_real true 2) = 138
  /\ tcn_pair_stall_check (tcn_real true 2) (repeat 1 69) (repeat 1 69) (fst (tcn_both_run (tcn_real true 2) 69)) = true
  /\ tcn_pair_stall_check (tcn_real true 2) (repeat 1 138) [] (fst (tcn_one_run (tcn_real true 2) 69 138)) = true.
Proof.
  rewrite (proj1 (tcn_both_check (tcn_scaled true 1 0) 5)), (proj2 (tcn_both_check (tcn_scaled true 1 0) 4)),
          (proj1 (tcn_one_check (tcn_scaled true 1 0) 5 10)), (proj2 (tcn_one_check (tcn_scaled true 1 0) 5 9)),
          (proj1 (tcn_both_check (tcn_real true 2) 69)), (proj1 (tcn_one_check (tcn_real true 2) 69 138)),
          !tcn_both_run_f, !tcn_one_run_f.
  vm_compute. repeat split; reflexivity.
Qed.

(* a Send that succeeds in the model: two segments, the peer acknowledges both *)
Example C11_conc_example_send_ok :
  let ps := [ESess (PEmit 0); ESess (PEmit 0); ESess PStOut; ESess PStPut; ESess PWTake; ESess PWWrite; ERead;
             ESess (PEmit 0); ESess (PEmit 0); ESess PStOut; ESess PStPut; ESess PWTake; ESess PWWrite; ERead;
             ESess (PEmit 0); ESess (PSendLen 0);
             EWAck; ESess PRPush; ESess PStIn; ESess PStIn; ESess PH; ESess PH; ESess (PSendAck 0);
             EWAck; ESess PRPush; ESess PStIn; ESess PStIn; ESess PH; ESess PH; ESess (PSendAck 0)] in
  option_map (fun y => (map sd_res (tcn_snd (sy_s y)), ev_got (sy_e y)))
             (tcn_erun (tcn_real true 0) (tcn_sys0 [2] 0 []) ps)
  = Some ([Some ROk], [CSeg 0 false; CSeg 0 true]).
Proof. vm_compute. reflexivity. Qed.
