(* C02 (second sentence, builder clause) - every bundle produced by the builder obeys the rules
   and is accepted by the parser, for all builder call sequences. *)
From DTN Require Import Base Cbor Crc Eid Bundle BundleWf BundleProofs ValidProofs Builder BuilderProofs
  ConstsOkBuilder ConstsOkCodec.
Open Scope N_scope.

(* Whatever any Build call of any call sequence returns - from any builder state, so also after
   earlier Builds, failed Builds and further calls in between - passes CheckValid, hence obeys the
   structural rules (C02_checkvalid_sound). *)
Theorem C02_builder_valid : forall now ops s, Forall (bld_res_valid now) (bld_run now s ops).
Proof. exact bld_run_valid. Qed.
Print Assumptions C02_builder_valid.

Theorem C02_builder_wellformed : forall now s s' b, bld_build now s = (s', Some b) -> WellFormed now b.
Proof. intros now s s' b H. apply check_valid_sound. exact (bld_build_valid now s s' b H). Qed.
Print Assumptions C02_builder_wellformed.

(* With arguments Go's types can hold (64-bit numbers, encodable endpoint IDs and block values) every
   returned bundle moreover serialises, and the parser accepts exactly it from that serialisation. *)
Theorem C02_builder_accepted : forall now ops,
  forallb bld_op_wf ops = true -> 2 + nlen ops < 18446744073709551616 ->
  Forall (bld_res_accepted now) (bld_run now bld_init ops).
Proof. intros now ops Hw Hlen. apply bld_run_accepted; [exact Hw|]. apply bld_inv_init. exact Hlen. Qed.
Print Assumptions C02_builder_accepted.

(* non-vacuity: a builder used further after Build; both results exist, the first is unchanged *)
Definition c02_builder_ops : list bld_op :=
  [ BoSource (Some (Dtn [115;114;99] [])); BoDest (Some (Ipn 1 2)); BoTime 700000000000; BoLifetime (Some 3600000);
    BoHop 64 0; BoAge (Some 7) 0; BoPayload [104;105] 0; BoBuild;
    BoCanon 0 (XGeneric 200 [1;2;3]); BoCrc 1; BoBuild; BoPayload [1] 0; BoBuild ].
Example C02_builder_example_wf :
  forallb bld_op_wf c02_builder_ops = true /\ 2 + nlen c02_builder_ops < 18446744073709551616.
Proof. split; vm_compute; reflexivity. Qed.
Example C02_builder_example_results :
  map (fun r => match r with Some b => Some (map c_num (b_blocks b), p_crc (b_pri b)) | None => None end)
      (bld_run 700000000001 bld_init c02_builder_ops)
  = [ Some ([2; 3; 1], 2); Some ([2; 3; 4; 1], 1); None ].
Proof. vm_compute. reflexivity. Qed.
