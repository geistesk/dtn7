(* C04 - bytes from the network or clients can never crash, hang or balloon the node.
   (Bundle decoder and the TCPCLv4 sending side; the other decoders are added by
   Properties of the auxiliary-format packages.) *)
From DTN Require Import Base ListFacts Cbor CborProofs Crc Eid Bundle BundleWf BundleProofs DecodeInv Alloc C04Bundle
  Tcpcl TcpclProofs ConstsOkCodec ConstsOkTcpcl.
Open Scope N_scope.

(* Every decoder of the model is a total Gallina function: it returns a value or an error for
   every byte string (no partiality, no exception).  Loops run on fuel; the fuel the bundle decoder
   is given (input length + 1) is never the reason for its answer: *)
Theorem C04_bundle_terminates_blocks : forall n bs f1 f2 acc,
  (length bs <= n)%nat -> (length bs < f1)%nat -> (length bs < f2)%nat ->
  dec_blocks f1 bs acc = dec_blocks f2 bs acc.
Proof. intros n bs f1 f2 acc _. apply dec_blocks_fuel. Qed.
Print Assumptions C04_bundle_terminates_blocks.

(* the loops over a map-valued block's declared pair count (up to 2^64) stop at the end of the
   bytes that arrived, whatever count is declared *)
Theorem C04_bundle_terminates_pairs : forall readv,
  (forall bs v r, readv bs = Ok v r -> (length r <= length bs)%nat) ->
  forall n bs f1 f2 cnt acc,
  (length bs <= n)%nat -> (length bs < f1)%nat -> (length bs < f2)%nat ->
  dec_pairs f1 readv cnt acc bs = dec_pairs f2 readv cnt acc bs.
Proof. intros readv Hshort n bs f1 f2 cnt acc _. apply dec_pairs_fuel, Hshort. Qed.
Print Assumptions C04_bundle_terminates_pairs.

(* every successfully decoded canonical block consumed at least one byte: progress *)
Theorem C04_bundle_progress : forall bs c r, dec_cblock bs = Ok c r -> (length r < length bs)%nat.
Proof. exact dec_cblock_shorter. Qed.
Print Assumptions C04_bundle_progress.

(* The only allocation sized by a wire length before the bytes are known to have arrived
   (ReadRawBytes) is at most 1 MiB, and when the read succeeds it is covered by arrived bytes.
   PARTIAL: counts (array / map lengths) never size an allocation in the bundle decoder - that is
   established by reading the code and measured on the implementation (child processes), not
   carried through the whole decoder as an allocation account. *)
Theorem C04_raw_alloc_bounded : forall n, raw_prealloc n <= raw_chunk.
Proof. intros n. unfold raw_prealloc. destruct (n <=? raw_chunk) eqn:E; destruct (max_raw <? n); unfold raw_chunk in *; lia. Qed.
Print Assumptions C04_raw_alloc_bounded.
Theorem C04_raw_alloc_covered : forall n bs d r,
  read_raw n bs = Ok d r -> raw_prealloc n <= nlen d /\ nlen d <= nlen bs.
Proof.
  intros n bs d r H. apply read_raw_inv in H as (-> & <- & _). unfold raw_prealloc, nlen. rewrite app_length.
  destruct (max_raw <? _); [lia|]. destruct (_ <=? raw_chunk); lia.
Qed.
Print Assumptions C04_raw_alloc_covered.

(* Size parameters a peer declares during TCPCLv4 session setup cannot make the sending side panic
   or spin: for every segment MRU below 2^64 and every sender state, NextSegment never panics, every
   segment it returns consumes at least one byte of the stream, its buffer is at most 1 MiB, and
   the sending loop emits at most length-many segments and never ends in a panic. *)
Theorem C04_sender_mru : forall m st,
  m < 2 ^ 64 ->
  next_segment m st <> NsPanic
  /\ (forall s a st', next_segment m st = NsSeg s a st' ->
        1 <= nlen (sg_data s)
        /\ os_stream st = sg_data s ++ os_stream st'
        /\ (length (os_stream st') < length (os_stream st))%nat
        /\ a <= tc_max_segment /\ a <= tc_max_segment + nlen (sg_data s))
  /\ (forall fuel, (length (fst (out_loop next_segment fuel m st)) <= length (os_stream st))%nat
                   /\ snd (out_loop next_segment fuel m st) <> OtPanic).
Proof.
  intros m st _. split; [apply next_segment_no_panic|]. split; [|intros fuel; apply out_loop_bounded].
  intros s a st' H. apply next_segment_seg in H. destruct H as (Hm & Hne & -> & -> & ->).
  split; [apply nlen_pos, firstn_nonempty; [apply seg_size_pos|]; assumption|].
  split; [symmetry; apply firstn_skipn|]. split; [apply out_next_shorter; assumption|lia].
Qed.
Print Assumptions C04_sender_mru.
