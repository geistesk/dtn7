(* C08 - the sbundle store behaves like a durable map and survives restarts and crashes.

   Model: Model/Store.v (index x part files, every operation a list of atomic micro-steps).
   Everywhere below
     dec   : the sbundle parser applied to a part file,
     live  : "the sbundle's own lifetime is not exceeded now" (ParseBundle ends with CheckValid, which
             refuses such a sbundle: its part is stored but Load returns an error),
     valid : the bundles that are pushed (fields consistent with their serialisation),
   and the one hypothesis about them is that the serialisation is a prefix code:
     dec (b_bytes b ++ tail) = view live b      (= Some b when live).
   It is satisfiable ([C08_decoder_hypothesis_satisfiable]). *)
From DTN Require Import Base Store StoreProofs ConstsOkStore.
Open Scope N_scope.

(* ---- 1. refinement: after ANY history the store is the reference map, answers included ---- *)
(* [run] executes the micro-step model (close+reopen = identity on index and files), [spec_run] the
   in-memory reference map; [abs] is what QueryId + Load show.  Holds from every well-formed state,
   in particular from the empty store and from every state a crash leaves behind (theorem 3). *)
Theorem C08_refines_map :
  forall (dec : list N -> option sbundle) (live : sbundle -> bool) (valid : sbundle -> Prop),
    (forall b tail, valid b -> dec (b_bytes b ++ tail) = view live b) ->
    forall ops c, wf c -> Forall (valid_op valid) ops ->
      abs dec (fst (run dec c ops)) = fst (spec_run live (abs dec c) ops)
      /\ snd (run dec c ops) = snd (spec_run live (abs dec c) ops)
      /\ wf (fst (run dec c ops)).
Proof.
  intros dec live valid H ops. induction ops as [|o ops IH]; intros c Hw Hv; cbn [run spec_run]; [cbn; auto|].
  inversion Hv as [|? ? Ho Hops]; subst.
  specialize (IH (apply_op c o) (wf_apply_op c o Hw) Hops). rewrite (abs_apply_op dec live valid H c o Hw Ho) in IH.
  destruct (run dec (apply_op c o) ops) as [c' rs].
  destruct (spec_run live (spec_apply live (abs dec c) o) ops) as [a' rs'].
  cbn [fst snd] in *. destruct IH as (-> & -> & IH). auto.
Qed.
Print Assumptions C08_refines_map.

(* one complete operation: commutes with the abstraction, answers as the reference map *)
Theorem C08_op_commutes :
  forall (dec : list N -> option sbundle) (live : sbundle -> bool) (valid : sbundle -> Prop),
    (forall b tail, valid b -> dec (b_bytes b ++ tail) = view live b) ->
    forall c o, wf c -> valid_op valid o ->
      abs dec (apply_op c o) = spec_apply live (abs dec c) o
      /\ op_result dec c o = spec_result (abs dec c) o
      /\ wf (apply_op c o).
Proof.
  intros dec live valid H c o Hw Hv. split; [exact (abs_apply_op dec live valid H c o Hw Hv)|].
  split; [reflexivity | exact (wf_apply_op c o Hw)].
Qed.
Print Assumptions C08_op_commutes.

Theorem C08_empty_store_wf : wf store_init /\ forall dec, abs dec store_init = [].
Proof. split; [exact wf_init | reflexivity]. Qed.
Print Assumptions C08_empty_store_wf.

(* ---- 2. the reference map is a map with the store's push policy ---- *)
(* lookup returns exactly the records inserted and not since deleted or expired *)
Theorem C08_map_laws : forall live (a : list (N * arec)), NoDup (map fst a) ->
  (forall o, NoDup (map fst (spec_apply live a o)))
  /\ (forall b k, k <> b_id b -> ilookup k (spec_apply live a (OPush b)) = ilookup k a)
  /\ (forall b, ilookup (b_id b) (spec_apply live a (OPush b)) <> None)
  /\ (forall k, ilookup k (spec_apply live a (ODelete k)) = None)
  /\ (forall k k', k <> k' -> ilookup k' (spec_apply live a (ODelete k)) = ilookup k' a)
  /\ (forall now k, ilookup k (spec_apply live a (OSweep now)) =
        match ilookup k a with Some r => if (a_exp r <? now)%Z then None else Some r | None => None end)
  /\ (forall k pe pr ex k', ilookup k' (spec_apply live a (OUpdate k pe pr ex)) =
        if k' =? k then option_map (fun r => mkA pe ex (a_frag r) pr (a_parts r)) (ilookup k a) else ilookup k' a)
  /\ (forall k, spec_apply live a (OQueryId k) = a /\ spec_apply live a OQueryPending = a
                /\ spec_apply live a (OKnows k) = a /\ spec_apply live a (OComplete k) = a /\ spec_apply live a OReopen = a).
Proof.
  intros live a Hn. repeat apply conj.
  - intros o. apply spec_nodup; exact Hn.
  - intros b k Hne. rewrite spec_push_eq. destruct (spec_push_rec _ _ b); [apply il_set_neq; congruence | reflexivity].
  - intros b. rewrite spec_push_eq. destruct (spec_push_rec _ _ b) eqn:E; [rewrite il_set_eq; discriminate|].
    destruct (ilookup (b_id b) a); discriminate.
  - intros k. apply il_del_eq.
  - intros k k'. apply il_del_neq.
  - intros now k. apply spec_sweep_lookup; exact Hn.
  - intros k pe pr ex k'. cbn [spec_apply].
    destruct (N.eqb_spec k' k) as [->|Hne]; destruct (ilookup k a) eqn:El; cbn [option_map]; auto.
    + apply il_set_eq.
    + apply il_set_neq. congruence.
  - intros k. repeat split.
Qed.
Print Assumptions C08_map_laws.

(* the pending query returns exactly the records flagged pending *)
Theorem C08_pending_exact : forall (a : list (N * arec)) k r, NoDup (map fst a) ->
  (In (k, r) (filter (fun kr => a_pending (snd kr)) a) <-> ilookup k a = Some r /\ a_pending r = true).
Proof. intros a k r Hn. rewrite filter_In. cbn [snd]. rewrite (il_In k r a Hn). tauto. Qed.
Print Assumptions C08_pending_exact.

(* every part of every record, after any history from the empty store, is a sbundle that was pushed
   under that ID, filed under its (offset, total), reads back as exactly that sbundle (when its
   lifetime is not over), and each distinct (offset, total) is recorded once; no record is empty *)
Theorem C08_readback_and_fragments_once : forall live ops,
  let a := fst (spec_run live [] ops) in
  NoDup (map fst a)
  /\ forall k r, ilookup k a = Some r ->
       a_parts r <> []
       /\ NoDup (map afrag_key (a_parts r))
       /\ forall p, In p (a_parts r) ->
            exists b, In (OPush b) ops /\ b_id b = k /\ ap_off p = b_off b /\ ap_total p = b_total b
                      /\ ap_data p = view live b /\ b_frag b = a_frag r.
Proof.
  intros live ops a.
  destruct (spec_inv_run live (fun b => In (OPush b) ops) ops []) as [H1 H2].
  - apply Forall_forall. intros [] Ho; cbn; auto.
  - constructor.
  - intros k r [].
  - split; [exact H2|]. intros k r Hl. apply il_Some_in in Hl. exact (H1 k r Hl).
Qed.
Print Assumptions C08_readback_and_fragments_once.

(* fragments of one sbundle are collected in the one record of its ID: a pushed fragment is there *)
Theorem C08_fragment_recorded : forall live a b,
  exists r, ilookup (b_id b) (spec_apply live a (OPush b)) = Some r
    /\ (b_frag b = true -> a_frag r = true -> existsb (same_afrag b) (a_parts r) = true).
Proof. exact spec_push_fragment_recorded. Qed.
Print Assumptions C08_fragment_recorded.

(* IsComplete: true for an unfragmented record; for a fragmented one whose parts all read back as
   fragments of one sbundle (same total, inside it): true exactly when every position below the total
   lies in some part; false when a part does not read back *)
Theorem C08_complete_iff_cover : forall r bs t,
  a_frag r = true -> all_data (a_parts r) = Some bs -> bs <> [] -> Forall (frag_of t) bs ->
  (arec_complete r = true <-> forall x, x < t -> covered bs x).
Proof.
  intros r bs t Hf Hd Hne Hfo. unfold arec_complete. rewrite Hf, Hd. cbn [negb]. apply reassemblable_iff_cover; auto.
Qed.
Print Assumptions C08_complete_iff_cover.
Theorem C08_complete_other_cases : forall r,
  (a_frag r = false -> arec_complete r = true)
  /\ (a_frag r = true -> all_data (a_parts r) = None -> arec_complete r = false).
Proof. intros r. unfold arec_complete. split; [intros -> | intros -> ->]; reflexivity. Qed.
Print Assumptions C08_complete_other_cases.

(* ---- 3. crash safety: the process is killed after ANY prefix of an operation's micro-steps ---- *)
(* the state found at restart is a well-formed store (so theorem 1 applies to everything that
   happens afterwards), checkPendingBundles does not reach the panic in BundleDescriptor.Bundle, and
   either nothing observable changed, or the operation is complete, or - delete / expiry sweep only -
   some part files of the records operated on are gone and some of those records are deleted *)
Theorem C08_crash_safe : forall dec c o n, wf c ->
  let c' := crash_state c o n in
  wf c' /\ check_pending_outcome dec c' = Finished
  /\ (abs dec c' = abs dec c \/ c' = apply_op c o \/ (is_removal o /\ crash_rel (op_targets c o) c c')).
Proof.
  intros dec c o n Hw c'. pose proof (wf_crash_state c o n Hw : wf c') as Hw'.
  split; [exact Hw'|]. split; [exact (no_panic_wf dec c' Hw')|].
  destruct o as [b|k pe pr ex|k|now|k| |k|k|];
    try (left; unfold c'; now rewrite crash_no_steps).  (* the queries and Reopen issue no steps *)
  - destruct (crash_push dec c b n Hw); auto.
  - unfold c'. destruct (crash_update c k pe pr ex n) as [-> | ->]; auto.
  - right; right. split; [exact I | exact (crash_removal c (ODelete k) n Hw I)].
  - right; right. split; [exact I | exact (crash_removal c (OSweep now) n Hw I)].
Qed.
Print Assumptions C08_crash_safe.

(* ... which a reader sees as: every record not operated on is unchanged and reads back as before; a
   record operated on is gone or still indexed with its metadata, each part reading back as before
   or not at all *)
Theorem C08_crash_observable : forall dec T c c', wf c -> crash_rel T c c' ->
  (forall k, ~ T k -> ilookup k (abs dec c') = ilookup k (abs dec c))
  /\ (forall k r', ilookup k (abs dec c') = Some r' -> exists r, ilookup k (abs dec c) = Some r /\ degraded_rec r' r).
Proof. exact crash_rel_observable. Qed.
Print Assumptions C08_crash_observable.

(* after the restart every further operation (Push of the same sbundle, Delete, DeleteExpired, ...)
   behaves as on the reference map started from what the reader sees, never reaches the panic, and
   Delete / an expiry sweep remove a half-deleted record *)
Theorem C08_crash_recovery :
  forall (dec : list N -> option sbundle) (live : sbundle -> bool) (valid : sbundle -> Prop),
    (forall b tail, valid b -> dec (b_bytes b ++ tail) = view live b) ->
    forall c o n, wf c ->
      let c' := crash_state c o n in
      (forall o', valid_op valid o' ->
         abs dec (apply_op c' o') = spec_apply live (abs dec c') o'
         /\ wf (apply_op c' o')
         /\ check_pending_outcome dec (apply_op c' o') = Finished)
      /\ (forall k, ilookup k (abs dec (apply_op c' (ODelete k))) = None)
      /\ (forall now k, ilookup k (abs dec (apply_op c' (OSweep now))) =
             match ilookup k (abs dec c') with Some r => if (a_exp r <? now)%Z then None else Some r | None => None end).
Proof.
  intros dec live valid H c o n Hw c'. pose proof (wf_crash_state c o n Hw : wf c') as Hw'. split; [|split].
  - intros o' Hv. pose proof (wf_apply_op c' o' Hw') as Hw''.
    split; [exact (abs_apply_op dec live valid H c' o' Hw' Hv)|]. split; [exact Hw'' | exact (no_panic_wf dec _ Hw'')].
  - intros k. rewrite (abs_apply_op dec live valid H c' (ODelete k) Hw' I). apply il_del_eq.
  - intros now k. rewrite (abs_apply_op dec live valid H c' (OSweep now) Hw' I). apply spec_sweep_lookup.
    rewrite abs_keys. apply Hw'.
Qed.
Print Assumptions C08_crash_recovery.

(* ---- 4. two concurrent pushes of fragments of one sbundle, under the store mutex ---- *)
(* for EVERY schedule of the micro-steps of the two Push calls that lets both finish, both parts are
   recorded, the result is one of the two sequential orders, other records are untouched *)
Theorem C08_concurrent_fragments : forall c0 ba bb sched,
  b_id ba = b_id bb -> b_frag ba = true -> b_frag bb = true -> frag_slot_ok c0 ba ->
  let cf := run_sched true ba bb (mkConf c0 TInit TInit) sched in
  cf_a cf = TDone -> cf_b cf = TDone ->
  has_part (cf_st cf) ba = true /\ has_part (cf_st cf) bb = true
  /\ (cf_st cf = push (push c0 ba) bb \/ cf_st cf = push (push c0 bb) ba)
  /\ (forall k, k <> b_id ba -> ilookup k (c_idx (cf_st cf)) = ilookup k (c_idx c0)).
Proof.
  intros c0 ba bb sched E Ha Hb Hs cf Da Db.
  assert (Hs' : frag_slot_ok c0 bb) by (unfold frag_slot_ok in *; rewrite <- E; exact Hs).
  destruct (locked_serial c0 ba bb sched Da Db) as [H|H]; fold cf in H; rewrite H.
  - destruct (push_both c0 ba bb E Ha Hb Hs) as (P1 & P2 & P3). auto.
  - destruct (push_both c0 bb ba (eq_sym E) Hb Ha Hs') as (P1 & P2 & P3). rewrite E. auto.
Qed.
Print Assumptions C08_concurrent_fragments.

(* the code before the repair (Push without the mutex): a schedule that loses a fragment *)
Theorem C08_concurrent_fragments_unlocked_refuted :
  exists c0 ba bb sched,
    b_id ba = b_id bb /\ b_frag ba = true /\ b_frag bb = true /\ frag_slot_ok c0 ba /\
    let cf := run_sched false ba bb (mkConf c0 TInit TInit) sched in
    cf_a cf = TDone /\ cf_b cf = TDone /\ has_part (cf_st cf) bb = false.
Proof.
  exists store_init, (toy_frag 0 5), (toy_frag 5 5), [true; false; true; true; true; false; false; false].
  destruct unlocked_loses_fragment as (Da & Db & _ & Hb).
  split; [reflexivity|]. split; [reflexivity|]. split; [reflexivity|]. split; [exact I|]. exact (conj Da (conj Db Hb)).
Qed.
Print Assumptions C08_concurrent_fragments_unlocked_refuted.

(* the gap scan before the repair (lastIndex = offset + length instead of the maximum) reports a
   covering set as incomplete *)
Theorem C08_complete_orig_scan_refuted :
  exists bs, Forall (frag_of 10) bs /\ (forall x, x < 10 -> covered bs x) /\ reassemblable_orig bs = false.
Proof.
  exists [toy_frag 0 8; toy_frag 2 2; toy_frag 8 2].
  destruct complete_orig_refuted as (H1 & H2 & H3). split; [exact H3|]. split; [|exact H1].
  assert (Hne : [toy_frag 0 8; toy_frag 2 2; toy_frag 8 2] <> []) by discriminate.
  apply (proj1 (reassemblable_iff_cover _ 10 Hne H3)). exact H2.
Qed.
Print Assumptions C08_complete_orig_scan_refuted.

(* ---- non-vacuity ---- *)
Theorem C08_decoder_hypothesis_satisfiable :
  exists (dec : list N -> option sbundle) (live : sbundle -> bool) (valid : sbundle -> Prop),
    (forall b tail, valid b -> dec (b_bytes b ++ tail) = view live b)
                         /\ exists b : sbundle, valid b /\ live b = true.
Proof.
  exists toy_dec, (fun _ => true), toy_valid. split; [exact toy_dec_ok|].
  exists (mkB 1 false 0 0 3 7000 [1; 0; 0; 0; 3; 7000]). split; [split; [reflexivity | discriminate] | reflexivity].
Qed.
Print Assumptions C08_decoder_hypothesis_satisfiable.

(* a rewrite over a longer orphan file keeps a stale tail and still reads back exactly *)
Example C08_stale_tail_example :
  let b := mkB 1 false 0 0 3 7000 [1; 0; 0; 0; 3; 7000] in
  let c0 := mkC [] [(bundle_name b, [1; 0; 0; 0; 9; 7000; 42; 42; 42])] in
  let c1 := apply_op c0 (OPush b) in
  flookup (bundle_name b) (c_files c1) = Some [1; 0; 0; 0; 3; 7000; 42; 42; 42]
  /\ abs toy_dec c1 = [(1, mkA false 7000 false 0 [mkAP 0 0 (Some b)])].
Proof. exact stale_tail_example. Qed.

(* killed inside Delete after the file removal: the entry is still indexed and pending, its part does
   not load; Bundle() is an error value, checkPendingBundles finishes (a MustBundle there would
   panic), the expiry sweep removes the entry *)
Example C08_crash_delete_example :
  let b := mkB 1 false 0 0 3 7000 [1; 0; 0; 0; 3; 7000] in
  let c0 := apply_op (apply_op store_init (OPush b)) (OUpdate 1 true 5 7000) in
  let c1 := crash_state c0 (ODelete 1) 1 in
  abs toy_dec c1 = [(1, mkA true 7000 false 5 [mkAP 0 0 None])]
  /\ descriptor_bundle toy_dec c1 1 = BErr
  /\ check_pending_outcome toy_dec c1 = Finished
  /\ must_bundle_outcome toy_dec c1 1 = Panicked
  /\ abs toy_dec (apply_op c1 (OSweep 8000)) = [].
Proof. exact crash_delete_example. Qed.

(* fragments pushed in any order end up in one record, which is complete exactly at the end *)
Example C08_fragments_example :
  let f1 := mkB 1 true 0 10 4 7000 [1; 1; 0; 10; 4; 7000] in
  let f2 := mkB 1 true 4 10 6 7000 [1; 1; 4; 10; 6; 7000] in
  snd (run toy_dec store_init [OPush f2; OComplete 1; OPush f1; OPush f2; OComplete 1; OKnows 1; OQueryPending])
  = [RUnit true; ROptBool (Some false); RUnit true; RUnit true; ROptBool (Some true); RBool true; RRecs []].
Proof. vm_compute. reflexivity. Qed.
