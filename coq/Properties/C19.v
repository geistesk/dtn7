(* C19 - PRoPHET predictabilities stay probabilities and gate forwarding.

   Model: Model/Prophet.v over Flocq binary64, round-to-nearest-even, the evaluation order of
   pkg/routing/algorithm_prophet.go (repaired code: sendMetadata copies the map under the read
   lock, SenderForBundle reads under the read lock).
     fin01 x      :=  is_finite x = true /\ 0 <= B2R x <= 1        (a finite double of [0,1])
     conf_ok c    :=  fin01 PInit /\ fin01 Beta /\ fin01 Gamma
     event_ok e   :=  every value of a received vector is fin01     (PImport), True otherwise
   The theorems on real numbers rest on Flocq's Bplus/Bminus/Bmult/Bcompare correctness theorems
   and hence on the four standard-library axioms of Coq's classical real numbers. *)
From Coq Require Import ZArith NArith List Bool Reals.
From Flocq Require Import Core BinarySingleNaN Binary Bits.
From DTN Require Import Base Prophet ProphetProofs ConstsOkProphet.
Import ListNotations.
Open Scope R_scope.

(* Every delivery predictability the node holds - its own ones (also as read with Go's
   missing-key-is-0 rule) and the stored vectors of its peers - is a finite number of [0,1]
   after ANY sequence of encounters, ageing ticks and vector imports (any length, any map
   iteration order of the transitive update, vectors may mention the sender itself). *)
Theorem C19_range : forall (c : pconf) (es : list pevent),
  fin01 (pc_pinit c) /\ fin01 (pc_beta c) /\ fin01 (pc_gamma c) ->
  Forall event_ok es ->
  let s := prophet_run c prophet_init es in
  (forall k, is_finite 53 1024 (pm_get (ps_own s) k) = true /\ 0 <= B2R 53 1024 (pm_get (ps_own s) k) <= 1)
  /\ (forall k x, In (k, x) (ps_own s) -> is_finite 53 1024 x = true /\ 0 <= B2R 53 1024 x <= 1)
  /\ (forall p v k x, In (p, v) (ps_peers s) -> In (k, x) v ->
        is_finite 53 1024 x = true /\ 0 <= B2R 53 1024 x <= 1).
Proof.
  intros c es Hc He s. destruct (reach_ok c es Hc He) as [Ho Hp]. fold s in Ho, Hp.
  split; [|split].
  - intros k. apply pm_get_ok. exact Ho.
  - intros k x. apply pm_ok_in. exact Ho.
  - intros p v k x H1. apply pm_ok_in. exact (proj1 (Forall_forall _ _) Hp (p, v) H1).
Qed.
Print Assumptions C19_range.
Goal True. idtac "". exact I. Qed. (* prints an empty line: keeps the assumption blocks apart in the log *)

(* In every reachable state and for every key: an encounter and a vector import (transitive
   update) never lower a predictability, ageing never raises one. *)
Theorem C19_monotone : forall (c : pconf) (es : list pevent) (e : pevent),
  fin01 (pc_pinit c) /\ fin01 (pc_beta c) /\ fin01 (pc_gamma c) ->
  Forall event_ok es -> event_ok e ->
  let s := prophet_run c prophet_init es in
  forall k,
  match e with
  | PEncounter _ | PImport _ _ =>
      B2R 53 1024 (pm_get (ps_own s) k) <= B2R 53 1024 (pm_get (ps_own (prophet_step c s e)) k)
  | PAge =>
      B2R 53 1024 (pm_get (ps_own (prophet_step c s e)) k) <= B2R 53 1024 (pm_get (ps_own s) k)
  end.
Proof.
  intros c es e Hc Hes He s k. destruct (step_spec c s e Hc (reach_ok c es Hc Hes) He) as [_ H].
  destruct e; apply H.
Qed.
Print Assumptions C19_monotone.
Goal True. idtac "". exact I. Qed. (* prints an empty line: keeps the assumption blocks apart in the log *)

(* Forwarding gate, for EVERY state (no range assumption, NaNs included): whoever is offered a
   data bundle is a registered sender and is either the destination node itself (the Core's
   direct delivery) or passed Go's [peerPred > ownPred] test, which is false on ties and on
   unordered values; missing entries read as +0. *)
Theorem C19_gate : forall (s : pstate) (dest : N) (sent css : list N) (p : N),
  In p (prophet_offer s dest sent css) ->
  In p css /\ (p = dest \/ b64_compare (peer_pred s p dest) (pm_get (ps_own s) dest) = Some Gt).
Proof.
  intros s dest sent css p H. destruct (offer_gate s dest sent css p H) as [H1 [H2 | H2]].
  - split; [exact H1 | left; exact H2].
  - split; [exact H1 | right]. unfold pf_gt in H2.
    destruct (b64_compare (peer_pred s p dest) (pm_get (ps_own s) dest)) as [[| |]|]; try discriminate H2; reflexivity.
Qed.
Print Assumptions C19_gate.
Goal True. idtac "". exact I. Qed. (* prints an empty line: keeps the assumption blocks apart in the log *)

(* ... and in every reachable state that is a strict inequality of real numbers. *)
Theorem C19_gate_real : forall (c : pconf) (es : list pevent) (dest : N) (sent css : list N) (p : N),
  fin01 (pc_pinit c) /\ fin01 (pc_beta c) /\ fin01 (pc_gamma c) ->
  Forall event_ok es ->
  let s := prophet_run c prophet_init es in
  In p (prophet_offer s dest sent css) ->
  p = dest \/ B2R 53 1024 (pm_get (ps_own s) dest) < B2R 53 1024 (peer_pred s p dest).
Proof. intros c es dest sent css p Hc He s. apply offer_gate_real. apply reach_ok; assumption. Qed.
Print Assumptions C19_gate_real.
Goal True. idtac "". exact I. Qed. (* prints an empty line: keeps the assumption blocks apart in the log *)

(* A peer that never advertised a vector gets a data bundle only as the destination itself. *)
Theorem C19_gate_unknown_peer : forall (c : pconf) (es : list pevent) (dest : N) (sent css : list N) (p : N),
  fin01 (pc_pinit c) /\ fin01 (pc_beta c) /\ fin01 (pc_gamma c) ->
  Forall event_ok es ->
  let s := prophet_run c prophet_init es in
  pm_find (ps_peers s) p = None ->
  In p (prophet_offer s dest sent css) -> p = dest.
Proof. intros c es dest sent css p Hc He s. apply offer_unknown_peer. apply reach_ok; assumption. Qed.
Print Assumptions C19_gate_unknown_peer.
Goal True. idtac "". exact I. Qed. (* prints an empty line: keeps the assumption blocks apart in the log *)

(* Any number of concurrent operations {ageing cron, peer appeared (encounter + sendMetadata with
   marshalling of the block), vector import, SenderForBundle}, any sizes, under EVERY schedule of
   their atomic map / lock actions: no write to a map object happens while another goroutine is
   inside an iteration or lookup of the same object (the condition of Go's fatal "concurrent map
   iteration and map write" / "concurrent map read and map write"). *)
Theorem C19_no_concurrent_map_fault : forall (ops : list mop) (sched : list nat),
  mrun (mthreads true ops) sched = false.
Proof. intros ops sched. apply mrun_inv, threads_ginv. Qed.
Print Assumptions C19_no_concurrent_map_fault.
Goal True. idtac "". exact I. Qed. (* prints an empty line: keeps the assumption blocks apart in the log *)

(* ---- non-vacuity ---- *)
Definition ex_conf : pconf :=
  {| pc_pinit := pf_of_bits 4604930618986332160 (* 0.75 *);
     pc_beta := pf_of_bits 4598175219545276416 (* 0.25 *);
     pc_gamma := pf_of_bits 4607002274814922588 (* 0.98 *) |}.

(* three encounters from 0 with PInit = 0.75: the same 64 bits as Go computes (0.984375) *)
Example C19_ex_encounter_bits :
  pf_bits (pm_get (ps_own (prophet_run ex_conf prophet_init [PEncounter 1; PEncounter 1; PEncounter 1])) 1)
  = 4607041681311662080%N.
Proof. vm_compute. reflexivity. Qed.

(* a run with all three kinds of events, the vector mentions the sender itself *)
Example C19_ex_run :
  let s := prophet_run ex_conf prophet_init
             [PEncounter 1; PImport 1 [(2%N, pf_of_bits 4602678819172646912); (1%N, pf_one)]; PAge] in
  map (fun kv => (fst kv, pf_bits (snd kv))) (ps_own s)
  = [(1%N, 4605209279213275709%N); (2%N, 4591284712115399557%N)].
Proof. vm_compute. reflexivity. Qed.

(* gate: strictly higher is offered, a tie and an unknown peer are not, the destination itself is *)
Example C19_ex_gate :
  let half := pf_of_bits 4602678819172646912 in
  let s := {| ps_own := [(9%N, half)];
              ps_peers := [(1%N, [(9%N, half)]); (2%N, [(9%N, pf_of_bits 4602678819172646913)])] |} in
  prophet_offer s 9 [] [1; 2; 3]%N = [2%N] /\ prophet_offer s 3 [] [1; 2; 3]%N = [3%N].
Proof. vm_compute. split; reflexivity. Qed.

(* the code as found (block aliases the live map, marshalled after RUnlock) does fault:
   thread 0 = peer appeared, reaches the marshalling loop; thread 1 = ageing cron writes *)
Example C19_ex_unrepaired_faults :
  mrun (mthreads false [OpPeerAppeared 1; OpAge 1]) [0; 0; 0; 0; 0; 0; 1; 1; 1]%nat = true.
Proof. vm_compute. reflexivity. Qed.

(* a look-up in peerPredictabilities placed before the Lock of the metadata path (what a "do not log
   under the lock" refactoring of NotifyNewBundle produces) faults against another goroutine's
   import: thread 0 is inside its look-up when thread 1 stores its peer's vector *)
Example C19_ex_unlocked_lookup_faults :
  mrun [ {| mt_prog := [ABegin OPeers; AEnd OPeers; ALock; AWrite OPeers; AUnlock]; mt_held := HNone; mt_span := None |};
         {| mt_prog := mop_prog true 1 (OpImport 1); mt_held := HNone; mt_span := None |} ]
       [0; 1; 1; 1; 1]%nat = true
  /\ mrun (mthreads true [OpImport 1; OpImport 1; OpSenderFor]) [0; 1; 2; 0; 2; 1; 0; 2; 0; 1; 0; 0; 2; 0; 1; 1; 1; 1; 1; 1; 1]%nat = false.
Proof. vm_compute. split; reflexivity. Qed.

(* the repaired code under the same schedule continued round-robin: no fault, and every
   operation runs to completion (the absence of faults is not an absence of progress) *)
Example C19_ex_repaired_completes :
  match mexec (mthreads true [OpPeerAppeared 1; OpAge 1])
              ([0; 0; 0; 0; 0; 0; 1; 1; 1] ++ concat (repeat [0; 1] 12))%nat with
  | Some ts => mall_done ts = true
  | None => False
  end.
Proof. vm_compute. reflexivity. Qed.
