(* C07 - local delivery reaches exactly the registered recipients, once, and nobody else.
   Model: Model/Agents.v (the code after the three fix: commits). *)
From Coq Require Import Permutation.
From DTN Require Import Base Agents AgentsProofs ConstsOkAgents.
Open Scope N_scope.

(* For every configuration reached by any history of agent registrations, REST register /
   unregister / fetch, WebSocket connect / disconnect and bundle arrivals (any number of agents
   and clients, any registration order, every sync.Map iteration order in every earlier step),
   and for every iteration order [orc] in this step: when bundle b arrives,
   - if the copy is accepted, every recipient r (agent, REST client = mailbox put, WebSocket
     client) registered for exactly b's destination is handed b - the unchanged b, once -
     and every other recipient is handed nothing;
   - a copy whose ID is in the store is handed to nobody;
   - if anybody is registered for the destination, nothing is given to a peer. *)
Theorem C07_exact : forall node peers (h : list ag_event) s outs,
  ag_run (ag_init node peers) h = Some (s, outs) ->
  forall (b : abundle) (orc : ag_oracle),
    ag_step s (AEDeliver b orc) = Some (ag_deliver orc s b)
    /\ (existsb (N.eqb (ab_id b)) (ast_known s) = false ->
        forall r, ag_hands_to r (snd (ag_deliver orc s b))
                  = if ag_registered (ast_ch s) r (ab_dst b) then [b] else [])
    /\ (existsb (N.eqb (ab_id b)) (ast_known s) = true -> snd (ag_deliver orc s b) = [AODup b])
    /\ ((exists r, ag_registered (ast_ch s) r (ab_dst b) = true) ->
        filter ag_is_sent (snd (ag_deliver orc s b)) = []).
Proof.
  intros node peers h s outs RN b orc. destruct (ag_inv_history _ _ _ _ _ RN) as (WF & _).
  split; [reflexivity|]. split; [|split].
  - intros HK r. now apply deliver_exact.
  - intros HK. now rewrite deliver_eq, HK.
  - intros [r R]. exact (deliver_no_sent orc s b r WF R).
Qed.
Print Assumptions C07_exact.

(* A REST client's fetches together return every bundle put into its mailbox exactly once, in
   order: over every history, what was put = what the fetches returned (and what /unregister
   discarded) followed by what is still in the mailbox. *)
Theorem C07_fetch_exactly_once : forall node peers h s outs a u,
  ag_run (ag_init node peers) h = Some (s, outs) ->
  ag_hands_to (RRest a u) outs = ag_consumed a u outs ++ ag_mailbox (ast_ch s) a u.
Proof. intros node peers h s outs a u RN. destruct (ag_inv_history _ _ _ _ _ RN) as (_ & MB & _). apply MB. Qed.
Print Assumptions C07_fetch_exactly_once.

(* Any number of concurrent deliveries and fetches on one mailbox entry, every interleaving of
   their sub-steps (Lock, Load, Store/Delete, Unlock; a thread chosen while the mutex is taken
   waits): at every moment what was stored = what fetches returned ++ what is in the mailbox;
   the stored bundles are those of the deliveries past their Store; when all threads are done
   they are exactly the delivered bundles. *)
Theorem C07_mailbox_linearizable : forall (ops : list mbx_op) (sched : list nat),
  let s := mbx_run true sched (mbx_init ops) in
  mbx_put s = mbx_got s ++ mbx_contents (mbx_box s)
  /\ Permutation (mbx_put s) (mbx_stored (mbx_thr s))
  /\ (mbx_all_done s = true -> Permutation (mbx_put s) (mbx_delivered ops)).
Proof. intros ops sched s. split; [apply mailbox_inv_run | apply (stored_run true)]. Qed.
Print Assumptions C07_mailbox_linearizable.

(* Without the mutex (the code before the fix) the same statement is false: there is an
   interleaving of one fetch with a delivery that loses the delivered bundle ... *)
Theorem C07_mailbox_unlocked_refuted :
  exists ops sched,
    let s := mbx_run false sched (mbx_init ops) in
    mbx_all_done s = true /\ mbx_put s <> mbx_got s ++ mbx_contents (mbx_box s)
    /\ exists b, In b (mbx_put s) /\ ~ In b (mbx_got s ++ mbx_contents (mbx_box s)).
Proof. exact unlocked_refuted. Qed.
Print Assumptions C07_mailbox_unlocked_refuted.

(* ... and one that returns a bundle twice. *)
Theorem C07_mailbox_unlocked_refuted_twice :
  exists ops sched,
    let s := mbx_run false sched (mbx_init ops) in
    mbx_all_done s = true
    /\ exists b, occ b (mbx_put s) = 1%nat /\ occ b (mbx_got s ++ mbx_contents (mbx_box s)) = 2%nat.
Proof.
  exists [MDeliver (wb 0); MDeliver (wb 1); MFetch; MFetch], [0;0;0;0; 1;1; 2;2;2;2; 1;1; 3;3;3;3]%nat.
  destruct unlocked_twice as [D [P G]]. cbn zeta in *. rewrite P, G. split; [exact D|].
  exists (wb 0). split; vm_compute; reflexivity.
Qed.
Print Assumptions C07_mailbox_unlocked_refuted_twice.

(* A "delivered" report or the release of the LocalEndpoint constraint of bundle b occurs in a
   trace only after a hand-over of b ... *)
Theorem C07_report_iff_handover : forall node peers h s outs,
  ag_run (ag_init node peers) h = Some (s, outs) ->
  forall pre x post b, outs = pre ++ x :: post -> (x = AOReport b \/ x = AORelease b) ->
  exists r, In (AOHand r b) pre.
Proof. intros node peers h s outs RN. destruct (ag_inv_history _ _ _ _ _ RN) as (_ & _ & AK). exact AK. Qed.
Print Assumptions C07_report_iff_handover.

(* ... in the same step, to a recipient registered for b's destination. *)
Theorem C07_report_iff_handover_step : forall node peers h s outs,
  ag_run (ag_init node peers) h = Some (s, outs) ->
  forall orc b b' pre x post,
    snd (ag_deliver orc s b) = pre ++ x :: post -> (x = AOReport b' \/ x = AORelease b') ->
    b' = b /\ exists r, ag_registered (ast_ch s) r (ab_dst b) = true /\ In (AOHand r b) pre.
Proof. intros node peers h s outs RN orc b b' pre x post. apply deliver_ack, (ag_inv_history _ _ _ _ _ RN). Qed.
Print Assumptions C07_report_iff_handover_step.

(* Nobody registered for the destination (e.g. only WebSocket clients that are connected but have
   not registered, REST agents without a matching client, a bundle for dtn:none): the arrival of b
   produces no hand-over to anybody - registered or not -, no "delivered" report and no release
   of the retention constraint. *)
Theorem C07_nobody_registered : forall node peers (h : list ag_event) s outs,
  ag_run (ag_init node peers) h = Some (s, outs) ->
  forall b orc, (forall r, ag_registered (ast_ch s) r (ab_dst b) = false) ->
  forall x, In x (snd (ag_deliver orc s b)) -> ag_is_evidence x = false.
Proof. intros node peers h s outs RN b orc. apply deliver_nobody, (ag_inv_history _ _ _ _ _ RN). Qed.
Print Assumptions C07_nobody_registered.

(* While *other* agents and clients register, unregister, connect, disconnect, fetch and receive
   (any history h' in which no event registers / unregisters recipient r itself; the handlers
   are atomic w.r.t. each other, so every concurrent execution is such a history), a recipient
   registered for b's destination stays visible to AgentManager.HasEndpoint, is handed every
   accepted bundle for that destination exactly once, and the bundle is not given to a peer. *)
Theorem C07_amid_others : forall node peers h s outs h' s' outs' r,
  ag_run (ag_init node peers) h = Some (s, outs) ->
  ag_run s h' = Some (s', outs') ->
  forallb (fun ev => negb (ag_ev_touches ev r)) h' = true ->
  forall b orc,
    ag_registered (ast_ch s) r (ab_dst b) = true ->
    existsb (N.eqb (ab_id b)) (ast_known s') = false ->
    ag_mux_has orc 0%nat (ast_ch s') (ab_dst b) = true
    /\ ag_hands_to r (snd (ag_deliver orc s' b)) = [b]
    /\ filter ag_is_sent (snd (ag_deliver orc s' b)) = [].
Proof.
  intros node peers h s outs h' s' outs' r RN RN' T b orc R HK.
  rewrite <- (run_registered_stable h' s s' outs' r (ab_dst b) RN' T) in R.
  destruct (ag_inv_run h' s outs s' outs' (ag_inv_history _ _ _ _ _ RN) RN') as (WF & _).
  split; [|split].
  - apply (mux_has_iff _ _ _ _ WF). now exists r.
  - now rewrite (deliver_exact orc s' b r WF HK), R.
  - exact (deliver_no_sent orc s' b r WF R).
Qed.
Print Assumptions C07_amid_others.

(* ---- non-vacuity ---- *)
Definition ex_e1 : ag_eid := (7, 1).
Definition ex_e2 : ag_eid := (7, 2).
Definition ex_b (i : N) (e : ag_eid) : abundle := mk_ab i e (1, 0) true.
Definition ex_orc : ag_oracle := fun a site => [2; 1]%nat.
Definition ex_hist : list ag_event :=
  [AERegAgent 0 (ARest [] []); AERegAgent 1 (AMock [ex_e1]); AERegAgent 2 (AWs []); AERegAgent 3 (APing ex_e2);
   AERestRegister 0 10 ex_e1; AERestRegister 0 11 ex_e2; AERestRegister 0 12 ex_e1;
   AEWsConnect 2 20 ex_e1;
   AEDeliver (ex_b 100 ex_e1) ex_orc;      (* two REST clients, the mock agent and the WS client *)
   AEDeliver (ex_b 101 ex_e2) ex_orc;      (* the second REST client and the ping agent *)
   AEDeliver (ex_b 102 (7, 3)) ex_orc;     (* nobody: forwarded to both peers *)
   AEDeliver (ex_b 103 (0, 3)) ex_orc;     (* this node, no agent: kept, no report *)
   AERestFetch 0 10; AERestUnregister 0 12; AEDeliver (ex_b 104 ex_e1) ex_orc; AERestFetch 0 10].

Example C07_example_trace :
  option_map snd (ag_run (ag_init (0, 0) [1; 2]) ex_hist)
  = Some [AOHand (RRest 0 12) (ex_b 100 ex_e1); AOHand (RRest 0 10) (ex_b 100 ex_e1);
          AOHand (RMock 1) (ex_b 100 ex_e1); AOHand (RWs 2 20) (ex_b 100 ex_e1);
          AOReport (ex_b 100 ex_e1); AORelease (ex_b 100 ex_e1);
          AOHand (RRest 0 11) (ex_b 101 ex_e2); AOHand (RPing 3) (ex_b 101 ex_e2);
          AOReport (ex_b 101 ex_e2); AORelease (ex_b 101 ex_e2);
          AOSent 1 (ex_b 102 (7, 3)); AOSent 2 (ex_b 102 (7, 3));
          AOKeep (ex_b 103 (0, 3));
          AOFetched 0 10 [ex_b 100 ex_e1]; AODropped 0 12 [ex_b 100 ex_e1];
          AOHand (RRest 0 10) (ex_b 104 ex_e1); AOHand (RMock 1) (ex_b 104 ex_e1); AOHand (RWs 2 20) (ex_b 104 ex_e1);
          AOReport (ex_b 104 ex_e1); AORelease (ex_b 104 ex_e1);
          AOFetched 0 10 [ex_b 104 ex_e1]].
Proof. vm_compute. reflexivity. Qed.

(* a schedule in which a fetch is stopped after its Load, a delivery is scheduled (and has to
   wait for the mutex), and everything completes: nothing is lost *)
Example C07_example_locked :
  let s := mbx_run true [0;0;0;0; 1;1; 2;2; 1;1; 2;2;2;2; 3;3;3;3]%nat
                   (mbx_init [MDeliver (wb 0); MFetch; MDeliver (wb 1); MFetch]) in
  mbx_all_done s = true /\ mbx_got s = [wb 0; wb 1] /\ mbx_box s = None.
Proof. vm_compute. repeat split. Qed.

(* connected but unregistered WebSocket clients (20 never registers, 21 registers later, 22 sends
   an unparsable endpoint and is dropped, 23 registers twice and is dropped): a bundle for
   dtn:none = (8,0) and one for an endpoint nobody registered are forwarded, nobody gets them *)
Definition ex_none : ag_eid := (8, 0).
Definition ex_hist2 : list ag_event :=
  [AERegAgent 0 (AWs []); AERegAgent 1 (ARest [] []);
   AEWsDial 0 20; AEWsDial 0 21; AEWsDial 0 22; AEWsDial 0 23;
   AEDeliver (ex_b 100 ex_none) ex_orc; AEDeliver (ex_b 101 ex_e1) ex_orc;
   AEWsRegister 0 21 (Some ex_e1); AEWsRegister 0 22 None;
   AEWsRegister 0 23 (Some ex_e2); AEWsRegister 0 23 (Some ex_e1);
   AEDeliver (ex_b 102 ex_e1) ex_orc; AEDeliver (ex_b 103 ex_e2) ex_orc; AEDeliver (ex_b 104 ex_none) ex_orc].
Example C07_example_unregistered :
  option_map (fun p => (ast_ch (fst p), snd p)) (ag_run (ag_init (0, 0) [1; 2]) ex_hist2)
  = Some ([(0, AWs [(20, None); (21, Some ex_e1)]); (1, ARest [] [])],
          [AOSent 1 (ex_b 100 ex_none); AOSent 2 (ex_b 100 ex_none);
           AOSent 1 (ex_b 101 ex_e1); AOSent 2 (ex_b 101 ex_e1);
           AOHand (RWs 0 21) (ex_b 102 ex_e1); AOReport (ex_b 102 ex_e1); AORelease (ex_b 102 ex_e1);
           AOSent 1 (ex_b 103 ex_e2); AOSent 2 (ex_b 103 ex_e2);
           AOSent 1 (ex_b 104 ex_none); AOSent 2 (ex_b 104 ex_none)]).
Proof. vm_compute. reflexivity. Qed.
