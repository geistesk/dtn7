(* C05 - store-carry-forward: an accepted bundle is never silently lost.

   Model (Model/Scf.v): [scf_step alg k s e o] - one event [e] of the routing Core in state [s] (store
   items + connected peers) with the oracle [o] = the clock and, per bundle, the peers that were handed
   the bundle with the outcome of every send; [None] = the model does not allow that observation.
   [alg] says whether DispatchingAllowed / SenderForBundle are the epidemic ones ([scf_epidemic]: exactly
   the connected peers not in the `sent` list; otherwise any duplicate-free subset of the connected
   peers is allowed, so the statements hold whatever spray / binary_spray / prophet / dtlsr / sensor-mule
   select).  [k] is the factor UpdateBundleAge applies to the milliseconds a bundle spent in the store.
   Every statement is for every algorithm, every k, every history and every oracle.

   Vocabulary (Proofs/ScfProofs.v):
   [scf_accepts s e b] - [e] is Submit of [b] with a local (or dtn:none) source, or Receive of [b], and
      [b]'s ID is not in the store of [s];
   [scf_alive k b rx now] - at time [now] >= [rx] the lifetime of [b], accepted at [rx], has not ended:
      neither by creation time + lifetime, nor (bundle age block) by age + k * (now - rx) >= lifetime, nor
      by the store's expiry instant (for a zero creation time: rx + lifetime - age);
   [scf_same_id_same_bundle b e] - bundle IDs are distinct: if [e] is the reception of a bundle with the
      ID of [b], that bundle is [b]   (and a Submit whose ID is already stored is not a step of the model:
      the IdKeeper is C14's);
   [scf_ev_ok k b rx (e, o)] - [scf_alive k b rx (or_now o)] and [scf_same_id_same_bundle b e];
   [scf_carried alg k pre e o post b s outs] - the history [pre ++ (e,o) :: post] runs from the empty node
      to state [s]; [e] accepts [b]; [b] is for another node, its hop limit is not exceeded, it carries no
      unknown block demanding deletion, [scf_ev_ok] at every event from [e] on; [outs] = the sends from [e] on;
   [scf_no_ok b outs] - no send of [b] in [outs] succeeded;
   [scf_retained s b] - the store of [s] holds an item with exactly [b] and Pending = true. *)
From DTN Require Import Base Scf ScfProofs ConstsOkScf.
Local Open Scope N_scope.

(* An accepted bundle, not expired, not refused for cause, of which no transmission succeeded yet, is in
   the store and marked for retry after every event that followed its acceptance - written out in full. *)
Theorem C05_retained : forall alg k pre e o post b s1 o1 s2 o2 s3 o3,
  scf_run alg k scf_init pre = Some (s1, o1) ->
  scf_step alg k s1 e o = Some (s2, o2) ->
  scf_run alg k s2 post = Some (s3, o3) ->
  scf_find_item (sb_id b) (ss_items s1) = None ->
  ((e = SeSubmit b /\ sb_local b = true) \/ (exists from, e = SeReceive b from)) ->
  sb_dst b <> 0 -> scf_hop_exceeded b = false -> sb_del b = false ->
  Forall (fun eo => scf_alive k b (or_now o) (or_now (snd eo)) /\ scf_same_id_same_bundle b (fst eo))
         ((e, o) :: post) ->
  (forall p, ~ In (ScfSent p (sb_id b) true) (o2 ++ o3)) ->
  exists it, In it (ss_items s3) /\ si_b it = b /\ si_pending it = true.
Proof.
  intros alg k pre e o post b s1 o1 s2 o2 s3 o3 H1 H2 H3 H4 H5 H6 H7 Hd H8 H9.
  apply (scf_holds_retained s3 b (or_now o) (o2 ++ o3)), (scf_carried_holds alg k pre e o post);
    [|exact (scf_no_ok_no_final alg b _ H9)].
  exists s1, o1, s2, o2, o3. repeat split; assumption.
Qed.
Print Assumptions C05_retained.

(* Under the epidemic selection the bundle stays until a transmission to its destination node succeeded:
   successful transmissions to other peers do not end the obligation. *)
Theorem C05_retained_epidemic : forall alg k pre e o post b s3 outs,
  sa_exact alg = true ->
  scf_carried alg k pre e o post b s3 outs ->
  ~ In (ScfSent (sb_dst b) (sb_id b) true) outs ->
  scf_retained s3 b.
Proof. intros. eapply scf_holds_retained, scf_carried_holds; eauto using scf_exact_no_final. Qed.
Print Assumptions C05_retained_epidemic.

(* When the destination node appears as a peer, such a bundle is transmitted to it in that very step
   (provided it did not arrive from that node itself). *)
Theorem C05_direct : forall alg k pre e o post b s3 outs d o4 s4 o5,
  scf_carried alg k pre e o post b s3 outs -> scf_no_ok b outs ->
  scf_step alg k s3 (ScPeerUp d) o4 = Some (s4, o5) ->
  scf_alive k b (or_now o) (or_now o4) ->
  sb_dst b = d -> sb_prev b <> Some d ->
  exists ok, In (ScfSent d (sb_id b) ok) o5.
Proof. intros. eapply scf_carried_offers; eauto using scf_no_ok_no_final. Qed.
Print Assumptions C05_direct.

(* Epidemic routing: a newly connected peer is offered every stored bundle it does not have yet (it is
   not the previous node and no send to it succeeded) - as long as the bundle's destination node itself
   is not connected, in which case the bundle goes there directly (C05_direct). *)
Theorem C05_epidemic : forall alg k pre e o post b s3 outs p o4 s4 o5,
  sa_exact alg = true ->
  scf_carried alg k pre e o post b s3 outs ->
  ~ In (ScfSent (sb_dst b) (sb_id b) true) outs ->
  scf_step alg k s3 (ScPeerUp p) o4 = Some (s4, o5) ->
  scf_alive k b (or_now o) (or_now o4) ->
  sb_dst b <> p -> ~ In (sb_dst b) (scs_peers s3) ->
  sb_prev b <> Some p -> ~ In (ScfSent p (sb_id b) true) outs ->
  exists ok, In (ScfSent p (sb_id b) ok) o5.
Proof. intros. eapply scf_carried_offers; eauto using scf_exact_no_final. Qed.
Print Assumptions C05_epidemic.

(* All of it across an orderly restart anywhere in the history (the restart keeps the store with the
   item properties and drops the peers and the algorithms' memory). *)
Theorem C05_restart : forall alg k pre e o post1 orr post2 b s3 outs,
  scf_carried alg k pre e o (post1 ++ (SeRestart, orr) :: post2) b s3 outs -> scf_no_ok b outs ->
  scf_retained s3 b /\
  forall p o4 s4 o5,
    scf_step alg k s3 (ScPeerUp p) o4 = Some (s4, o5) ->
    scf_alive k b (or_now o) (or_now o4) -> sb_prev b <> Some p ->
    (p = sb_dst b \/ (sa_exact alg = true /\ sb_dst b <> p /\ ~ In (sb_dst b) (scs_peers s3))) ->
    exists ok, In (ScfSent p (sb_id b) ok) o5.
Proof.
  intros alg k pre e o post1 orr post2 b s3 outs Hc Hno. pose proof (scf_no_ok_no_final alg b outs Hno) as Hnf.
  split; [eapply scf_holds_retained, scf_carried_holds; eauto|].
  intros. eapply scf_carried_offers; eauto.
Qed.
Print Assumptions C05_restart.

Theorem C05_restart_keeps_store : forall alg k s o,
  scf_step alg k s SeRestart o = Some ({| ss_items := ss_items s; scs_peers := [] |}, []).
Proof. reflexivity. Qed.
Print Assumptions C05_restart_keeps_store.

(* Two failure reports for one bundle at the same moment (read the sent list / remove the peer / write
   it back, one goroutine per peer): with the read-modify-write under the mutex - the two schedules of
   [scf_race_locked] - neither failed peer is in the list afterwards, in both orders; and the outcome is
   the one the event model uses (everything that failed is filtered out). *)
Theorem C05_failure_race : forall sent p q sched,
  NoDup sent -> In sched scf_race_locked ->
  ~ In p (scf_race_run p q sent sched) /\ ~ In q (scf_race_run p q sent sched).
Proof.
  intros sent p q sched Hnd Hin. rewrite (scf_race_locked_filter _ _ _ _ Hnd Hin).
  split; intros H; apply filter_In in H as [_ H]; apply negb_true_iff, scf_mem_false in H; apply H; cbn; auto.
Qed.
Print Assumptions C05_failure_race.

Theorem C05_failure_race_outcome : forall sent p q sched,
  NoDup sent -> In sched scf_race_locked ->
  scf_race_run p q sent sched = filter (fun x => negb (scf_mem x [p; q])) sent.
Proof. exact scf_race_locked_filter. Qed.
Print Assumptions C05_failure_race_outcome.

(* Without the mutex (the code before the fix) the statement is false: in the schedule read p, read q,
   write p, write q the second write puts the first failed peer back (lost update). *)
Theorem C05_failure_race_unlocked_refuted : exists sent p q sched,
  NoDup sent /\ In sched scf_race_all /\ In p (scf_race_run p q sent sched).
Proof.
  exists [1; 2], 1, 2, [ScfRead false; ScfRead true; ScfWrite false; ScfWrite true].
  split; [|split].
  - repeat constructor; cbn; intuition discriminate.
  - cbn. tauto.
  - vm_compute. left. reflexivity.
Qed.
Print Assumptions C05_failure_race_unlocked_refuted.

(* "Refused for cause (unsupported block demanding deletion)", for every block array of a received bundle:
   the loop of Core.receive ([scf_rx_blocks]: index len-1 down to 0, the array shrinking in place under it
   when a block is removed; [scf_rx_del] = it ends in bundleDeletion) refuses the bundle exactly when some
   block of a type this node does not know carries the "delete bundle" flag - whatever flags (replicate,
   report, delete bundle, remove block) the other blocks carry, known or unknown, and in whatever order. *)
Theorem C05_unsupported_block_refusal : forall bl,
  scf_rx_del bl = true <-> exists b, In b bl /\ bk_known b = false /\ scf_blk_has scf_fl_delete b = true.
Proof. exact scf_rx_del_iff. Qed.
Print Assumptions C05_unsupported_block_refusal.

(* and a bundle that is not refused goes on with its blocks, in order, less the unsupported blocks flagged
   "remove block": removing a block never makes the loop judge another block in its place *)
Theorem C05_unsupported_block_removal : forall bl r,
  scf_rx_blocks bl = Some r -> r = filter (fun b => bk_known b || negb (scf_blk_has scf_fl_remove b)) bl.
Proof.
  intros bl r. rewrite scf_rx_blocks_spec. destruct (existsb scf_blk_demands_deletion bl); [discriminate|].
  intros [= <-]. reflexivity.
Qed.
Print Assumptions C05_unsupported_block_removal.

(* How [scf_alive] reads for the two kinds of bundles. *)
Theorem C05_alive_timestamped : forall k b rx now,
  sb_ts b <> 0 -> sb_age b = None -> rx <= now -> now <= sb_ts b + sb_life b -> scf_alive k b rx now.
Proof.
  intros k b rx now Hts Hage Hrx Hle. unfold scf_alive, scf_life_exceeded, scf_expiry.
  apply N.eqb_neq in Hts. rewrite Hts, Hage. repeat split; auto. apply N.ltb_ge. exact Hle.
Qed.
Print Assumptions C05_alive_timestamped.

Theorem C05_alive_zero_time : forall k b rx now a,
  sb_ts b = 0 -> sb_age b = Some a -> 1 <= k -> rx <= now -> a + k * (now - rx) < sb_life b ->
  scf_alive k b rx now.
Proof.
  intros k b rx now a Hts Hage Hk Hrx Hlt. unfold scf_alive, scf_life_exceeded, scf_expiry.
  rewrite Hts, Hage. cbn [N.eqb].
  assert (Hm : now - rx <= k * (now - rx)).
  { rewrite <- (N.mul_1_l (now - rx)) at 1. apply N.mul_le_mono_r. exact Hk. }
  repeat split.
  - exact Hrx.
  - apply N.ltb_ge. lia.
  - exact Hlt.
  - lia.
Qed.
Print Assumptions C05_alive_zero_time.

(* Non-vacuity: a clock-less bundle for node 1 is submitted with nobody connected, offered to peer 2
   (the send fails), survives a store sweep, a restart and a retry tick ([scf_carried] holds, nothing was
   sent successfully) - and is delivered when node 1 appears. *)
Example C05_example_carried : exists s3 outs,
  scf_carried scf_epidemic 1000 [] (SeSubmit scf_ex_b) (scf_ex_or 8434540001000 [] false) scf_ex_post scf_ex_b s3 outs
  /\ scf_no_ok scf_ex_b outs /\ outs = [ScfSent 2 7 false] /\ scs_peers s3 = [].
Proof.
  eexists. eexists. split; [|split; [|split]].
  - unfold scf_carried. do 5 eexists.
    split; [reflexivity|]. split; [vm_compute; reflexivity|]. split; [vm_compute; reflexivity|].
    split; [reflexivity|]. split; [|split; [|split]].
    + split; [reflexivity|]. left. split; reflexivity.
    + discriminate.
    + reflexivity.
    + split; [reflexivity|]. unfold scf_ex_post.
      (* at each of the five events the bundle is alive by C05_alive_zero_time (age 1000 + 1000 * at most
         500 ms in the store < lifetime), and none of them is a reception *)
      repeat (apply Forall_cons;
              [split; [apply (C05_alive_zero_time _ _ _ _ 1000); (reflexivity || (cbn; lia)) | exact I]|]).
      apply Forall_nil.
  - intros p [H|[]]. discriminate.
  - reflexivity.
  - reflexivity.
Qed.

Example C05_example_delivery :
  scf_run scf_epidemic 1000 scf_init
    (((SeSubmit scf_ex_b, scf_ex_or 8434540001000 [] false) :: scf_ex_post)
       ++ [(ScPeerUp 1, scf_ex_or 8434540001600 [(1, true)] true)])
  = Some ({| ss_items := []; scs_peers := [1] |}, [ScfSent 2 7 false; ScfSent 1 7 true]).
Proof. vm_compute. reflexivity. Qed.

(* with the expiry of the code before the fix (creation time 0 + lifetime) the sweep at 8434540001300
   would have deleted that bundle *)
Example C05_example_old_expiry_swept : (0 + sb_life scf_ex_b <? 8434540001300) = true.
Proof. reflexivity. Qed.

(* an unsupported block flagged "remove block" directly in front of a supported block flagged "delete
   bundle" (flags 5 = replicate + delete bundle, as senders put on hop count blocks): the bundle is kept *)
Example C05_example_remove_then_known_delete :
  scf_rx_blocks [ {| bk_known := false; bk_flags := 16 |}; {| bk_known := true; bk_flags := 5 |}; {| bk_known := true; bk_flags := 0 |} ]
  = Some [ {| bk_known := true; bk_flags := 5 |}; {| bk_known := true; bk_flags := 0 |} ].
Proof. reflexivity. Qed.
