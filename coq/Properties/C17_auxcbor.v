(* C17 - CBOR-based auxiliary formats and endpoint URIs (part file, merged by ./check with Properties/C17.v). *)
From DTN Require Import Base Cbor CborProofs Eid EidProofs Bundle BundleWf BundleProofs
  AuxCbor AuxCborProofs EidUriProofs ConstsOkAuxCbor.
Open Scope N_scope.

(* Every well-formed value of every format - creation timestamp, endpoint ID (CBOR), bundle ID
   (fragment and non-fragment), status item, status report (4- and 6-element layout),
   administrative record, announcement, announcement list, WebSocket-agent message with each of its
   five bodies - is encoded, and decoding the encoding followed by arbitrary further bytes [r] gives
   back the value and exactly [r].  [aux_wf] states the ranges of the Go types and the encoders'
   silent limits (a status item keeps its time only if asserted and requested; a non-fragment
   bundle ID has no offset / total length; only known reason codes and CLA types are read back). *)
Theorem C17_aux_roundtrip : forall now x r, aux_wf (bundle_ok now) x = true ->
  enc_aux x = Some (aux_bytes x) /\ dec_aux now (kind_of x) (aux_bytes x ++ r) = Ok x r.
Proof. exact aux_roundtrip. Qed.
Print Assumptions C17_aux_roundtrip.


Theorem C17_aux_cts_roundtrip : forall t s r, u64_ok t = true -> u64_ok s = true ->
  dec_cts (enc_cts t s ++ r) = Ok (t, s) r.
Proof. exact dec_cts_enc. Qed.
Print Assumptions C17_aux_cts_roundtrip.


Theorem C17_aux_bid_roundtrip : forall b r, bid_wf b = true ->
  enc_bid b = Some (bid_bytes b) /\ dec_bid (bid_frag b) (bid_bytes b ++ r) = Ok b r.
Proof. intros b r H. split; [exact (enc_bid_ok b H) | exact (dec_bid_enc b r H)]. Qed.
Print Assumptions C17_aux_bid_roundtrip.


Theorem C17_aux_sitem_roundtrip : forall i r, sitem_wf i = true -> dec_sitem (enc_sitem i ++ r) = Ok i r.
Proof. exact dec_sitem_enc. Qed.
Print Assumptions C17_aux_sitem_roundtrip.


Theorem C17_aux_sreport_roundtrip : forall s r, sreport_wf s = true ->
  enc_sreport s = Some (sreport_bytes s) /\ dec_sreport (sreport_bytes s ++ r) = Ok s r.
Proof.
  intros s r H. split; [exact (enc_sreport_ok s (proj1 (sreport_wf_but s H))) | exact (dec_sreport_enc s r H)].
Qed.
Print Assumptions C17_aux_sreport_roundtrip.


Theorem C17_aux_admrec_roundtrip : forall a r, admrec_wf a = true ->
  enc_admrec a = Some (admrec_bytes a) /\ dec_admrec (admrec_bytes a ++ r) = Ok a r.
Proof. intros a r H. split; [exact (enc_admrec_ok a H) | exact (dec_admrec_enc a r H)]. Qed.
Print Assumptions C17_aux_admrec_roundtrip.


Theorem C17_aux_ann_roundtrip : forall a r, ann_wf a = true ->
  enc_ann a = Some (ann_bytes a) /\ dec_ann (ann_bytes a ++ r) = Ok a r.
Proof. intros a r H. split; [exact (enc_ann_ok a H) | exact (dec_ann_enc a r H)]. Qed.
Print Assumptions C17_aux_ann_roundtrip.


Theorem C17_aux_anns_roundtrip : forall l r, anns_wf l = true ->
  enc_anns l = Some (anns_bytes l) /\ dec_anns (anns_bytes l ++ r) = Ok l r.
Proof. intros l r H. split; [exact (enc_anns_ok l H) | exact (dec_anns_enc l r H)]. Qed.
Print Assumptions C17_aux_anns_roundtrip.


Theorem C17_aux_wam_roundtrip : forall now w r, wam_wf (bundle_ok now) w = true ->
  enc_wam w = Some (wam_bytes w) /\ dec_wam now (wam_bytes w ++ r) = Ok w r.
Proof. intros now w r H. split; [exact (enc_wam_ok now w H) | exact (dec_wam_enc now w r H)]. Qed.
Print Assumptions C17_aux_wam_roundtrip.


(* Consecutive messages on one stream stay aligned: for every list of well-formed messages of any
   mix of kinds, reading the concatenation of their encodings message by message - each read starting
   where the previous one stopped - returns exactly the list and leaves exactly the bytes [r] that
   followed.  Induction over the list; no bound on its length. *)
Theorem C17_aux_stream : forall now xs r, forallb (aux_wf (bundle_ok now)) xs = true ->
  enc_stream xs = Some (stream_bytes xs) /\ dec_stream now (map kind_of xs) (stream_bytes xs ++ r) = Ok xs r.
Proof. exact stream_roundtrip. Qed.
Print Assumptions C17_aux_stream.


(* ======================= C17: endpoint URI text and structure ======================= *)

(* "Endpoint URI text and endpoint structure determine each other uniquely" is the bijection between
   valid structures and their *canonical* (printed) texts: a valid structure is printed to a text
   that parses back to it (so printing is injective), and every accepted text has a valid structure
   whose printed text is accepted as the same structure.  For dtn the accepted text *is* the printed
   text; for ipn the only texts accepted besides the printed one differ by leading zeros of the two
   numbers (ipn:01.1 parses to the structure of ipn:1.1 - legal per RFC 6260's ABNF; this is the
   implementation's behaviour, not a loosened check). *)
Theorem C17_eid_uri : forall e, eid_valid e = true -> eid_wf e = true -> eid_parse (eid_print e) = Some e.
Proof. exact eid_parse_print. Qed.
Print Assumptions C17_eid_uri.


Theorem C17_eid_uri_print_injective : forall a b,
  eid_valid a = true -> eid_wf a = true -> eid_valid b = true -> eid_wf b = true -> eid_print a = eid_print b -> a = b.
Proof.
  intros a b Hva Hwa Hvb Hwb H. pose proof (eid_parse_print a Hva Hwa) as Ha.
  rewrite H, (eid_parse_print b Hvb Hwb) in Ha. inversion Ha. reflexivity.
Qed.
Print Assumptions C17_eid_uri_print_injective.


Theorem C17_eid_uri_canonical : forall uri e, eid_parse uri = Some e ->
  eid_valid e = true /\ eid_parse (eid_print e) = Some e.
Proof. exact eid_parse_valid. Qed.
Print Assumptions C17_eid_uri_canonical.


(* the exact shape of every accepted text; malformed or out-of-range URIs are therefore rejected:
   ipn with 0 or a number >= 2^64, dtn without //node/, an empty node, a node character outside
   [A-Za-z0-9_.-], a newline in the demux *)
Theorem C17_eid_uri_accepted_shape : forall uri e, eid_parse uri = Some e ->
  match e with
  | Ipn n s => exists d1 d2, uri = str_ipn_colon ++ d1 ++ [46] ++ d2
                 /\ d1 <> [] /\ d2 <> [] /\ forallb is_digit d1 = true /\ forallb is_digit d2 = true
                 /\ parse_uint_acc 0 d1 = Some n /\ parse_uint_acc 0 d2 = Some s
                 /\ 1 <= n < 18446744073709551616 /\ 1 <= s < 18446744073709551616
  | _ => uri = eid_print e /\ eid_valid e = true
  end.
Proof. exact eid_parse_inv. Qed.
Print Assumptions C17_eid_uri_accepted_shape.


(* decimal numbers: printing then strconv.ParseUint-style parsing is the identity below 2^64; the
   printer's fuel of 25 digits is never exhausted on such a number *)
Theorem C17_eid_uri_decimal : forall n, u64_ok n = true ->
  parse_uint_acc 0 (dec_digits n) = Some n /\ forallb is_digit (dec_digits n) = true /\ dec_digits n <> [].
Proof. intros n H. split; [exact (parse_dec_digits n H)|split; [exact (dec_digits_digits n)|exact (dec_digits_nonempty n)]]. Qed.
Print Assumptions C17_eid_uri_decimal.


(* ======================= C17: invalid field values are rejected ======================= *)

(* status-report reason code (a CBOR unsigned integer, so case analysis rather than a byte sweep):
   whatever the bytes, an accepted status report / administrative record carries a code in 0..11 ... *)
Theorem C17_aux_reject_reason : forall bs s r, dec_sreport bs = Ok s r -> sr_reason s <= max_reason.
Proof. exact dec_sreport_reason_known. Qed.
Print Assumptions C17_aux_reject_reason.

Theorem C17_aux_reject_reason_admrec : forall bs s r, dec_admrec bs = Ok (ARStatus s) r -> sr_reason s <= max_reason.
Proof. exact dec_admrec_reason_known. Qed.
Print Assumptions C17_aux_reject_reason_admrec.

(* ... and on every otherwise well-formed report: accepted exactly when the code is one of the twelve *)
Theorem C17_aux_reason_accepted_iff : forall s r, sreport_wf_but_reason s = true ->
  dec_sreport (sreport_bytes s ++ r) = if sr_reason s <=? max_reason then Ok s r else Err.
Proof. exact dec_sreport_enc_reason. Qed.
Print Assumptions C17_aux_reason_accepted_iff.


Theorem C17_aux_reject_admrec_type : forall tc body, u64_ok tc = true -> tc <> ar_type_status ->
  dec_admrec (enc_arr 2 ++ enc_uint tc ++ body) = Err.
Proof. exact admrec_type_rejected. Qed.
Print Assumptions C17_aux_reject_admrec_type.


Theorem C17_aux_reject_wam_code : forall now tc body, u64_ok tc = true -> 4 < tc ->
  dec_wam now (enc_arr 2 ++ enc_uint tc ++ body) = Err.
Proof. exact wam_code_rejected. Qed.
Print Assumptions C17_aux_reject_wam_code.


Theorem C17_aux_reject_cla_type : forall t body, u64_ok t = true -> cla_type_ok t = false ->
  dec_ann (enc_arr 3 ++ enc_uint t ++ body) = Err.
Proof. exact ann_type_rejected. Qed.
Print Assumptions C17_aux_reject_cla_type.

Theorem C17_aux_accepted_cla_type : forall bs a r, dec_ann bs = Ok a r -> cla_type_ok (an_type a) = true.
Proof. exact dec_ann_type_known. Qed.
Print Assumptions C17_aux_accepted_cla_type.


Theorem C17_aux_reject_item_layout : forall l body, u64_ok l = true -> l <> 1 -> l <> 2 -> dec_sitem (enc_arr l ++ body) = Err.
Proof. exact sitem_layout_rejected. Qed.
Print Assumptions C17_aux_reject_item_layout.

Theorem C17_aux_reject_report_layout : forall l body, u64_ok l = true -> l <> 4 -> l <> 6 -> dec_sreport (enc_arr l ++ body) = Err.
Proof. exact sreport_layout_rejected. Qed.
Print Assumptions C17_aux_reject_report_layout.


(* all 256 byte values of each code field of a concrete message: accepted <-> in the enumerated set
   (finite sweep, the bound is in the statement) *)
Definition byte_values : list N := map N.of_nat (seq 0 256).
Definition sweep_accepts {A} (dec : list N -> res A) (msg : N -> list N) (ok : N -> bool) : bool :=
  forallb (fun c => Bool.eqb (match dec (msg c) with Ok _ [] => true | _ => false end) (ok c)) byte_values.
Definition ar_tail : list N := [130; 2; 130; 1; 1; 130; 0; 0].                     (* ipn:1.1, timestamp (0, 0) *)
Definition ar_items : list N := [132; 129; 245; 129; 244; 129; 244; 129; 244].     (* [[true],[false],[false],[false]] *)
Theorem C17_aux_reject_sweeps :
  sweep_accepts dec_admrec (fun c => [130; 1; 132] ++ ar_items ++ enc_uint c ++ ar_tail) (fun c => c <=? 11) = true        (* reason *)
  /\ sweep_accepts dec_admrec (fun c => [130] ++ enc_uint c ++ [132] ++ ar_items ++ [0] ++ ar_tail) (fun c => c =? 1) = true  (* record type *)
  /\ sweep_accepts dec_admrec (fun c => [130; 1] ++ enc_arr c ++ ar_items ++ [0] ++ ar_tail) (fun c => c =? 4) = true          (* layout: 4; 6 needs two more fields *)
  /\ sweep_accepts dec_admrec (fun c => [130; 1] ++ enc_arr c ++ ar_items ++ [0] ++ ar_tail ++ [0; 0]) (fun c => c =? 6) = true
  /\ sweep_accepts dec_sitem (fun c => enc_arr c ++ [245; 7]) (fun c => c =? 2) = true                                          (* item layout *)
  /\ sweep_accepts dec_sitem (fun c => enc_arr c ++ [245]) (fun c => c =? 1) = true
  /\ sweep_accepts dec_ann (fun c => [131] ++ enc_uint c ++ [130; 2; 130; 1; 1; 25; 17; 204]) cla_type_ok = true                (* CLA type *)
  /\ sweep_accepts (dec_wam 0) (fun c => [130] ++ enc_uint c ++ [96]) (fun c => (c =? 0) || (c =? 1) || (c =? 3)) = true.       (* WAM code, text bodies *)
Proof. vm_compute. repeat split. Qed.
Print Assumptions C17_aux_reject_sweeps.


Theorem C17_eid_uri_reject_examples :
  let p := eid_parse in
  p [105;112;110;58; 48; 46; 49] = None /\
  p [105;112;110;58; 49; 46; 48] = None /\
  p ([105;112;110;58] ++ [49;56;52;52;54;55;52;52;48;55;51;55;48;57;53;53;49;54;49;54] ++ [46; 49]) = None /\
  p ([105;112;110;58] ++ [49;56;52;52;54;55;52;52;48;55;51;55;48;57;53;53;49;54;49;53] ++ [46; 49]) = Some (Ipn 18446744073709551615 1) /\
  p [105;112;110;58; 48;49; 46; 49] = Some (Ipn 1 1) /\
  p [100;116;110;58; 47;47; 97] = None /\
  p [100;116;110;58; 47; 97; 47] = None /\
  p [100;116;110;58; 47;47;47] = None /\
  p [100;116;110;58; 47;47; 97; 47; 98; 10] = None /\
  p [68;84;78;58; 47;47; 97; 47] = None /\
  p [100;116;110;58; 47;47; 97; 47] = Some (Dtn [97] []).
Proof. vm_compute. repeat split. Qed.
Print Assumptions C17_eid_uri_reject_examples.


(* ... and accepted unknown reason codes (C17) *)
Theorem C17_aux_unfixed_reason_refuted :
  (exists s r, to_res (adec_sreport false sreport_reason12) = Ok s r /\ max_reason < sr_reason s) /\
  dec_sreport sreport_reason12 = Err.
Proof. exact adec_sreport_unfixed_reason. Qed.
Print Assumptions C17_aux_unfixed_reason_refuted.


(* ======================= non-vacuity ======================= *)
(* the status report of a received, time-reporting bundle dtn://n/a created at (5000, 7), fragment 10/100 *)
Example C17_aux_example_sreport :
  let s := {| sr_items := [ {| si_asserted := true; si_time := 1000; si_req := true |};
                            {| si_asserted := false; si_time := 0; si_req := false |} ];
              sr_reason := 1;
              sr_ref := {| bid_src := Dtn [110] [97]; bid_time := 5000; bid_seq := 7; bid_frag := true; bid_off := 10; bid_total := 100 |} |} in
  sreport_wf s = true
  /\ enc_admrec (ARStatus s) = Some [130; 1; 134; 130; 130; 245; 25; 3; 232; 129; 244; 1; 130; 1; 101; 47; 47; 110; 47; 97; 130; 25; 19; 136; 7; 10; 24; 100]
  /\ dec_admrec ([130; 1; 134; 130; 130; 245; 25; 3; 232; 129; 244; 1; 130; 1; 101; 47; 47; 110; 47; 97; 130; 25; 19; 136; 7; 10; 24; 100] ++ [9; 9])
     = Ok (ARStatus s) [9; 9].
Proof. vm_compute. repeat split. Qed.


Example C17_aux_example_silent_limit :
  (* a status item with a time but not asserted is outside wf: the encoder drops the time *)
  let i := {| si_asserted := false; si_time := 5; si_req := true |} in
  sitem_wf i = false /\ dec_sitem (enc_sitem i) = Ok {| si_asserted := false; si_time := 0; si_req := false |} [].
Proof. vm_compute. split; reflexivity. Qed.


Example C17_aux_example_stream :
  let xs := [XCts 1 2; XAnn {| an_type := 10; an_eid := Ipn 5 1; an_port := 4556 |}; XWam (WSysResp [113] [1; 2]); XEid DtnNone] in
  forallb (aux_wf (bundle_ok 0)) xs = true
  /\ dec_stream 0 (map kind_of xs) (stream_bytes xs ++ [255]) = Ok xs [255].
Proof. vm_compute. split; reflexivity. Qed.


Example C17_eid_uri_example :
  eid_print (Ipn 18446744073709551615 1) = [105;112;110;58] ++ [49;56;52;52;54;55;52;52;48;55;51;55;48;57;53;53;49;54;49;53] ++ [46; 49]
  /\ eid_parse (eid_print (Dtn [110; 45; 49] [126; 103])) = Some (Dtn [110; 45; 49] [126; 103]).
Proof. vm_compute. split; reflexivity. Qed.
