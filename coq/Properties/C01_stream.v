(* C01, part "stream": consequences of exact consumption for streams of bundles (MTCP, TCPCL segments,
   files of concatenated bundles): any number of valid bundles written behind each other is read back as
   exactly that list, the encoding is injective (lossless) and prefix-free (a reader can never stop
   early or late on a valid encoding). *)
From DTN Require Import Base Cbor Crc Eid Bundle BundleStream BundleWf BundleProofs ValidProofs DecodeWf BundleStreamProofs.
Open Scope N_scope.



(* Every list of valid bundles, of any length and sizes, serialised back to back and followed by anything,
   is parsed back as exactly that list, leaving exactly what followed. *)
Theorem C01_stream : forall now l tail, Forall (good now) l ->
  exists bss, Forall2 (fun b bs => enc_bundle b = Some bs) l bss
              /\ dec_bundles now (length l) (concat bss ++ tail) = Some (l, tail).
Proof.
  intros now l tail H. exists (map bundle_bytes l). split; [|exact (dec_bundles_enc now l tail H)].
  induction H as [|b l [Hwf _] _ IH]; constructor; [exact (enc_bundle_ok b Hwf)|exact IH].
Qed.
Print Assumptions C01_stream.


(* Lossless: two valid bundles with the same serialisation are the same bundle (in every field and block). *)
Theorem C01_injective : forall now b1 b2 bs, good now b1 -> good now b2 ->
  enc_bundle b1 = Some bs -> enc_bundle b2 = Some bs -> b1 = b2.
Proof.
  intros now b1 b2 bs G1 G2 E1 E2.
  exact (proj2 (enc_prefix_free now b1 b2 bs bs [] G1 G2 E1 E2 (eq_sym (app_nil_r bs)))).
Qed.
Print Assumptions C01_injective.


(* Prefix-free: no valid serialisation is a proper prefix of another one, so a stream reader that has
   consumed a complete bundle has consumed neither too little nor too much. *)
Theorem C01_prefix_free : forall now b1 b2 bs1 bs2 ext, good now b1 -> good now b2 ->
  enc_bundle b1 = Some bs1 -> enc_bundle b2 = Some bs2 -> bs2 = bs1 ++ ext -> ext = [] /\ b1 = b2.
Proof. exact enc_prefix_free. Qed.
Print Assumptions C01_prefix_free.

(* non-vacuity: a stream of three concrete bundles (two different ones, one repeated) *)
Definition sx_a : bundle :=
  {| b_pri := {| p_flags := 4; p_crc := 2; p_dst := Dtn [100] [97]; p_src := Ipn 23 42; p_rpt := DtnNone;
                 p_time := 0; p_seq := 256; p_life := 65536; p_off := 0; p_total := 0 |};
     b_blocks := [ {| c_num := 2; c_flags := 0; c_crc := 1; c_val := XAge 24 |};
                   {| c_num := 1; c_flags := 0; c_crc := 0; c_val := XPayload [1; 2; 3] |} ] |}.
Definition sx_b : bundle :=
  {| b_pri := {| p_flags := 4; p_crc := 1; p_dst := Ipn 1 2; p_src := Dtn [100] [97]; p_rpt := DtnNone;
                 p_time := 0; p_seq := 23; p_life := 24; p_off := 0; p_total := 0 |};
     b_blocks := [ {| c_num := 2; c_flags := 0; c_crc := 2; c_val := XAge 0 |};
                   {| c_num := 1; c_flags := 0; c_crc := 2; c_val := XPayload [] |} ] |}.
Example C01_stream_example : Forall (good 1000) [sx_a; sx_b; sx_a]
  /\ dec_bundles 1000 3 (concat (map bundle_bytes [sx_a; sx_b; sx_a]) ++ [255]) = Some ([sx_a; sx_b; sx_a], [255]).
Proof. split; [repeat constructor; vm_compute; reflexivity | vm_compute; reflexivity]. Qed.
