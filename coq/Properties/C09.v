(* C09 - fragmentation respects the size limit and is exactly invertible.

   The model (Model/Frag.v) is Bundle.Fragment / ReassembleFragments of pkg/bpv7/fragmentation.go AFTER
   three repairs (fix: commits in the dtn7-go tree): the loop body runs at least once (an empty payload
   no longer yields an empty list), a bundle whose serialisation fits is returned as itself before the
   fragment overhead is estimated, and blocks are appended with their own numbers in their own order
   instead of being renumbered by AddExtensionBlock.  The code before the repairs is kept executable
   (fg_fragment_orig); the examples at the end exhibit each defect on it.

   Vocabulary (Proofs/FragProofs.v):
     bundle_wf b          the ranges Go's types / cboring can hold (BundleWf.v);
     check_valid now b    Bundle.CheckValid at time now;
     bundle_bytes b       the serialisation of b (= enc_bundle b for well-formed b, BundleProofs.v);
     fragment_ok now mtu b pl f   f serialises to at most mtu bytes, is well-formed, passes CheckValid,
                          has the fragment flag and b's source / timestamp / destination / report-to /
                          lifetime / CRC type, and carries the total length of b's payload
                          (b's own total if b is itself a fragment);
     fg_partition o d fs  the payloads of fs are consecutive NON-EMPTY slices of d whose concatenation is d,
                          the offsets start at o and each is the previous offset + previous length
                          (no gap, no overlap, in order);
     fg_placed b pl fs    the first fragment's blocks are ALL extension blocks of b, unchanged and in order,
                          then the payload block; every other fragment's blocks are exactly the
                          replicate-flagged extension blocks, unchanged and in order, then the payload block
                          (payload blocks keep number, flags and CRC type of b's payload block pl). *)
From Coq Require Import Permutation.
From DTN Require Import Base Cbor Crc Eid Bundle BundleWf BundleProofs Reasm Frag FragProofs ConstsOkFrag.
Open Scope N_scope.

(* Fragmenting a (well-formed, valid) bundle for a maximum size fails with an error or returns
   - the bundle itself, which then serialises to at most mtu bytes, or
   - two or more bundles, each serialising to at most mtu bytes and each a valid fragment of b, whose
     offsets partition the payload and whose blocks are placed as the property demands.
   The size bound is an inequality proof over the CBOR width function (hl_mono), not a sweep. *)
Theorem C09_sound : forall now b mtu fs,
  bundle_wf b = true -> check_valid now b = true ->
  fg_fragment now b mtu = FOk fs ->
  (fs = [b] /\ nlen (bundle_bytes b) <= mtu)
  \/ exists pl, find_type 1 (b_blocks b) = Some pl /\ c_val pl = XPayload (fg_data pl)
       /\ (2 <= length fs)%nat
       /\ Forall (fragment_ok now mtu b pl) fs
       /\ (fg_base b + nlen (fg_data pl) <= fg_u64 -> fg_partition (fg_base b) (fg_data pl) fs)
       /\ fg_placed b pl fs.
Proof. exact fragment_sound. Qed.
Print Assumptions C09_sound.

(* the third outcome of the model's result type (loop fuel exhausted) never occurs: error or list *)
Theorem C09_error_or_list : forall now b mtu, fg_fragment now b mtu <> FFuel.
Proof.
  intros now b mtu. unfold fg_fragment.
  destruct (has (p_flags (b_pri b)) F_NOFRAG); [discriminate|].
  destruct (enc_bundle b) as [bs|]; [|discriminate].
  destruct (nlen bs <=? mtu); [discriminate|].
  destruct (find_type 1 (b_blocks b)) as [pl|]; [|discriminate].
  destruct (fg_ext_len mtu (b_blocks b) 0 0) as [[first others]|]; [|discriminate].
  pose proof (fg_loop_spec now mtu b pl first others (fun _ => True) (S (length (fg_data pl)))
                (fun _ _ _ _ _ => I) 0 (or_introl eq_refl)) as Hfuel.
  destruct (fg_loop _ now mtu b pl first others 0) as [| |[|f1 [|f2 rest]]]; try discriminate.
  intros _. apply Hfuel. unfold nlen. lia.
Qed.
Print Assumptions C09_error_or_list.

(* never an empty list *)
Theorem C09_nonempty : forall now b mtu fs,
  bundle_wf b = true -> check_valid now b = true -> fg_fragment now b mtu = FOk fs -> fs <> [].
Proof.
  intros now b mtu fs Hwf Hv H.
  destruct (C09_sound _ _ _ _ Hwf Hv H) as [[-> _] | (pl & _ & _ & Hl & _)]; [discriminate|].
  intros ->. cbn in Hl. lia.
Qed.
Print Assumptions C09_nonempty.

(* every returned bundle parses back from its own serialisation to itself *)
Theorem C09_fragments_parse : forall now b mtu fs,
  bundle_wf b = true -> check_valid now b = true -> fg_fragment now b mtu = FOk fs ->
  Forall (fun f => forall r, dec_bundle now (bundle_bytes f ++ r) = Some (f, r)) fs.
Proof.
  intros now b mtu fs Hwf Hv H. destruct (C09_sound _ _ _ _ Hwf Hv H) as [[-> _] | (pl & _ & _ & _ & Hall & _)].
  - constructor; [|constructor]. intros r. apply dec_bundle_enc; assumption.
  - eapply Forall_impl; [|exact Hall]. intros f (_ & Hfw & Hfv & _) r. apply dec_bundle_enc; assumption.
Qed.
Print Assumptions C09_fragments_parse.

(* A bundle that already fits - whatever its payload, also the empty one - is returned as itself
   (no validity hypothesis).  Go tests the must-not-fragment flag first: such a bundle is refused
   even when it fits, hence the hypothesis. *)
Theorem C09_fits : forall now b mtu,
  bundle_wf b = true -> has (p_flags (b_pri b)) F_NOFRAG = false -> nlen (bundle_bytes b) <= mtu ->
  fg_fragment now b mtu = FOk [b].
Proof.
  intros now b mtu Hwf Hn Hfit. unfold fg_fragment. rewrite Hn, enc_bundle_ok by exact Hwf.
  destruct (N.leb_spec (nlen (bundle_bytes b)) mtu); [reflexivity|lia].
Qed.
Print Assumptions C09_fits.

Theorem C09_must_not_fragment : forall now b mtu,
  has (p_flags (b_pri b)) F_NOFRAG = true -> fg_fragment now b mtu = FErr.
Proof. intros now b mtu H. unfold fg_fragment. rewrite H. reflexivity. Qed.
Print Assumptions C09_must_not_fragment.

(* Reassembling the fragments in ANY order yields the original bundle itself, hence a bundle that
   serialises byte-identically.  (b is not itself a fragment: reassembly produces whole bundles.) *)
Theorem C09_invertible : forall now b mtu fs,
  bundle_wf b = true -> check_valid now b = true -> has (p_flags (b_pri b)) F_FRAG = false ->
  fg_fragment now b mtu = FOk fs ->
  fs = [b] \/ forall pi, Permutation pi fs -> fg_reassemble now pi = ROk b.
Proof. exact fragment_invertible. Qed.
Print Assumptions C09_invertible.

Theorem C09_invertible_bytes : forall now b mtu fs,
  bundle_wf b = true -> check_valid now b = true -> has (p_flags (b_pri b)) F_FRAG = false ->
  fg_fragment now b mtu = FOk fs ->
  fs = [b] \/ forall pi, Permutation pi fs ->
                exists b', fg_reassemble now pi = ROk b' /\ bundle_bytes b' = bundle_bytes b.
Proof.
  intros now b mtu fs Hwf Hv Hnf H. destruct (C09_invertible _ _ _ _ Hwf Hv Hnf H) as [->|Hall]; [left; reflexivity|].
  right. intros pi HP. exists b. split; [apply Hall, HP|reflexivity].
Qed.
Print Assumptions C09_invertible_bytes.

(* the width of a CBOR head is monotone in its argument - the fact the size bound rests on *)
Theorem C09_head_width_monotone : forall m m' n n', n <= n' -> nlen (head_bytes m n) <= nlen (head_bytes m' n').
Proof. intros m m' n n'. rewrite !enc_len. apply hl_mono. Qed.
Print Assumptions C09_head_width_monotone.

(* ---- non-vacuity ------------------------------------------------------------------------------ *)
Definition c09_pri : primary :=
  {| p_flags := 0; p_crc := 2; p_dst := Dtn [100] []; p_src := Dtn [115] []; p_rpt := Dtn [115] [];
     p_time := 1000; p_seq := 0; p_life := 3600000; p_off := 0; p_total := 0 |}.
Definition c09_data : list N :=
  [10;11;12;13;14;15;16;17;18;19;20;21;22;23;24;25;26;27;28;29;30;31;32;33;34;35;36;37;38;39].
(* extension blocks numbered 3 (replicated) and 7 - not the numbers AddExtensionBlock would assign *)
Definition c09_b (d : list N) : bundle :=
  {| b_pri := c09_pri;
     b_blocks := [ {| c_num := 3; c_flags := 1; c_crc := 0; c_val := XAge 0 |};
                   {| c_num := 7; c_flags := 0; c_crc := 1; c_val := XHop 32 1 |};
                   {| c_num := 1; c_flags := 0; c_crc := 2; c_val := XPayload d |} ] |}.
Definition c09_view (r : fres) : option (list (N * N * list N)) :=
  match r with
  | FOk fs => Some (map (fun f => (nlen (bundle_bytes f), p_off (b_pri f), map c_num (b_blocks f))) fs)
  | _ => None
  end.

Example C09_ex_hyps : bundle_wf (c09_b c09_data) = true /\ check_valid 2000 (c09_b c09_data) = true
                      /\ nlen (bundle_bytes (c09_b c09_data)) = 104.
Proof. vm_compute. repeat split; reflexivity. Qed.

(* 104 bytes at mtu 90: three fragments (size, offset, block numbers), each within the limit;
   at mtu 83 the per-fragment overhead no longer fits: error; at 104 the bundle itself *)
Example C09_ex_fragments :
  c09_view (fg_fragment 2000 (c09_b c09_data) 90) = Some [(82, 0, [3; 7; 1]); (84, 6, [3; 1]); (67, 27, [3; 1])]
  /\ fg_fragment 2000 (c09_b c09_data) 83 = FErr
  /\ fg_fragment 2000 (c09_b c09_data) 104 = FOk [c09_b c09_data]
  /\ fg_fragment 2000 (c09_b []) 200 = FOk [c09_b []]
  /\ fg_fragment 2000 (c09_b []) 60 = FErr.
Proof. vm_compute. repeat split; reflexivity. Qed.

Example C09_ex_reassemble : forall fs, fg_fragment 2000 (c09_b c09_data) 90 = FOk fs ->
  fg_reassemble 2000 (rev fs) = ROk (c09_b c09_data).
Proof. intros fs H. vm_compute in H. injection H as <-. vm_compute. reflexivity. Qed.

(* the code before the repairs: (a) empty payload => empty list; (b) the 104-byte bundle is split for
   mtu 105 although it fits; (c) the blocks numbered 3 and 7 come back as 2 and 3 in the first fragment
   and the replicated block as 2 in the second (renumbered by AddExtensionBlock), so the fragments are not
   fragments of the original bundle and reassembly cannot give it back *)
Example C09_ex_unfixed :
  fg_fragment_orig 2000 (c09_b []) 200 = FOk []
  /\ c09_view (fg_fragment_orig 2000 (c09_b c09_data) 105) = Some [(97, 0, [2; 3; 1]); (72, 21, [2; 1])]
  /\ nlen (bundle_bytes (c09_b c09_data)) <= 105.
Proof. vm_compute. repeat split; try reflexivity. discriminate. Qed.
