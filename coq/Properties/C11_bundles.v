(* C11, part "bundles": TCPCL composed with the bundle codec of property C01 (Model/Bundle.v). *)
From DTN Require Import Base Cbor Crc Eid Bundle BundleWf BundleProofs BundleStreamProofs Tcpcl TcpclProofs TcpclBundles.
Open Scope N_scope.

(* Any number of transfers with pairwise distinct ids, each carrying the serialisation of a valid bundle,
   segmented with any segment sizes and interleaved in any way: for every transfer exactly one byte string
   is handed up and it parses - completely, nothing left over - as the very bundle that was sent; and
   everything handed up is such a bundle of one of the transfers. *)
Theorem C11_bundles : forall now xs tr,
  NoDup (map x_tid xs) -> Forall xfer_ok xs -> MergeAll (map xfer_segs xs) tr ->
  (forall x, In x xs -> exists b, xfer_carries now x b) ->
  (forall x b, In x xs -> xfer_carries now x b ->
     exists bs, filter (dl_tid (x_tid x)) (rx_delivered tr) = [(x_tid x, bs)] /\ dec_bundle now bs = Some (b, []))
  /\ (forall d, In d (rx_delivered tr) ->
        exists x b, In x xs /\ xfer_carries now x b /\ fst d = x_tid x /\ dec_bundle now (snd d) = Some (b, [])).
Proof.
  intros now xs tr Hnd Hok Hm Hc.
  destruct (tcpcl_receiver xs tr Hnd Hok Hm) as [H1 H2]. split.
  - intros x b Hin [Hg Hbs]. exists (x_bs x). split; [exact (H1 x Hin)|].
    rewrite Hbs. exact (dec_good_nil now b Hg).
  - intros d Hd. destruct (H2 d Hd) as (x & Hin & ->). destruct (Hc x Hin) as (b & Hb).
    exists x, b. split; [exact Hin|]. split; [exact Hb|]. split; [reflexivity|].
    destruct Hb as [Hg Hbs]. cbn [snd]. rewrite Hbs. exact (dec_good_nil now b Hg).
Qed.
Print Assumptions C11_bundles.

(* Send of a valid bundle: for every accepted history of the Send state machine with honest acknowledgements, if Send
   returns success then the receiver fed with what was emitted has handed up exactly one byte string, under this
   transfer id, and it parses completely as the very bundle that was sent. *)
Theorem C11_send_bundle : forall now b m tid evs st outs,
  good now b -> 1 <= m ->
  send_run (send_init (bundle_bytes b) m tid) evs = Some (st, outs) ->
  forallb (honest_event (segments (bundle_bytes b) m tid)) evs = true ->
  ss_result st = Some SrOk ->
  exists bs, rx_delivered outs = [(tid, bs)] /\ dec_bundle now bs = Some (b, []).
Proof.
  intros now b m tid evs st outs Hg Hm Hrun Hh Hok.
  destruct (tcpcl_success_sound (bundle_bytes b) m tid evs st outs (bundle_bytes_ne b) Hm Hrun Hh Hok) as (_ & _ & _ & Hd).
  exists (bundle_bytes b). split; [exact Hd|exact (dec_good_nil now b Hg)].
Qed.
Print Assumptions C11_send_bundle.

(* non-vacuity: one transfer (id 3, segment size 7) carrying a concrete bundle: several segments, one hand-over *)
Definition tbx : bundle :=
  {| b_pri := {| p_flags := 4; p_crc := 2; p_dst := Dtn [100] [97]; p_src := Ipn 23 42; p_rpt := DtnNone;
                 p_time := 0; p_seq := 256; p_life := 65536; p_off := 0; p_total := 0 |};
     b_blocks := [ {| c_num := 2; c_flags := 0; c_crc := 1; c_val := XAge 24 |};
                   {| c_num := 1; c_flags := 0; c_crc := 0; c_val := XPayload [1; 2; 3] |} ] |}.
Example C11_bundles_example :
  let x := mkX 3 7 (bundle_bytes tbx) in
  xfer_carries 1000 x tbx /\ xfer_ok x /\ (3 < length (xfer_segs x))%nat
  /\ rx_delivered (xfer_segs x) = [(3, bundle_bytes tbx)]
  /\ dec_bundle 1000 (bundle_bytes tbx) = Some (tbx, []).
Proof.
  cbv zeta. split; [split; [split; vm_compute; reflexivity|reflexivity]|].
  split; [split; [vm_compute; discriminate|vm_compute; discriminate]|].
  split; [vm_compute; repeat constructor|]. split; vm_compute; reflexivity.
Qed.
