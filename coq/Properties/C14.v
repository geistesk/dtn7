(* C14 - bundles originated at the node get distinct IDs, in the store and on the wire; the number
   the node assigns is the one under which a bundle is stored and the one that is transmitted.

   Model: Model/IdKeeper.v.  A history is ANY list of sub-steps (IkAssign = IdKeeper.update's
   critical section, IkClean, IkPush = filing in the store, IkSend = first transmission, IkRetry =
   transmission of the stored copy, IkDrop, IkRestart) - hence any interleaving of any number of
   concurrent submissions, whatever the path (AgentManager, SendBundle, status report, routing
   metadata all end in Core.SendBundle).  The order inside one submission is the repaired one
   (the number is assigned before the bundle is filed). *)
From DTN Require Import Base IdKeeper IdKeeperProofs ConstsOkIdKeeper.
Open Scope N_scope.

(* Two bundles i, j with the same source and creation time: the later one gets the larger
   number - for every history and interleaving - provided the IdKeeper's entry was not forgotten
   between the two counter steps:  no restart in between, and every cleaning in between runs at
   a clock `now` with  t = 0  or  threshold(now) <= t,  where threshold(now) = now - 60*60*24 in
   MILLISECONDS (86.4 s; the Go comment says "an hour") - [ik_quiet].  Hence their store keys
   and wire IDs (source, time, number) differ. *)
Theorem C14_distinct : forall h1 i src t h2 j h3 s outs a b,
  ik_run ik_init (h1 ++ IkAssign i src t :: h2 ++ IkAssign j src t :: h3) = Some (s, outs) ->
  ik_quiet t h2 ->
  ik_seq_of s i = Some a -> ik_seq_of s j = Some b ->
  a < b /\ (src, t, a) <> (src, t, b).
Proof.
  intros h1 i src t h2 j h3 s outs a b R Q Sa Sb. pose proof (ik_distinct _ _ _ _ _ _ _ _ _ _ _ R Q Sa Sb) as L.
  split; [exact L|]. intros [= ->]. exact (N.lt_irrefl _ L).
Qed.
Print Assumptions C14_distinct.

(* The hypothesis is exactly what the code offers: with a clock that never goes back (creation
   times are 0 or the clock's reading when the bundle is numbered, cleaning reads the same clock,
   a restart takes at least a millisecond, the clock is past 2000-01-01 + 86.4 s) the entry of a
   non-zero time is never forgotten between two submissions carrying that time; for the zero
   time the only danger is a restart. *)
Theorem C14_distinct_clocked : forall c0 h1 i src t h2 j h3 s outs a b,
  ik_run ik_init (h1 ++ IkAssign i src t :: h2 ++ IkAssign j src t :: h3) = Some (s, outs) ->
  ik_clocked c0 (h1 ++ IkAssign i src t :: h2 ++ IkAssign j src t :: h3) -> ik_window <= c0 ->
  t <> 0 \/ ~ In IkRestart h2 ->
  ik_seq_of s i = Some a -> ik_seq_of s j = Some b ->
  a < b.
Proof. intros. eapply ik_distinct; eauto. eapply ik_clocked_quiet; eauto. Qed.
Print Assumptions C14_distinct_clocked.

(* Creation times chosen by the submitter - a client whose clock is ahead of the node's by a
   millisecond or a year, a bundle built for a later time: the entry survives every cleaning whose
   clock has not passed t + 86400 ms, so two such bundles get different numbers whatever else
   (report-to, destination, lifetime, flags, blocks, payload) they differ in: the counter is keyed
   by (source, time) only. *)
Theorem C14_distinct_ahead : forall h1 i src t h2 j h3 s outs a b,
  ik_run ik_init (h1 ++ IkAssign i src t :: h2 ++ IkAssign j src t :: h3) = Some (s, outs) ->
  ~ In IkRestart h2 ->
  (forall now, In (IkClean now) h2 -> ik_window <= now /\ now < ik_two64 /\ now <= t + ik_window) ->
  ik_seq_of s i = Some a -> ik_seq_of s j = Some b ->
  a < b /\ (src, t, a) <> (src, t, b).
Proof.
  intros h1 i src t h2 j h3 s outs a b Hr Hn Hc Ha Hb.
  eapply C14_distinct; eauto.
  apply Forall_forall. intros e He. destruct e; cbn; auto.
  destruct (Hc _ He) as (H1 & H2 & H3). right. rewrite ik_threshold_small by assumption. lia.
Qed.
Print Assumptions C14_distinct_ahead.

(* The cleaning threshold is exact at the millisecond (what the boundary probe observes). *)
Theorem C14_clean_threshold : forall now e, ik_window <= now -> now < ik_two64 -> ike_time e <> 0 ->
  ik_keep now e = true <-> now <= ike_time e + ik_window.
Proof.
  intros now e H1 H2 H3. unfold ik_keep, ik_epoch. rewrite ik_threshold_small by assumption.
  apply N.eqb_neq in H3. rewrite H3. cbn [negb]. rewrite andb_true_r, negb_true_iff, N.ltb_ge. lia.
Qed.
Print Assumptions C14_clean_threshold.

(* Without the hypothesis the statement is false: the IdKeeper is volatile.  After an orderly
   restart a clock-less source (zero creation time) starts again at number 0 although its earlier
   bundle is still stored under that ID: the two bundles share the ID, the second one is not filed
   and a retry transmits the first one's copy.  (Known finding idkeeper.restart.epoch-seq0.) *)
Theorem C14_restart_refuted : exists h s outs i j src a b,
  ik_run ik_init h = Some (s, outs) /\ i <> j
  /\ ik_numbered s i src 0 a /\ ik_numbered s j src 0 b /\ a = b
  /\ (forall it, In it (ik_store s) -> it_tid it <> j)
  /\ (exists o, In o outs /\ o_tid o = i /\ (o_src o, o_time o, o_seq o) = (src, 0, b)).
Proof. exact ik_restart_refuted. Qed.
Print Assumptions C14_restart_refuted.

(* The number assigned is the one in the store key, in the stored part file and in every
   transmitted copy, first transmission and retries - in every history (no hypothesis):
   every store item's key and file number and every output's ID are (source, time, number) of
   the submitted bundle they contain. *)
Theorem C14_same_number : forall h s outs,
  ik_run ik_init h = Some (s, outs) ->
  (forall it, In it (ik_store s) ->
     ik_numbered s (it_tid it) (it_src it) (it_time it) (it_seq it) /\ it_fseq it = it_seq it)
  /\ (forall o, In o outs -> ik_numbered s (o_tid o) (o_src o) (o_time o) (o_seq o)).
Proof.
  intros h s outs R. destruct (ik_run_ok _ _ _ _ R) as [I O]; [intros it []|].
  split; [exact I|]. apply Forall_forall. exact O.
Qed.
Print Assumptions C14_same_number.

(* When every pair of submissions with equal (source, time) is spaced as in C14_distinct
   ([ik_spaced]): a bundle that was numbered is filed under its own ID by its push ... *)
Theorem C14_filed : forall h tid s outs,
  ik_run ik_init (h ++ [IkPush tid]) = Some (s, outs) -> ik_spaced h ->
  exists src t seq it,
    ik_numbered s tid src t seq /\ ik_item_of (ik_store s) src t seq = Some it
    /\ it_tid it = tid /\ it_fseq it = seq.
Proof. exact ik_filed. Qed.
Print Assumptions C14_filed.

(* ... and different bundles never share a store key, a wire ID, or a store key with a wire ID *)
Theorem C14_ids_distinct : forall h s outs,
  ik_run ik_init h = Some (s, outs) -> ik_spaced h ->
  (forall it1 it2, In it1 (ik_store s) -> In it2 (ik_store s) -> it_tid it1 <> it_tid it2 ->
     (it_src it1, it_time it1, it_seq it1) <> (it_src it2, it_time it2, it_seq it2))
  /\ (forall o1 o2, In o1 outs -> In o2 outs -> o_tid o1 <> o_tid o2 ->
     (o_src o1, o_time o1, o_seq o1) <> (o_src o2, o_time o2, o_seq o2))
  /\ (forall it o, In it (ik_store s) -> In o outs -> it_tid it <> o_tid o ->
     (it_src it, it_time it, it_seq it) <> (o_src o, o_time o, o_seq o)).
Proof.
  intros h s outs R SP. destruct (C14_same_number _ _ _ R) as [I O].
  assert (U : forall i j src t a src' t' b,
            ik_numbered s i src t a -> ik_numbered s j src' t' b -> i <> j -> (src, t, a) <> (src', t', b)).
  { intros i j src t a src' t' b N1 N2 Hne [= -> -> ->]. exact (ik_unique _ _ _ _ _ _ _ _ _ R SP N1 N2 Hne eq_refl). }
  repeat split; intros x y Hx Hy; apply U; try apply I; auto.
Qed.
Print Assumptions C14_ids_distinct.

(* non-vacuity: three submissions in one millisecond (one of them interleaved with another
   source's), a peer connected for the third, then a retry of the second *)
Example C14_example :
  match ik_run ik_init (ik_submit 1 5 1000000 1000000 [] ++
                        [IkAssign 2 5 1000000; IkAssign 9 6 1000000; IkClean 1000001; IkPush 9; IkPush 2] ++
                        ik_submit 3 5 1000000 1000002 [4] ++ [IkRetry 5 1000000 1 4]) with
  | Some (s, outs) =>
      (ik_seq_of s 1, ik_seq_of s 2, ik_seq_of s 3, ik_seq_of s 9) = (Some 0, Some 1, Some 2, Some 0)
      /\ map (fun o => (o_tid o, o_seq o)) outs = [(3, 2); (2, 1)]
      /\ length (ik_store s) = 4%nat
  | None => False
  end.
Proof. vm_compute. repeat split; reflexivity. Qed.

(* the cleaning window: an entry 60 s old survives, one 120 s old is dropped and its counter
   starts again *)
Example C14_example_clean :
  match ik_run ik_init [IkAssign 1 5 940000; IkAssign 2 5 880000; IkClean 1000000; IkAssign 3 5 940000; IkAssign 4 5 880000] with
  | Some (s, _) => (ik_seq_of s 1, ik_seq_of s 3, ik_seq_of s 2, ik_seq_of s 4) = (Some 0, Some 1, Some 0, Some 0)
  | None => False
  end.
Proof. vm_compute. reflexivity. Qed.

(* creation times ahead of the clock are kept (no wrap-around of now - t), the threshold is exact:
   at clock 1000000 an entry of time 913600 = now - 86400 survives, one of 913599 is dropped *)
Example C14_example_ahead :
  match ik_run ik_init [IkAssign 1 5 1000001; IkClean 1000000; IkAssign 2 5 1000001;
                        IkAssign 3 5 32536000000; IkClean 1000000; IkAssign 4 5 32536000000;
                        IkAssign 5 5 913600; IkAssign 6 5 913599; IkClean 1000000; IkAssign 7 5 913600; IkAssign 8 5 913599] with
  | Some (s, _) => (ik_seq_of s 2, ik_seq_of s 4, ik_seq_of s 7, ik_seq_of s 8) = (Some 1, Some 1, Some 1, Some 0)
  | None => False
  end.
Proof. vm_compute. reflexivity. Qed.
