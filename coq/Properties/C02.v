(* C02 - only well-formed bundles are accepted; the node only produces well-formed ones. *)
From DTN Require Import Base Cbor Crc Eid Bundle BundleWf BundleProofs ValidProofs ConstsOkCodec.
Open Scope N_scope.

(* Any bundle the parser accepts obeys the BPv7 structural rules (record WellFormed in
   Proofs/ValidProofs.v: exactly one payload block, numbered 1 and last; unique block numbers; at
   most one block per type; valid endpoint IDs; no contradictory flags; zero creation time only
   with a bundle-age block; hop count not above its limit; lifetime not run out). Version 7 is
   enforced by the decoder itself (dec_primary rejects any other version). *)
Theorem C02_accept_sound : forall now bs b rest, dec_bundle now bs = Some (b, rest) -> WellFormed now b.
Proof. intros now bs b rest H. apply check_valid_sound. eapply dec_bundle_valid, H. Qed.
Print Assumptions C02_accept_sound.

Theorem C02_checkvalid_sound : forall now b, check_valid now b = true -> WellFormed now b.
Proof. exact check_valid_sound. Qed.
Print Assumptions C02_checkvalid_sound.

(* Everything that passes CheckValid and is in range is accepted by the parser from its own
   serialisation (so a producer that ends with CheckValid - NewBundle, the Builder - only emits
   bundles the parser accepts). *)
Theorem C02_valid_accepted : forall now b, bundle_wf b = true -> check_valid now b = true ->
  exists bs, enc_bundle b = Some bs /\ dec_bundle now bs = Some (b, []).
Proof.
  intros now b Hwf Hv. exists (bundle_bytes b). split; [exact (enc_bundle_ok b Hwf)|exact (dec_bundle_enc_nil now b Hwf Hv)].
Qed.
Print Assumptions C02_valid_accepted.

Example C02_example_reject_two_payloads :
  check_valid 0 {| b_pri := {| p_flags := 0; p_crc := 0; p_dst := Ipn 1 1; p_src := Ipn 1 2; p_rpt := Ipn 1 2;
                               p_time := 5; p_seq := 0; p_life := 10; p_off := 0; p_total := 0 |};
                   b_blocks := [ {| c_num := 2; c_flags := 0; c_crc := 0; c_val := XPayload [] |};
                                 {| c_num := 1; c_flags := 0; c_crc := 0; c_val := XPayload [] |} ] |} = false.
Proof. vm_compute. reflexivity. Qed.
