(* C15 - status reports are truthful, correctly addressed and cannot cascade.
   Statements over the model of the Core's processing of one bundle (Model/Report.v): for every
   node configuration [env], every way a bundle enters (received from a CLA, submitted locally,
   retried from the store), every bundle (all flag combinations, fragments and whole bundles, any
   blocks) and every oracle (known / clock / routing decision / outcome of every send). *)
From DTN Require Import Base Cbor Eid Bundle Report ReportProofs ConstsOkReport AuxCbor.
Open Scope N_scope.

(* Every report the node emits while processing a bundle is justified by an event of the report's
   kind that happens to this bundle in the same pass AND by the request:
     received/no-information   <- the bundle was received (new, from a CLA) and requests reception reports
     received/block-unsupported<- received, and a block of unregistered type carrying the report flag was met
     forwarded                 <- some send succeeded and forwarding reports are requested
     delivered                 <- handed over to an application agent and delivery reports are requested
     deleted/reason            <- bundleDeletion with exactly this reason and deletion reports are requested
   (nothing else is ever emitted: the five clauses are exhaustive). *)
Theorem C15_truthful : forall env inp r,
  In r (rp_reports (rp_process env inp)) ->
  rp_justified (i_bundle inp) (rp_events (rp_process env inp)) r.
Proof. intros env inp r H. exact (proj2 (proj2 (rp_good_process env inp r H))). Qed.
Print Assumptions C15_truthful.

(* The events themselves are what they say: each event of a pass has its cause in the input -
   received only for a new bundle from a CLA; a successful send only if the oracle has one;
   forwarded only with a successful send; delivered only if an agent is registered for the
   destination; every deletion with its reason (hop limit exceeded / lifetime or age expired /
   unknown block demanding deletion / foreign source of a submitted bundle / unparsable
   administrative record addressed to the node). *)
Theorem C15_events_sound : forall env inp e,
  In e (rp_events (rp_process env inp)) -> rp_event_cause env inp e.
Proof. exact rp_events_sound. Qed.
Print Assumptions C15_events_sound.

(* Shape: the report is an administrative record without any status-request flag, addressed to
   the bundle's report-to endpoint, names the bundle's exact ID (source, creation time, sequence
   number, and fragment offset / total length exactly when the bundle is a fragment), carries a
   time exactly when the bundle requests status times (then the current time), asserts one of
   the four positions, and has a source that is an endpoint of this node. *)
Theorem C15_shape : forall env inp r,
  In r (rp_reports (rp_process env inp)) ->
  let p := b_pri (i_bundle inp) in
  has (rpr_flags r) F_ADMIN = true /\ any_status_request (rpr_flags r) = false
  /\ rpr_dst r = p_rpt p
  /\ sr_ref_src r = p_src p /\ sr_ref_time r = p_time p /\ sr_ref_seq r = p_seq p
  /\ sr_ref_frag r = (if has (p_flags p) F_FRAG then Some (p_off p, p_total p) else None)
  /\ ((exists t, rpr_time r = Some t) <-> has (p_flags p) F_TIME = true)
  /\ (forall t, rpr_time r = Some t -> t = i_now inp)
  /\ rpr_pos r <= 3
  /\ (rp_has_endpoint env (rpr_src r) = true \/ rpr_src r = rn_node env).
Proof.
  intros env inp r H p. destruct (rp_good_process env inp r H) as (S & _ & J).
  destruct S as (Sf & Sd & _ & S1 & S2 & S3 & S4 & S5 & S6). fold p in Sd, S1, S2, S3, S4, S5.
  rewrite Sf, S5. split; [reflexivity|]. split; [reflexivity|].
  repeat (split; [assumption|]).
  split; [|split; [|split]].
  - apply option_present_iff. destruct (has (p_flags p) F_TIME); reflexivity.
  - intros t Ht. destruct (has (p_flags p) F_TIME); [congruence | discriminate].
  - destruct J as [J|[J|[J|[J|J]]]]; destruct J as (A & _); rewrite A; discriminate.
  - exact S6.
Qed.
Print Assumptions C15_shape.

(* No report about an administrative record, none about a bundle whose report-to is an endpoint
   of this node - whatever happens to the bundle. *)
Theorem C15_no_report_about_admin_record : forall env inp,
  has (p_flags (b_pri (i_bundle inp))) F_ADMIN = true -> rp_reports (rp_process env inp) = [].
Proof. intros env inp Ha. apply rp_no_report_unless_guards. intros [G _]. congruence. Qed.
Print Assumptions C15_no_report_about_admin_record.

Theorem C15_no_report_to_self : forall env inp,
  rp_has_endpoint env (p_rpt (b_pri (i_bundle inp))) = true -> rp_reports (rp_process env inp) = [].
Proof. intros env inp Ha. apply rp_no_report_unless_guards. intros [_ G]. congruence. Qed.
Print Assumptions C15_no_report_to_self.

(* Hence a chain "report about a report" has length at most one: whatever any node (the same or
   another, [env']) does with the bundle that carries an emitted report - receive, forward,
   deliver, delete, retry, with any oracle - it emits no report about it.  At the emitting node
   the second guard holds too: the report bundle's own report-to is an endpoint of the node. *)
Theorem C15_no_cascade : forall env inp r,
  In r (rp_reports (rp_process env inp)) ->
  forall env' inp' now seq payload,
    i_bundle inp' = rp_report_bundle r now seq payload ->
    rp_reports (rp_process env' inp') = [].
Proof.
  intros env inp r H env' inp' now seq payload Hb. apply C15_no_report_about_admin_record. rewrite Hb.
  destruct (rp_report_shape env inp r H) as (Hf & _). cbn. rewrite Hf. reflexivity.
Qed.
Print Assumptions C15_no_cascade.

Theorem C15_report_bundle_reports_to_self : forall env inp r now seq payload,
  In r (rp_reports (rp_process env inp)) ->
  rp_has_endpoint env (p_rpt (b_pri (rp_report_bundle r now seq payload))) = true.
Proof.
  intros env inp r now seq payload H.
  destruct (rp_report_shape env inp r H) as (_ & _ & _ & _ & _ & _ & _ & _ & [L|L]); cbn.
  - exact L.
  - rewrite L. unfold rp_has_endpoint. rewrite eid_same_node_refl. reflexivity.
Qed.
Print Assumptions C15_report_bundle_reports_to_self.

(* The executable checker the correspondence run applies to the implementation's reports is
   sufficient for the property's clauses, and the model passes it. *)
Theorem C15_checker_sound : forall env b fa r, rp_check env b fa r = [] -> rp_property env b fa r.
Proof. exact rp_checker_sound. Qed.
Print Assumptions C15_checker_sound.

Theorem C15_model_passes_checker : forall env inp r,
  In r (rp_reports (rp_process env inp)) ->
  rp_check env (i_bundle inp) (rp_facts_of (rp_events (rp_process env inp))) r = [].
Proof. exact rp_model_passes_checker. Qed.
Print Assumptions C15_model_passes_checker.

(* On the wire: the administrative record carried by the report bundle ([rp_wire r], in the
   auxiliary-format encoding of AuxCbor.v: reference bundle ID = source, [creation time, sequence
   number] and - exactly for a fragment - fragment offset THEN total data length) names the exact ID
   of the bundle the report is about, and the reference decoder [dec_admrec] reads precisely this
   report back from the bytes.  The correspondence run decodes the bytes of every report the
   implementation emits with this decoder and applies [rp_check] to the result. *)
Theorem C15_wire_names_exact_id : forall env inp r,
  In r (rp_reports (rp_process env inp)) -> sr_ref (rp_wire_sreport r) = rp_bundle_bid (i_bundle inp).
Proof.
  intros env inp r Hin. destruct (rp_report_shape env inp r Hin) as (_ & _ & _ & Hs & Ht & Hq & Hf & _).
  cbn [rp_wire_sreport sr_ref]. unfold rp_wire_bid, rp_bundle_bid. rewrite Hs, Ht, Hq, Hf.
  destruct (has (p_flags (b_pri (i_bundle inp))) F_FRAG); reflexivity.
Qed.
Print Assumptions C15_wire_names_exact_id.

Theorem C15_wire_roundtrip : forall r,
  sreport_wf (rp_wire_sreport r) = true ->
  exists bs, rp_wire r = Some bs
             /\ forall rest, dec_admrec (bs ++ rest) = Ok (ARStatus (rp_wire_sreport r)) rest.
Proof. exact rp_wire_roundtrip. Qed.
Print Assumptions C15_wire_roundtrip.

(* ---- non-vacuity ---- *)
Definition ex_node : eid := Dtn [110; 48] [].                       (* dtn://n0/ *)
Definition ex_env : renv := {| rn_node := ex_node; rn_agents := [Dtn [110; 48] [97]]; rn_clas := [] |}.
Definition ex_bundle (flags : N) (dst : eid) (blocks : list cblock) : bundle :=
  {| b_pri := {| p_flags := flags; p_crc := 0; p_dst := dst; p_src := Dtn [115] [120]; p_rpt := Dtn [114] [];
                 p_time := 1000; p_seq := 7; p_life := 3600000; p_off := 5; p_total := 50 |};
     b_blocks := blocks ++ [ {| c_num := 1; c_flags := 0; c_crc := 0; c_val := XPayload [1; 2] |} ] |}.
Definition ex_input (kind : N) (b : bundle) (sends : list bool) : rinput :=
  {| i_kind := kind; i_receiver := ex_node; i_known := false; i_bundle := b; i_now := 2000; i_age_add := 0;
     i_dispatch_ok := true; i_load_ok := true; i_admin_ok := false; i_sends := sends; i_delete_after := false |}.

(* a fragment requesting everything plus times, forwarded with one of two sends succeeding:
   reception and forwarding reports, both naming the fragment *)
Example C15_example_forwarded :
  map (fun r => (rpr_pos r, rpr_reason r, sr_ref_frag r, rpr_time r))
      (rp_reports (rp_process ex_env (ex_input 0 (ex_bundle (F_FRAG + F_TIME + F_RECEPTION + F_FORWARD + F_DELIVERY + F_DELETION)
                                                            (Dtn [102] [120]) []) [false; true])))
  = [(0, 0, Some (5, 50), Some 2000); (1, 0, Some (5, 50), Some 2000)].
Proof. vm_compute. reflexivity. Qed.

(* all sends fail: only the reception report *)
Example C15_example_all_sends_failed :
  map (fun r => (rpr_pos r, rpr_reason r))
      (rp_reports (rp_process ex_env (ex_input 0 (ex_bundle (F_RECEPTION + F_FORWARD + F_DELIVERY + F_DELETION)
                                                            (Dtn [102] [120]) []) [false; false])))
  = [(0, 0)].
Proof. vm_compute. reflexivity. Qed.

(* destination on this node but no agent registered: no delivery report (the repaired behaviour) *)
Example C15_example_local_no_agent :
  rp_reports (rp_process ex_env (ex_input 0 (ex_bundle F_DELIVERY (Dtn [110; 48] [122]) []) [])) = []
  /\ In EvDeliverFailed (rp_events (rp_process ex_env (ex_input 0 (ex_bundle F_DELIVERY (Dtn [110; 48] [122]) []) []))).
Proof. vm_compute. split; [reflexivity | tauto]. Qed.

(* delivered to the agent: one delivery report *)
Example C15_example_delivered :
  map (fun r => (rpr_pos r, rpr_reason r, rpr_dst r))
      (rp_reports (rp_process ex_env (ex_input 0 (ex_bundle F_DELIVERY (Dtn [110; 48] [97]) []) [])))
  = [(2, 0, Dtn [114] [])].
Proof. vm_compute. reflexivity. Qed.

(* unknown block with report + delete flags: reception/unsupported, then deletion/unsupported *)
Example C15_example_unknown_block :
  map (fun r => (rpr_pos r, rpr_reason r))
      (rp_reports (rp_process ex_env (ex_input 0 (ex_bundle F_DELETION (Dtn [102] [120])
         [ {| c_num := 2; c_flags := BF_REPORT + BF_DELETE; c_crc := 0; c_val := XGeneric 77 [9] |} ]) [true])))
  = [(0, 11); (3, 11)].
Proof. vm_compute. reflexivity. Qed.

(* an administrative record requesting everything (an ill-formed combination): nothing *)
Example C15_example_admin_silent :
  rp_reports (rp_process ex_env (ex_input 0 (ex_bundle (F_ADMIN + F_RECEPTION + F_FORWARD + F_DELIVERY + F_DELETION)
                                                       (Dtn [102] [120]) []) [true])) = [].
Proof. vm_compute. reflexivity. Qed.

(* the forwarding report of C15_example_forwarded on the wire: ... source dtn://s/x, [1000, 7], offset 5,
   total length 50 (0x18 0x32) - and decoded back by the reference decoder *)
Example C15_example_wire :
  match rp_reports (rp_process ex_env (ex_input 0 (ex_bundle (F_FRAG + F_TIME + F_RECEPTION + F_FORWARD + F_DELIVERY + F_DELETION)
                                                             (Dtn [102] [120]) []) [false; true])) with
  | [_; r] =>
      rp_wire r = Some [130; 1; 134; 132; 129; 244; 130; 245; 25; 7; 208; 129; 244; 129; 244; 0;
                        130; 1; 101; 47; 47; 115; 47; 120; 130; 25; 3; 232; 7; 5; 24; 50]
      /\ (exists s, dec_admrec [130; 1; 134; 132; 129; 244; 130; 245; 25; 7; 208; 129; 244; 129; 244; 0;
                                130; 1; 101; 47; 47; 115; 47; 120; 130; 25; 3; 232; 7; 5; 24; 50] = Ok (ARStatus s) []
                     /\ bid_off (sr_ref s) = 5 /\ bid_total (sr_ref s) = 50 /\ bid_frag (sr_ref s) = true)
      /\ sreport_wf (rp_wire_sreport r) = true
  | _ => False
  end.
Proof. vm_compute. split; [reflexivity|]. split; [|reflexivity]. eexists. repeat split. Qed.
