(* C06 - forwarded bundles are faithful copies and respect hop limit and lifetime.

   Model: Model/Forward.v - pkg/routing processing.go (receive's unknown-block loop, forward up to
   the choice of the senders), bundle_descriptor.go (UpdateBundleAge, Bundle()), pkg/bpv7
   (HopCountBlock, BundleAgeBlock, AddExtensionBlock, canonicalBlockNumberSort, IsLifetimeExceeded),
   as repaired by the four fix: commits of C06 (hop count 255 not wrapped; residence time added in
   milliseconds; unsupported blocks flagged for removal also dropped on retries; the reception
   timestamp of a bundle whose dispatching is deferred is stored).

   A history of one accepted bundle [b] at node [node]:
     [fw_history node now res copies keep b es] = reception at clock [now] (DTN ms) with residence
     [res] ms, followed by the events [es] (any number, any order) of
       FwEvRetry now res copies keep   a retry (pending_bundles job / a peer appeared) at clock
                                       [now], the bundle having been [res] ms at this node
       FwEvClean now                   the clean_store job
     The store keeps the bundle exactly AS RECEIVED (all block changes are made on in-memory
     copies), so every retry recomputes from [b].  Oracles: [copies] = what the routing algorithm
     writes into its own block (binary spray: Some n; every other algorithm: None), [keep] = the
     item survives a transmission.  The outputs [fo_result] are [FwSend b'] (handed to the
     convergence layer(s)) or [FwRefuse reason].
   [fw_accepted now b]: [b] is in the codec's range, passes CheckValid at [now] (what ParseBundle
   guarantees for everything a convergence layer delivers) and has fewer than 2^32 blocks.
   [fw_node_ok node]: this node's ID is a valid endpoint ID that fits a previous-node block. *)
From DTN Require Import Base Cbor Crc Eid Bundle BundleWf BundleProofs Forward ForwardProofs SpecForward ConstsOkForward.
Open Scope N_scope.

(* Every bundle handed to a convergence layer - by the first transmission or by any later retry,
   under any clock, residence time and routing algorithm - encodes, parses back to itself as a
   valid bundle, has the accepted bundle's primary block (hence byte-identical encoding) and
   payload, and is a faithful copy:
     ff_kept / ff_only  every block other than previous-node, bundle-age, hop-count (and the
                        algorithm's own block, if it has one) is transmitted unchanged unless it is an
                        unsupported block flagged for removal; nothing else is added; no unsupported
                        block flagged for removal is transmitted
     ff_hop / _only     hop count = accepted count + 1 as natural numbers, not above the limit; block
                        number, flags, CRC type unchanged
     ff_age / _only     age = accepted age + residence (mod 2^64, see C06_age_fits)
     ff_prev            exactly one previous-node block, naming this node (the old block's value
                        replaced in place, or a new block with flags 0 and no CRC). *)
Theorem C06_faithful :
  forall node now0 res0 copies0 keep0 b es st outs o b'',
    fw_node_ok node = true -> fw_accepted now0 b ->
    fw_history node now0 res0 copies0 keep0 b es = (st, outs) ->
    In o outs -> fw_copies_ok (fo_copies o) -> fo_result o = FwSend b'' ->
    (enc_bundle b'' = Some (bundle_bytes b'')
     /\ dec_bundle (fo_now o) (bundle_bytes b'') = Some (b'', [])
     /\ primary_bytes (b_pri b'') = primary_bytes (b_pri b)
     /\ payload_of b'' = payload_of b)
    /\ check_valid (fo_now o) b'' = true
    /\ fw_faithful node (fo_res o) (fw_is_some (fo_copies o)) b b''.
Proof.
  intros * Hn Ha Hh Ho Hc Hr.
  exact (fw_send_all _ _ _ _ _ Hn Ha (fw_history_inv _ _ _ _ _ _ _ _ _ Hh o Ho) Hc Hr).
Qed.
Print Assumptions C06_faithful.

(* the age counter is a uint64: it does not wrap for any physically possible age *)
Theorem C06_age_fits : forall n, n < 18446744073709551616 -> fw_u64 n = n.
Proof. intros n H. apply N.mod_small, H. Qed.
Print Assumptions C06_age_fits.

(* A bundle whose hop count would exceed its limit (count + 1 > limit as natural numbers), whose
   lifetime is over by its (non-zero) creation time, or whose age + residence has reached the
   lifetime ([fw_must_refuse]), is never transmitted: at the reception and at every retry of every
   history the result is a refusal. *)
Theorem C06_refuse :
  forall node now0 res0 copies0 keep0 b es st outs o,
    fw_accepted now0 b ->
    fw_history node now0 res0 copies0 keep0 b es = (st, outs) ->
    In o outs -> fw_must_refuse (fo_now o) (fo_res o) b ->
    exists r, fo_result o = FwRefuse r.
Proof.
  intros * Ha Hh Ho Hm.
  exact (fw_out_refuse _ _ _ _ Ha (fw_history_inv _ _ _ _ _ _ _ _ _ Hh o Ho) Hm).
Qed.
Print Assumptions C06_refuse.

(* ... and is dropped from the store: a refusal at the reception purges the item at once *)
Theorem C06_refuse_purged_first :
  forall node now0 now res copies keep b,
    fw_accepted now0 b -> fw_must_refuse now res b ->
    fst (fw_accept node now res copies keep b) = None.
Proof.
  intros * Ha Hm. destruct (fw_forward_refuse node _ _ _ _ Ha Hm) as (r & Hnl & Hr).
  unfold fw_accept. cbn [fst]. destruct (fw_receive_cases node now res b) as [E|E]; rewrite E; [reflexivity|].
  rewrite Hr. apply fw_store_after_refuse, Hnl.
Qed.
Print Assumptions C06_refuse_purged_first.

(* a refusal at a retry purges the item at once, except that a stored copy whose creation-time
   lifetime is over no longer loads (ParseBundle's CheckValid): it is skipped, never transmitted,
   and removed by the next clean_store sweep *)
Theorem C06_refuse_purged_retry :
  forall node now0 now res copies keep b,
    fw_accepted now0 b -> fw_must_refuse now res b ->
    fw_gone_or_swept node now b (fst (fw_step node (Some b) (FwEvRetry now res copies keep))).
Proof.
  intros * Ha Hm. destruct (fw_forward_refuse node _ _ _ _ Ha Hm) as (r & Hnl & Hr).
  cbn [fw_step fst]. unfold fw_retry. destruct (check_valid now b) eqn:V.
  - left. rewrite Hr. apply fw_store_after_refuse, Hnl.
  - right. destruct (fw_load_fails now0 now b (proj1 (proj2 Ha)) V) as [Ht L].
    split; [reflexivity|]. split; [exact Ht|]. split; [exact L|]. apply fw_swept; assumption.
Qed.
Print Assumptions C06_refuse_purged_retry.

(* once purged, nothing is ever transmitted for it again *)
Theorem C06_purged_stays : forall node es, fw_run node None es = (None, []).
Proof. intros node es. induction es as [|e es IH]; cbn [fw_run fw_step]; [reflexivity|]. rewrite IH. reflexivity. Qed.
Print Assumptions C06_purged_stays.

(* ---------------- the reception time, and the same bundle received again ----------------
   Timed histories [fw_trun node st es]: the state is the stored item = the copy as handed in plus
   its reception time [ti_rx] on a monotone clock (ms); events
     FwTRecv b wall delay now copies keep   bundle [b] is handed in at [wall] (processed [delay] ms later)
     FwTRetry wall now copies keep          a retry at [wall]: residence time = wall - ti_rx
     FwTClean now
   A bundle handed in while its ID is stored is a duplicate (whatever its hop count / age /
   previous node say): it is not transmitted and changes neither the stored copy nor the reception
   time; so the age transmitted by any later retry is the accepted age + the time since the FIRST
   reception.  Handed in when the store does not hold it (any more), it is a new reception. *)
Theorem C06_duplicate_ignored :
  forall node it b wall delay now copies keep,
    fw_tstep node (Some it) (FwTRecv b wall delay now copies keep) = (Some it, []).
Proof. reflexivity. Qed.
Print Assumptions C06_duplicate_ignored.

Theorem C06_item_stable :
  forall node it e st' outs, fw_tstep node (Some it) e = (st', outs) -> st' = None \/ st' = Some it.
Proof. intros * H. apply (fw_tstep_stored _ _ _ _ _ H). Qed.
Print Assumptions C06_item_stable.

Theorem C06_residence_since_reception :
  forall node it wall now copies keep st' outs o,
    fw_tstep node (Some it) (FwTRetry wall now copies keep) = (st', outs) -> In o outs ->
    fo_res o = wall - ti_rx it /\ fo_now o = now /\ fo_copies o = copies
    /\ fo_result o = fw_touch_result copies (fw_retry node now (wall - ti_rx it) (ti_b it)).
Proof.
  (* the pair equation is split by pair_equal_spec, not by inversion: see fw_step_inv *)
  cbn [fw_tstep fw_step]. intros * H. apply pair_equal_spec in H. destruct H as [_ <-]. intros [<-|[]]. repeat split.
Qed.
Print Assumptions C06_residence_since_reception.

(* a duplicate arriving while the bundle is stored can be deleted from the history without changing
   the final store state or anything that is transmitted, before or after it *)
Theorem C06_duplicate_transparent :
  forall node st es1 it o1 b wall delay now copies keep es2,
    fw_trun node st es1 = (Some it, o1) ->
    fw_trun node st (es1 ++ FwTRecv b wall delay now copies keep :: es2) = fw_trun node st (es1 ++ es2).
Proof.
  intros * H. rewrite !fw_trun_app, H. cbn [fw_trun fw_tstep]. destruct (fw_trun node (Some it) es2); reflexivity.
Qed.
Print Assumptions C06_duplicate_transparent.

(* C06_faithful and C06_refuse over timed histories (any interleaving of receptions of any accepted
   bundles, duplicates, retries and sweeps): every transmitted copy is a faithful copy of a bundle
   that was handed in, with the age grown by [fo_res] (= wall - reception time for retries, by
   C06_residence_since_reception), and what must be refused is refused *)
Theorem C06_faithful_timed :
  forall node es st outs o b'',
    fw_node_ok node = true ->
    (forall b, In b (fw_thanded es) -> exists now0, fw_accepted now0 b) ->
    fw_trun node None es = (st, outs) ->
    In o outs -> fw_copies_ok (fo_copies o) -> fo_result o = FwSend b'' ->
    exists b, In b (fw_thanded es)
    /\ (enc_bundle b'' = Some (bundle_bytes b'')
        /\ dec_bundle (fo_now o) (bundle_bytes b'') = Some (b'', [])
        /\ primary_bytes (b_pri b'') = primary_bytes (b_pri b)
        /\ payload_of b'' = payload_of b)
    /\ check_valid (fo_now o) b'' = true
    /\ fw_faithful node (fo_res o) (fw_is_some (fo_copies o)) b b''.
Proof.
  intros * Hn Hall Hh Ho Hc Hr. destruct (fw_trun_handed _ _ _ _ Hh o Ho) as (b & Hb & Hof).
  exists b. split; [exact Hb|]. destruct (Hall b Hb) as [now0 Ha]. exact (fw_send_all _ _ _ _ _ Hn Ha Hof Hc Hr).
Qed.
Print Assumptions C06_faithful_timed.

Theorem C06_refuse_timed :
  forall node es st outs o,
    (forall b, In b (fw_thanded es) -> exists now0, fw_accepted now0 b) ->
    fw_trun node None es = (st, outs) -> In o outs ->
    exists b, In b (fw_thanded es) /\ fw_out_of node b o
              /\ (fw_must_refuse (fo_now o) (fo_res o) b -> exists r, fo_result o = FwRefuse r).
Proof.
  intros * Hall Hh Ho. destruct (fw_trun_handed _ _ _ _ Hh o Ho) as (b & Hb & Hof).
  exists b. destruct (Hall b Hb) as [now0 Ha]. split; [exact Hb|]. split; [exact Hof|]. exact (fw_out_refuse _ _ _ _ Ha Hof).
Qed.
Print Assumptions C06_refuse_timed.

(* ---------------- non-vacuity ---------------- *)
Definition c06_node : eid := Dtn [110; 48] [].                       (* dtn://n0/ *)
Definition c06_pri (time life : N) : primary :=
  {| p_flags := 0; p_crc := 1; p_dst := Dtn [113] [105; 110]; p_src := Dtn [115] [97]; p_rpt := DtnNone;
     p_time := time; p_seq := 1; p_life := life; p_off := 0; p_total := 0 |}.
Definition c06_blk (num fl crc : N) (v : ext) : cblock := {| c_num := num; c_flags := fl; c_crc := crc; c_val := v |}.
(* hop 2 of 5, age 10 ms, an unsupported block (type 200) flagged for removal, payload "hi"; blocks not in number order *)
Definition c06_b : bundle :=
  {| b_pri := c06_pri 1000 3600000;
     b_blocks := [c06_blk 3 0 2 (XHop 5 2); c06_blk 2 1 0 (XAge 10); c06_blk 4 16 0 (XGeneric 200 [1]);
                  c06_blk 1 0 1 (XPayload [104; 105])] |}.

Example C06_ex_node_ok : fw_node_ok c06_node = true.
Proof. vm_compute. reflexivity. Qed.
Example C06_ex_accepted : fw_accepted 2000 c06_b.
Proof. repeat split; vm_compute; reflexivity. Qed.

(* first transmission after 50 ms: hop 3, age 60, previous node n0 added as block 4 (the removed
   block's number is free again), the unsupported block gone, payload last *)
Example C06_ex_first :
  fw_receive c06_node 2000 50 c06_b =
  FwSend {| b_pri := c06_pri 1000 3600000;
            b_blocks := [c06_blk 2 1 0 (XAge 60); c06_blk 3 0 2 (XHop 5 3); c06_blk 4 0 0 (XPrev c06_node);
                         c06_blk 1 0 1 (XPayload [104; 105])] |}.
Proof. vm_compute. reflexivity. Qed.
(* a retry 3 s later starts from the stored copy again: hop 3 (not 4), age 3010, block still removed *)
Example C06_ex_retry :
  fw_retry c06_node 5000 3000 c06_b =
  FwSend {| b_pri := c06_pri 1000 3600000;
            b_blocks := [c06_blk 2 1 0 (XAge 3010); c06_blk 3 0 2 (XHop 5 3); c06_blk 4 0 0 (XPrev c06_node);
                         c06_blk 1 0 1 (XPayload [104; 105])] |}.
Proof. vm_compute. reflexivity. Qed.
(* a whole history: reception (sent, kept), a retry (sent, released), a further retry finds nothing *)
Example C06_ex_history :
  let '(st, outs) := fw_history c06_node 2000 0 None true c06_b [FwEvRetry 2100 100 None false; FwEvRetry 2200 200 None true] in
  st = None /\ length outs = 2%nat.
Proof. vm_compute. split; reflexivity. Qed.

(* hop count 255 of limit 255: refused (the unrepaired code wrapped the counter and sent count 0) *)
Definition c06_hop (lim cnt : N) : bundle :=
  {| b_pri := c06_pri 1000 3600000;
     b_blocks := [c06_blk 2 0 0 (XHop lim cnt); c06_blk 1 0 0 (XPayload [])] |}.
Example C06_ex_hop255 : fw_receive c06_node 2000 0 (c06_hop 255 255) = FwRefuse FwHopLimit.
Proof. vm_compute. reflexivity. Qed.
Example C06_ex_hop_at_limit : fw_receive c06_node 2000 0 (c06_hop 7 7) = FwRefuse FwHopLimit.
Proof. vm_compute. reflexivity. Qed.
Example C06_ex_hop_must_refuse : fw_must_refuse 2000 0 (c06_hop 255 255) /\ fw_accepted 2000 (c06_hop 255 255).
Proof.
  split.
  - left. exists (c06_blk 2 0 0 (XHop 255 255)), 255, 255. split; [left; reflexivity|]. split; [reflexivity|]. reflexivity.
  - repeat split; vm_compute; reflexivity.
Qed.

(* clock-less bundle: lifetime 1000 ms, age 400: forwarded after 500 ms, refused after 600 ms;
   expired by creation time: refused at reception; the stored copy is skipped at a retry *)
Definition c06_age (time life age : N) : bundle :=
  {| b_pri := c06_pri time life;
     b_blocks := [c06_blk 2 0 0 (XAge age); c06_blk 1 0 0 (XPayload [])] |}.
Example C06_ex_age_ok : exists b', fw_retry c06_node 9000 500 (c06_age 0 1000 400) = FwSend b'.
Proof. eexists. vm_compute. reflexivity. Qed.
Example C06_ex_age_over : fw_retry c06_node 9000 600 (c06_age 0 1000 400) = FwRefuse FwAge.
Proof. vm_compute. reflexivity. Qed.
Example C06_ex_time_over :
  fw_receive c06_node 5000 0 (c06_age 1000 3000 0) = FwRefuse FwLifetime
  /\ fw_retry c06_node 5000 0 (c06_age 1000 3000 0) = FwRefuse FwLoad
  /\ fw_step c06_node (Some (c06_age 1000 3000 0)) (FwEvClean 5000) = (None, []).
Proof. vm_compute. repeat split; reflexivity. Qed.

(* received at 1000 (nobody to send to: kept), the same bundle again at 3000 - as it arrived over
   another path: hop 4, age 900 -, retry at 4000: sent with hop 3 and age 10 + 3000, not 10 + 1000 *)
Definition c06_b_otherpath : bundle :=
  {| b_pri := c06_pri 1000 3600000;
     b_blocks := [c06_blk 3 0 2 (XHop 5 4); c06_blk 2 1 0 (XAge 900); c06_blk 4 16 0 (XGeneric 200 [1]);
                  c06_blk 1 0 1 (XPayload [104; 105])] |}.
Example C06_ex_duplicate :
  let '(st, outs) := fw_trun c06_node None [FwTRecv c06_b 1000 0 2000 None true; FwTRecv c06_b_otherpath 3000 0 4000 None true;
                                            FwTRetry 4000 5000 None false] in
  st = None /\ map fo_res outs = [0; 3000]
  /\ nth_error (map fo_result outs) 1 = Some (fw_retry c06_node 5000 3000 c06_b)
  /\ exists b', fw_retry c06_node 5000 3000 c06_b = FwSend b' /\ find_type 7 (b_blocks b') = Some (c06_blk 2 1 0 (XAge 3010)).
Proof. vm_compute. repeat split. eexists. split; reflexivity. Qed.
