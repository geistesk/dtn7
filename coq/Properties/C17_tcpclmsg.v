(* C17 - TCPCLv4 message codec (part file, merged by ./check with Properties/C17.v): round trip with
   exact consumption, stream alignment, code fields.  The C04 part of the codec (no panic, no hang,
   allocation bounded by the bytes that arrived) is in Properties/C04_tcpclmsg.v.

   Reading guide: [tm_enc] is Marshal, [tm_read] is msgs.ReadMessage (type-octet dispatch to the
   Unmarshal of the type), [tm_dec_X] the Unmarshal of one type, [tm_stream] the loop of
   utils.MessageSwitchReaderWriter.handleIn.  A reader returns ([TmOk v rest | TmErr | TmPanic], alloc):
   the second component is the allocation account of the C04 part.  [tm_wf] are the values of the Go
   field types with an enumerated reason code and a node id of at most 65535 bytes - the encoder's
   only silent limit (see C17_tcpcl_sess_init_overlong). *)
From DTN Require Import Base ListFacts TcpclMsg TcpclMsgProofs ConstsOkTcpclMsg.
Open Scope N_scope.

(* ---------------- C17: round trip of the contact header and the seven messages ---------------- *)

Theorem C17_tcpcl_contact_roundtrip : forall f r, tm_wf (TmContact f) = true ->
  tm_dec_contact (tm_enc (TmContact f) ++ r) = (TmOk (TmContact f) r, 0).
Proof. exact (fun f => tm_read_roundtrip (TmContact f)). Qed.
Print Assumptions C17_tcpcl_contact_roundtrip.

Theorem C17_tcpcl_sess_init_roundtrip : forall k s t n r, tm_wf (TmSessInit k s t n) = true ->
  tm_dec_sess_init (tm_enc (TmSessInit k s t n) ++ r) = (TmOk (TmSessInit k s t n) r, 2 * nlen n).
Proof. exact (fun k s t n => tm_read_roundtrip (TmSessInit k s t n)). Qed.
Print Assumptions C17_tcpcl_sess_init_roundtrip.

Theorem C17_tcpcl_sess_term_roundtrip : forall f c r, tm_wf (TmSessTerm f c) = true ->
  tm_dec_sess_term (tm_enc (TmSessTerm f c) ++ r) = (TmOk (TmSessTerm f c) r, 0).
Proof. exact (fun f c => tm_read_roundtrip (TmSessTerm f c)). Qed.
Print Assumptions C17_tcpcl_sess_term_roundtrip.

Theorem C17_tcpcl_xfer_segment_roundtrip : forall f t d r, tm_wf (TmXferSegment f t d) = true ->
  tm_dec_xfer_segment (tm_enc (TmXferSegment f t d) ++ r)
  = (TmOk (TmXferSegment f t d) r, tm_cost (TmXferSegment f t d)).
Proof. exact (fun f t d => tm_read_roundtrip (TmXferSegment f t d)). Qed.
Print Assumptions C17_tcpcl_xfer_segment_roundtrip.

Theorem C17_tcpcl_xfer_ack_roundtrip : forall f t l r, tm_wf (TmXferAck f t l) = true ->
  tm_dec_xfer_ack (tm_enc (TmXferAck f t l) ++ r) = (TmOk (TmXferAck f t l) r, 0).
Proof. exact (fun f t l => tm_read_roundtrip (TmXferAck f t l)). Qed.
Print Assumptions C17_tcpcl_xfer_ack_roundtrip.

Theorem C17_tcpcl_xfer_refuse_roundtrip : forall c t r, tm_wf (TmXferRefuse c t) = true ->
  tm_dec_xfer_refuse (tm_enc (TmXferRefuse c t) ++ r) = (TmOk (TmXferRefuse c t) r, 0).
Proof. exact (fun c t => tm_read_roundtrip (TmXferRefuse c t)). Qed.
Print Assumptions C17_tcpcl_xfer_refuse_roundtrip.

Theorem C17_tcpcl_keepalive_roundtrip : forall r,
  tm_dec_keepalive (tm_enc TmKeepalive ++ r) = (TmOk TmKeepalive r, 0).
Proof. exact (fun r => tm_read_roundtrip TmKeepalive r eq_refl). Qed.
Print Assumptions C17_tcpcl_keepalive_roundtrip.

Theorem C17_tcpcl_msg_reject_roundtrip : forall c h r, tm_wf (TmMsgReject c h) = true ->
  tm_dec_msg_reject (tm_enc (TmMsgReject c h) ++ r) = (TmOk (TmMsgReject c h) r, 0).
Proof. exact (fun c h => tm_read_roundtrip (TmMsgReject c h)). Qed.
Print Assumptions C17_tcpcl_msg_reject_roundtrip.

(* ReadMessage: any well-formed message of any type, followed by anything, reads back as itself and
   leaves exactly what followed *)
Theorem C17_tcpcl_read_roundtrip : forall m r, tm_wf m = true ->
  tm_read (tm_enc m ++ r) = (TmOk m r, tm_cost m).
Proof. exact tm_read_roundtrip. Qed.
Print Assumptions C17_tcpcl_read_roundtrip.

(* consecutive messages on one stream stay aligned: reading the concatenation of the encodings of
   any list of well-formed messages returns exactly that list and ends at the end of the stream *)
Theorem C17_tcpcl_stream : forall ms, Forall (fun m => tm_wf m = true) ms ->
  tm_stream (tm_enc_all ms) = (ms, TmEof, tm_cost_all ms).
Proof. exact (fun ms H => tm_stream_fuel_roundtrip ms _ H (tm_enc_all_length ms)). Qed.
Print Assumptions C17_tcpcl_stream.

(* code fields: accepted exactly when in the enumerated set, whatever the other fields are *)
Theorem C17_tcpcl_reject :
  (forall b r, tm_type_known b = false -> tm_read (b :: r) = (TmErr, 0))
  /\ (forall b, tm_type_known b = true -> exists r, tm_is_ok (tm_read (b :: r)) = true)
  /\ (forall b, tm_type_known b = true <-> In b [1; 2; 3; 4; 5; 6; 7; 100])
  /\ (forall f c r, tm_read (5 :: f :: c :: r)
                    = if tm_term_valid c then (TmOk (TmSessTerm f c) r, 0) else (TmErr, 0))
  /\ (forall c, tm_term_valid c = true <-> In c [0; 1; 2; 3; 4; 5])
  /\ (forall c t8 r, length t8 = 8%nat ->
        tm_read (3 :: c :: t8 ++ r)
        = if tm_refuse_valid c then (TmOk (TmXferRefuse c (be_decode t8)) r, 0) else (TmErr, 0))
  /\ (forall c, tm_refuse_valid c = true <-> In c [0; 1; 2; 3; 4; 5; 6])
  /\ (forall c h r, tm_read (6 :: c :: h :: r)
                    = if tm_reject_valid c then (TmOk (TmMsgReject c h) r, 0) else (TmErr, 0))
  /\ (forall c, tm_reject_valid c = true <-> In c [1; 2; 3])
  /\ (forall a b c d e f r, tm_dec_contact (a :: b :: c :: d :: e :: f :: r)
        = if (a =? 100) && (b =? 116) && (c =? 110) && (d =? 33) && (e =? 4)
          then (TmOk (TmContact f) r, 0) else (TmErr, 0))
  /\ (forall b c d e f r, tm_read (100 :: b :: c :: d :: e :: f :: r)
        = if (b =? 116) && (c =? 110) && (d =? 33) && (e =? 4) then (TmOk (TmContact f) r, 0) else (TmErr, 0)).
Proof.
  exact (conj tm_type_reject (conj tm_type_accept (conj tm_type_known_enum
        (conj tm_sess_term_code (conj tm_term_valid_enum
        (conj tm_xfer_refuse_code (conj tm_refuse_valid_enum
        (conj tm_msg_reject_code (conj tm_reject_valid_enum
        (conj tm_contact_code tm_contact_read)))))))))).
Qed.
Print Assumptions C17_tcpcl_reject.

(* the same as the finite sweep: all 256 values of the type octet, the three reason codes, the five
   magic / version octets and the flags octet (other fields at sample values) *)
Theorem C17_tcpcl_reject_sweep : forall b, b < 256 -> tm_sweep_code b = true.
Proof. exact (forall_lt_sweep 256 _ tm_sweep_all). Qed.
Print Assumptions C17_tcpcl_reject_sweep.

(* beyond the encoder's limit: a node id of 65536 bytes is written with length field 0 (the uint16
   conversion wraps, all bytes are still written) and does not read back *)
Theorem C17_tcpcl_sess_init_overlong : forall k s t n r,
  k < tm_u16 -> s < tm_u64 -> t < tm_u64 -> nlen n = 65536 ->
  be_encode 2 (nlen n) = [0; 0]
  /\ forall r' a, tm_read (tm_enc (TmSessInit k s t n) ++ r) <> (TmOk (TmSessInit k s t n) r', a).
Proof. exact tm_sess_init_overlong. Qed.
Print Assumptions C17_tcpcl_sess_init_overlong.

(* ---------------- non-vacuity ---------------- *)
Example C17_tcpcl_example_sess_init :
  tm_enc (TmSessInit 30 1048576 1073741824 [100; 116; 110]) =
  [7; 0; 30; 0;0;0;0;0;16;0;0; 0;0;0;0;64;0;0;0; 0; 3; 100; 116; 110; 0;0;0;0]
  /\ tm_read (tm_enc (TmSessInit 30 1048576 1073741824 [100; 116; 110]) ++ [4])
     = (TmOk (TmSessInit 30 1048576 1073741824 [100; 116; 110]) [4], 6).
Proof. vm_compute. split; reflexivity. Qed.

Example C17_tcpcl_example_stream :
  tm_stream (tm_enc (TmContact 0) ++ tm_enc (TmXferSegment 3 1 [9; 9]) ++ tm_enc TmKeepalive ++ tm_enc (TmSessTerm 0 3))
  = ([TmContact 0; TmXferSegment 3 1 [9; 9]; TmKeepalive; TmSessTerm 0 3], TmEof, 1040).
Proof. vm_compute. reflexivity. Qed.

Example C17_tcpcl_example_reject :
  tm_read [5; 0; 6] = (TmErr, 0) /\ tm_read [3; 7; 0;0;0;0;0;0;0;1] = (TmErr, 0) /\ tm_read [6; 0; 1] = (TmErr, 0)
  /\ tm_read [8] = (TmErr, 0) /\ tm_read [100; 116; 110; 33; 3; 0] = (TmErr, 0).
Proof. vm_compute. repeat split; reflexivity. Qed.

