(* C03 - block CRCs are computed per specification and every mismatch is rejected. *)
From DTN Require Import Base ListFacts Cbor Crc CrcProofs Eid Bundle BundleWf BundleProofs DecodeInv CrcBlock ConstsOkCodec.
Open Scope N_scope.

(* CRC-16/X-25 and CRC-32C are defined bit-serially from their catalogue parameters (Model/Crc.v);
   the standard check values hold. *)
Theorem C03_check_values :
  crc16_x25 [49;50;51;52;53;54;55;56;57] = 36974 /\ crc32c [49;50;51;52;53;54;55;56;57] = 3808858755.
Proof. exact (conj crc16_check crc32c_check). Qed.
Print Assumptions C03_check_values.

(* A canonical / primary block that declares a CRC (type 1 or 2) is accepted only if its own
   received bytes w - exactly what the decoder consumed - end in the CRC value computed over w with
   the value replaced by zeros. *)
Theorem C03_accept_implies_crc_canonical : forall w r c,
  dec_cblock (w ++ r) = Ok c r -> c_crc c <> 0 -> crc_holds (c_crc c) w.
Proof. exact accepted_crc_holds. Qed.
Print Assumptions C03_accept_implies_crc_canonical.

Theorem C03_accept_implies_crc_primary : forall w r p,
  dec_primary (w ++ r) = Ok p r -> p_crc p <> 0 -> crc_holds (p_crc p) w.
Proof. exact accepted_primary_crc_holds. Qed.
Print Assumptions C03_accept_implies_crc_primary.

(* The serialiser writes that value. *)
Theorem C03_encode_writes_crc :
  (forall c, cblock_wf c = true -> c_crc c <> 0 -> crc_holds (c_crc c) (cblock_bytes c))
  /\ (forall p, primary_wf p = true -> p_crc p <> 0 -> crc_holds (p_crc p) (primary_bytes p)).
Proof. exact (conj encoded_cblock_crc_holds encoded_primary_crc_holds). Qed.
Print Assumptions C03_encode_writes_crc.

(* Consequently: two blocks with the same boundaries and CRC type that both satisfy the CRC
   equation cannot differ by a non-zero burst of at most 16 resp. 32 bits (in the CRC's own bit
   order: LSB first within a byte; in particular not by a single bit, and not by any change confined
   to 2 resp. 4 consecutive bytes) inside the covered bytes while carrying the same CRC value; nor
   can they carry different CRC values over the same covered bytes.  So if the original block is
   accepted, the corrupted one is rejected. Bursts straddling covered bytes and the CRC value: see
   Properties/C03_straddle.v (C03_straddle_rejected covers every position). Here they are
   not covered by this (older, narrower) theorem. *)
Theorem C03_burst_rejected : forall t w1 w2,
  (t = 1 \/ t = 2) -> crc_holds t w1 -> crc_holds t w2 ->
  forall len d1 d2 v pre e post,
    crc_len t = Some len -> w1 = d1 ++ v -> w2 = d2 ++ v -> length v = len -> length d1 = length d2 ->
    xorbits (bytes_bits d1) (bytes_bits d2) = repeat false pre ++ e ++ repeat false post ->
    N.of_nat (length e) <= 8 * N.of_nat len -> word e <> 0 -> False.
Proof.
  intros t w1 w2 Ht H1 H2 len d1 d2 v pre e post Hl -> -> Hv Hd Hx Hlen Hne.
  destruct (crc_types t Ht) as (len' & P & init & xo & Hs).
  assert (len' = len) by (destruct Hs; congruence). subst len'.
  (* the same value field: the CRC values over the covered bytes followed by zeros are equal *)
  pose proof (crc_holds_at t len d1 v H1 Hl Hv) as E1. pose proof (crc_holds_at t len d2 v H2 Hl Hv) as E2.
  rewrite E1 in E2. apply be_encode_inj in E2; try apply (crc_value_lt t len P init xo _ Hs).
  destruct Hs as (_ & Hp & _ & _ & Hval). rewrite !Hval in E2. revert E2.
  apply (update_burst _ P init xo _ _ pre e (post + 8 * len) Hp); try assumption.
  - rewrite !app_length, Hd. reflexivity.
  - rewrite xorbits_bytes_app_same, Hx, zeros_length, <- !app_assoc, <- repeat_app by exact Hd. reflexivity.
Qed.
Print Assumptions C03_burst_rejected.

Theorem C03_value_corruption_rejected : forall t w1 w2 d v1 v2 len,
  crc_holds t w1 -> crc_holds t w2 -> crc_len t = Some len ->
  w1 = d ++ v1 -> w2 = d ++ v2 -> length v1 = len -> length v2 = len -> v1 = v2.
Proof.
  intros t w1 w2 d v1 v2 len H1 H2 Hl -> -> Hv1 Hv2.
  rewrite (crc_holds_at t len d v1 H1 Hl Hv1). exact (eq_sym (crc_holds_at t len d v2 H2 Hl Hv2)).
Qed.
Print Assumptions C03_value_corruption_rejected.

(* non-vacuity: an encoded block with CRC-16 satisfies the equation *)
Example C03_example : crc_holds 1 (cblock_bytes {| c_num := 2; c_flags := 0; c_crc := 1; c_val := XAge 24 |}).
Proof.
  exact (encoded_cblock_crc_holds {| c_num := 2; c_flags := 0; c_crc := 1; c_val := XAge 24 |} eq_refl (fun H => N.neq_succ_0 0 H)).
Qed.
