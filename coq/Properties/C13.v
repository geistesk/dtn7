(* C13 - a bundle is never sent back to where it came from, nor twice to the same peer.

   Model: Model/SentList.v - the life of one bundle at the node as a list of events (SlNew prev,
   SlChoose candidates budget, SlOk p, SlFail p, SlRestart persistent, SlDrop), generic over the
   algorithm: epidemic / PRoPHET / DTLSR-broadcast keep `sent` in the store (persistent = true),
   the spray variants in memory (persistent = false) and with a budget; PRoPHET's candidates are
   the peers with a better predictability; the mule wrapper reports the sensors it excludes as
   failed.  The histories are arbitrary (any peer sets in any order, any outcome of every send,
   any number of retries and restarts, any number of peers); [sl_held h] = the bundle stays in
   the store during h (no SlNew / SlDrop). *)
From DTN Require Import Base SentList SentListProofs ConstsOkSentList.
Open Scope N_scope.

(* Whatever happened before the reception, and whatever happens after it while the bundle is
   held: no choice of the algorithm contains the previous node. *)
Theorem C13_no_return : forall s0 h1 prev h2 s cands k s' chosen,
  sl_run s0 (h1 ++ SlNew (Some prev) :: h2) = Some s -> sl_held h2 ->
  sl_step s (SlChoose cands k) = Some (s', chosen) -> ~ In prev chosen.
Proof.
  intros s0 h1 prev h2 s cands k s' chosen R Hh C. apply sl_after_new in R.
  eapply sl_blocked_held; eauto using sl_inv_fresh. right. cbn. tauto.
Qed.
Print Assumptions C13_no_return.

(* After a transmission to p was acknowledged, no later choice contains p while the bundle is
   held - across retries, peers going and coming, failures of other peers and restarts. *)
Theorem C13_no_duplicate : forall s0 h0 prev h1 p h2 s cands k s' chosen,
  sl_run s0 (h0 ++ SlNew prev :: h1 ++ SlOk p :: h2) = Some s -> sl_held h2 ->
  sl_step s (SlChoose cands k) = Some (s', chosen) -> ~ In p chosen.
Proof.
  intros s0 h0 prev h1 p h2 s cands k s' chosen R Hh C. apply sl_after_new in R.
  apply sl_run_app in R as (s1 & R1 & R2). cbn [sl_run] in R2.
  destruct (sl_step s1 (SlOk p)) as [[s2 o]|] eqn:S; [|discriminate].
  pose proof (sl_inv_run _ _ _ R1 (sl_inv_fresh prev)) as I1.
  eapply (sl_blocked_held p s2); eauto using sl_inv_step, sl_ok_blocked.
Qed.
Print Assumptions C13_no_duplicate.

(* The memory survives: [sl_held] admits any number of SlChoose (retries) and SlRestart in h2
   above; in particular a restart leaves a store-kept list unchanged, and an algorithm that keeps
   it in memory offers nothing any more. *)
Theorem C13_memory_survives : forall s pers s' o,
  sl_step s (SlRestart pers) = Some (s', o) ->
  sl_sent s' = sl_sent s /\ (pers = true -> sl_alive s' = sl_alive s)
  /\ (pers = false -> forall cands k s'' chosen, sl_step s' (SlChoose cands k) = Some (s'', chosen) -> chosen = []).
Proof.
  intros s pers s' o H. cbn [sl_step] in H. destruct (sl_inflight s); [|discriminate]. injection H as <- _. cbn.
  split; [reflexivity|]. split; [intros ->; apply andb_true_r|].
  intros -> cands k s'' chosen C. cbn in C. rewrite andb_false_r in C. now injection C.
Qed.
Print Assumptions C13_memory_survives.

(* A transmission reported as failed makes exactly that peer eligible again: it leaves `sent`,
   every other peer's membership is unchanged, and - after the outcomes of the other
   transmissions of the same round - an unbounded choice over candidates containing p offers p.
   (ReportFailure is one atomic step here; the lost update of two concurrent reports is C05/C18.) *)
Theorem C13_failure_reopens : forall s0 h0 prev h1 p sb s,
  sl_run s0 (h0 ++ SlNew prev :: h1) = Some sb ->
  sl_step sb (SlFail p) = Some (s, []) ->
  ~ In p (sl_sent s)
  /\ (forall q, q <> p -> (In q (sl_sent s) <-> In q (sl_sent sb)))
  /\ (forall h2 s2 cands k s3 chosen,
        Forall (sl_result_not p) h2 -> sl_run s h2 = Some s2 -> sl_alive s2 = true ->
        sl_step s2 (SlChoose cands k) = Some (s3, chosen) -> (length cands <= k)%nat ->
        In p cands -> In p chosen).
Proof.
  intros s0 h0 prev h1 p sb s R F. apply sl_after_new in R.
  destruct (sl_inv_run _ _ _ R (sl_inv_fresh prev)) as (A & _).
  cbn [sl_step] in F. destruct (sl_mem p (sl_inflight sb)); [|discriminate]. injection F as <-. cbn [sl_sent].
  pose proof (proj2 (sl_remove1_nodup p _ A)) as Hn.
  split; [exact Hn|]. split.
  { intros q Hq. split; [apply sl_remove1_in|apply sl_remove1_other; exact Hq]. }
  intros h2 s2 cands k s3 chosen Hr R2 AL Cc Hk Hp.
  apply sl_choose_inv in Cc as (_ & [(AL' & _)|(_ & Rf & _)]); [congruence|].
  eapply sl_filter_complete; eauto. eapply sl_absent_run; eauto.
Qed.
Print Assumptions C13_failure_reopens.

(* non-vacuity: received from 1; peers 1 2 3 offered -> 2 and 3 chosen; 2 fails, 3 succeeds;
   restart; retry with 1 2 3 4 -> 2 and 4 *)
Example C13_example :
  match sl_run (sl_fresh None) [SlNew (Some 1); SlChoose [1; 2; 3] 3; SlFail 2; SlOk 3; SlRestart true] with
  | Some s => sl_step s (SlChoose [1; 2; 3; 4] 4)
              = Some ({| sl_sent := [1; 3; 2; 4]; sl_inflight := [2; 4]; sl_alive := true |}, [2; 4])
  | None => False
  end.
Proof. vm_compute. reflexivity. Qed.

(* two senders of one peer: the second is skipped; a budget of one offers one peer *)
Example C13_example_budget :
  sl_filter [] [5; 5; 6] 3 = ([5; 6], [5; 6]) /\ sl_filter [] [5; 6] 1 = ([5], [5]).
Proof. vm_compute. split; reflexivity. Qed.

(* the bundle leaves the node and is received again from another neighbour: received from 1, relayed
   to 2 and 3 (acknowledged), dropped (delivered directly and deleted / expired), received again from
   3: the old list is gone, the new previous node is recorded - offered to 1 and 2, not to 3
   (C13_no_return with h1 = everything before the second SlNew) *)
Example C13_example_received_again :
  match sl_run (sl_fresh None) [SlNew (Some 1); SlChoose [1; 2; 3] 3; SlOk 2; SlOk 3; SlDrop; SlNew (Some 3)] with
  | Some s => sl_step s (SlChoose [1; 2; 3] 3)
              = Some ({| sl_sent := [3; 1; 2]; sl_inflight := [1; 2]; sl_alive := true |}, [1; 2])
  | None => False
  end.
Proof. vm_compute. reflexivity. Qed.
