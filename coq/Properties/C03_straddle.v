(* C03 (straddling bursts) - closes the sub-case stated as PARTIAL in C03.v: bursts that straddle the
   covered bytes and the CRC value of a block. *)
From DTN Require Import Base Crc CrcProofs CrcBlock CrcStraddle.
Open Scope N_scope.

(* Two equal-length blocks w1, w2 (each = covered bytes ++ CRC value) that both satisfy the CRC
   equation for CRC-16/X-25 (t = 1) or CRC-32C (t = 2) cannot differ by a non-zero burst of at most
   16 resp. 32 bits located ANYWHERE in the block - inside the covered bytes, inside the value, or
   across the boundary between them - when the byte just before the value (the CBOR byte-string head
   0x42 / 0x44 of the CRC field, i.e. "block boundaries intact") is the same in both.  Bit order: the
   one of bytes_bits over the whole block (LSB first within every byte, bytes in stream order), for
   the value bytes too.  So if the original block is accepted, the corrupted one is rejected. *)
Theorem C03_straddle_rejected : forall t w1 w2,
  (t = 1 \/ t = 2) -> crc_holds t w1 -> crc_holds t w2 -> length w1 = length w2 ->
  forall len pre e post,
    crc_len t = Some len ->
    xorbits (bytes_bits w1) (bytes_bits w2) = repeat false pre ++ e ++ repeat false post ->
    N.of_nat (length e) <= 8 * N.of_nat len -> word e <> 0 ->
    nth_error w1 (length w1 - len - 1) = nth_error w2 (length w2 - len - 1) ->
    False.
Proof.
  intros t w1 w2 Ht H1 H2 Hlen len pre e post Hl Hx He Hne Hh.
  destruct (crc_holds_split t len w1 H1 Hl) as (d1 & v1 & -> & Hv1 & E1).
  destruct (crc_holds_split t len w2 H2 Hl) as (d2 & v2 & -> & Hv2 & E2).
  assert (Hd : length d1 = length d2) by (rewrite !app_length in Hlen; lia).
  destruct (crc_types_masks t Ht) as (len' & P & init & xo & Hs & Hm).
  assert (len' = len) by (destruct Hs; congruence). subst len'.
  apply (straddle_generic t len P init xo Hs Hm d1 d2 v1 v2 pre e post Hd E1 E2 Hx); [lia|exact Hne|exact Hh].
Qed.
Print Assumptions C03_straddle_rejected.

(* The head-byte premise is necessary: two CRC-32C blocks satisfying the equation that differ by a
   32-bit burst which starts in the byte before the value. *)
Theorem C03_straddle_head_needed :
  exists w1 w2 pre e post,
    crc_holds 2 w1 /\ crc_holds 2 w2 /\ length w1 = length w2
    /\ xorbits (bytes_bits w1) (bytes_bits w2) = repeat false pre ++ e ++ repeat false post
    /\ N.of_nat (length e) <= 8 * N.of_nat 4 /\ word e <> 0.
Proof.
  exists [1;2;3;68;246;186;137;249], [1;2;3;196;152;24;92;165], 31%nat,
    (firstn 32 (skipn 31 (xorbits (bytes_bits [1;2;3;68;246;186;137;249]) (bytes_bits [1;2;3;196;152;24;92;165])))), 1%nat.
  split; [exists 4%nat, [1;2;3;68], [246;186;137;249]; repeat split|].
  split; [exists 4%nat, [1;2;3;196], [152;24;92;165]; repeat split|].
  split; [reflexivity|]. split; [vm_compute; reflexivity|].
  split; vm_compute; intros X; discriminate X.
Qed.
Print Assumptions C03_straddle_head_needed.

(* non-vacuity: the encoded canonical block {num 2, flags 0, CRC-16, bundle age 24} satisfies the
   equation, and C03_straddle_rejected rejects its corruption by a 10-bit burst across the boundary
   (bit 7 of the byte before the head byte and bit 0 of the first value byte) *)
Example C03_straddle_example :
  crc_holds 1 [134;7;2;0;1;66;24;24;66;217;50] /\ ~ crc_holds 1 [134;7;2;0;1;66;24;152;66;216;50].
Proof.
  assert (H1 : crc_holds 1 [134;7;2;0;1;66;24;24;66;217;50])
    by (exists 2%nat, [134;7;2;0;1;66;24;24;66], [217;50]; repeat split).
  split; [exact H1|]. intros H2.
  apply (C03_straddle_rejected 1 _ _ (or_introl eq_refl) H1 H2 eq_refl 2%nat 63%nat
           [true;false;false;false;false;false;false;false;false;true] 15%nat eq_refl).
  - vm_compute. reflexivity.
  - vm_compute. intros X. discriminate X.
  - vm_compute. intros X. discriminate X.
  - reflexivity.
Qed.
