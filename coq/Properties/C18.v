(* C18 - spray-and-wait never exceeds, and never leaks, its copy budget.

   Model: Model/Spray.v - one bundle on one node (the Go metadata is keyed by bundle ID; the
   differential check runs several bundles per node against independent instances of this model).
   [spray_run c spray_init h] runs a history [h] of events, each paired with the oracle (the senders
   SenderForBundle picked - Go map order - validated by a guard, never predicted); it is [None] when
   the observation is not one the model allows.  The theorems hold for every L, every history and
   every oracle.

   Lives of a bundle.  The node remembers a bundle only while the store knows it: a duplicate of a
   stored bundle is dropped by Core.receive before the algorithm hears of it ([SeCreate] on a stored
   bundle is a no-op), but a bundle that has left the store (delivered to its destination) and is
   received again - e.g. a bundle of ours coming back from a neighbour - is a new bundle to the
   node, and NotifyNewBundle initialises its metadata afresh, with the full budget and, since fix
   772c5cf, the node it came from in the sent list.  The budget theorems are therefore stated per
   life: [spray_life c spray_init [] h = Some (s, outs)] runs the history like [spray_run] and
   yields in [outs] the transmissions since the bundle last entered the store (C18_life: same
   final state, [outs] is the tail of all transmissions; for a history with one create event it
   *is* [spray_run], so the statements below are the former ones there).  Across lives the budget
   is not kept - C18_budget_across_lives shows the count exceeding L-1; the implementation has
   nowhere to remember it (reported as a finding, not repaired here).

   Changed with fix 772c5cf (SprayAndWait records the previous node of an own bundle):
     * C18_budget / C18_accounting / C18_sent_list need [hist_wf] (the bundle is not received from
       its own destination node), as the binary theorems always did: the recorded previous node is
       in [sent], so a failed direct delivery *to it* is given back as a copy although none was
       taken.  C18_budget_needs_wf shows the budget exceeded without the hypothesis.
     * the budget is counted in copies handed over (remaining + handed over = L), not in the
       length of the sent list: the recorded previous node is excluded from the selection without
       having consumed a copy (C18_sent_list, C18_example_comeback). *)
From DTN Require Import Base ListFacts SpecSpray Spray SprayProofs ConstsOkSpray.
Open Scope N_scope.

(* ---- vanilla spray-and-wait ---- *)

(* Budget: for a bundle originated at this node with budget L the number of successful transmissions
   to peers other than the destination never exceeds L-1 - any number and order of peer
   appearances / disappearances, links starting and stopping to fail, retries, GC, duplicates
   received while the bundle is stored, and the bundle coming back from a neighbour (with or
   without a PreviousNodeBlock) after it left the store. *)
Theorem C18_budget : forall L h s outs,
  spray_life (vconf L) spray_init [] h = Some (s, outs) ->
  hist_originated h = true -> hist_wf h = true ->
  spray_relayed (ss_dst s) outs <= L - 1.
Proof.
  intros L h s outs H Ho Hwf. destruct (vinv_life L h s outs H Ho Hwf) as (_ & _ & Hle).
  rewrite spray_relayed_nodes. exact Hle.
Qed.
Print Assumptions C18_budget.

(* [spray_life] is [spray_run] with the transmissions cut at the last entry into the store ... *)
Theorem C18_life : forall c h s acc,
  (forall s' cur, spray_life c s acc h = Some (s', cur) ->
     exists o pre, spray_run c s h = Some (s', o) /\ acc ++ o = pre ++ cur)
  /\ (forall s' o, spray_run c s h = Some (s', o) -> exists cur, spray_life c s acc h = Some (s', cur)).
Proof. intros c h s acc. split; [apply life_run | intros s' o; apply run_life]. Qed.
Print Assumptions C18_life.

(* ... and for a bundle that enters the store once it is [spray_run]: the theorems of this file
   then speak about all transmissions of the history, as they did before re-creation was modelled *)
Theorem C18_life_single_create : forall c h,
  hist_once h = true -> spray_life c spray_init [] h = spray_run c spray_init h.
Proof. intros c h Ho. apply life_run_once; [reflexivity | exact Ho]. Qed.
Print Assumptions C18_life_single_create.

(* Never leaked, never inflated: whenever metadata exists, remaining copies + copies handed over
   successfully = L exactly (so every failed transmission, also a failed direct delivery, left the
   budget unchanged), and at least one copy is always kept (L > 0). *)
Theorem C18_accounting : forall L h s outs m,
  spray_life (vconf L) spray_init [] h = Some (s, outs) ->
  hist_originated h = true -> hist_wf h = true ->
  ss_meta s = Some m ->
  sm_rem m + spray_relayed (ss_dst s) outs = L /\ 1 <= sm_rem m + (if L =? 0 then 1 else 0).
Proof.
  intros L h s outs m H Ho Hwf Hm. destruct (vinv_life L h s outs H Ho Hwf) as (_ & Hb & _).
  destruct (Hb m Hm) as (B1 & _ & B3). rewrite spray_relayed_nodes. split; [exact B1|].
  destruct (N.eqb_spec L 0); [lia|]. destruct B3 as [B3|B3]; [|lia]. rewrite B3 in B1. cbn in B1. lia.
Qed.
Print Assumptions C18_accounting.

(* What the sent list is (new with fix 772c5cf): the peers a copy was handed to in this life and at
   most one further node [excl] - the previous node of a bundle that was received - which is
   excluded from the selection like them but, by C18_accounting, has not been paid for:
   |sent| = handed over + |excl|, remaining + handed over = L. *)
Theorem C18_sent_list : forall L h s outs m,
  spray_life (vconf L) spray_init [] h = Some (s, outs) ->
  hist_originated h = true -> hist_wf h = true ->
  ss_meta s = Some m ->
  exists excl, nlen excl <= 1
    /\ (forall x, In x excl -> ~ In x (relay_nodes (ss_dst s) outs))
    /\ (forall x, In x (sm_sent m) <-> In x (relay_nodes (ss_dst s) outs) \/ In x excl)
    /\ nlen (sm_sent m) = spray_relayed (ss_dst s) outs + nlen excl.
Proof.
  intros L h s outs m H Ho Hwf Hm. destruct (vinv_life L h s outs H Ho Hwf) as ((_ & _ & I3) & Hb & _).
  destruct (Hb m Hm) as (_ & (excl & E1 & E2) & _). destruct (I3 m Hm) as [Hnd _]. rewrite E2 in *.
  exists excl. split; [exact E1|]. split; [exact (proj2 (NoDup_app_inv _ _ Hnd))|].
  split; [intro x; rewrite in_app_iff; tauto|]. rewrite nlen_app, spray_relayed_nodes. lia.
Qed.
Print Assumptions C18_sent_list.

(* Give-back, one forwarding pass (any bundle, also a received one, in any state satisfying the
   structural invariant [sinv] that every reachable state has - C18_reachable): the copies taken
   by the selection minus the ones whose transmission failed are exactly the successful ones. *)
Theorem C18_giveback : forall c s ch s' outs m,
  sc_algo c = SprayVanilla -> sinv s -> ss_meta s = Some m ->
  spray_attempt c s ch = Some (s', outs) ->
  exists m', ss_meta s' = Some m'
    /\ sm_rem m' + spray_relayed (ss_dst s) outs = sm_rem m
    /\ (forall x, In x (sm_sent m') <-> In x (sm_sent m) \/ In x (relay_nodes (ss_dst s) outs))
    /\ nlen (sm_sent m') = nlen (sm_sent m) + spray_relayed (ss_dst s) outs.
Proof.
  intros c s ch s' outs m Hv Hi Hm H.
  destruct (attempt_meta _ _ _ _ _ _ Hi Hm H) as (m' & Hm' & Hs & Hr & _). rewrite Hv in Hr.
  exists m'. rewrite spray_relayed_nodes, Hs. split; [exact Hm'|]. split; [lia|].
  split; [intro x; apply in_app_iff | apply nlen_app].
Qed.
Print Assumptions C18_giveback.

Theorem C18_reachable : forall c h s outs,
  spray_run c spray_init h = Some (s, outs) -> hist_wf h = true -> sinv s.
Proof.
  intros c h s outs H Hwf. destruct (run_life _ _ _ [] _ _ H) as [cur Hl]. exact (sinv_life _ _ _ _ Hl Hwf).
Qed.
Print Assumptions C18_reachable.

(* Several failures reported at once: ReportFailure of two concurrent callers as sub-steps
   (lock, read, modify+write, unlock), all schedules.  Whenever both are through, the metadata is
   what the two reports give one after the other - in both orders, which coincide. *)
Theorem C18_giveback_concurrent : forall a b1 b2 x y m sched,
  NoDup (sm_sent m) -> (x <> y \/ b1 = b2) ->
  let fA := spray_report_failure a b1 x in
  let fB := spray_report_failure a b2 y in
  let s := rf_run true fA fB (rf_init (Some m)) sched in
  rf_finished s = true ->
  rs_shared s = Some (fB (fA m)) /\ rs_shared s = Some (fA (fB m)).
Proof.
  intros a b1 b2 x y m sched _ Hxy fA fB s Hf.
  assert (Hc : fA (fB m) = fB (fA m)) by (apply report_failure_comm; exact Hxy).
  destruct (rf_locked_serialisable fA fB (Some m) sched Hf) as [H|H]; cbn [option_map] in H;
    fold s in H; rewrite H, Hc; split; reflexivity.
Qed.
Print Assumptions C18_giveback_concurrent.

(* a single report undoes exactly what the selection of that peer did *)
Theorem C18_giveback_single : forall g x r sent, ~ In x sent -> g <= r ->
  spray_rf_write g x {| sm_rem := r - g; sm_sent := sent ++ [x] |} = {| sm_rem := r; sm_sent := sent |}.
Proof.
  intros g x r sent Hn Hg. rewrite rf_write_in by (apply in_elt).
  cbn [sm_rem sm_sent]. rewrite remove_first_middle by exact Hn. rewrite app_nil_r. f_equal. lia.
Qed.
Print Assumptions C18_giveback_single.

(* ---- binary spray ---- *)

(* One forwarding pass from any state with the structural invariant: either nothing goes to a
   non-destination peer and the count is unchanged (in particular after a failed direct delivery),
   or exactly one bundle goes to one non-destination peer, the sender held r >= 2 copies, the
   bundle announces floor(r/2), and on success the sender keeps r - floor(r/2) (announced + kept
   = held before), on failure count and sent list are exactly as before. *)
Theorem C18_binary : forall c s ch s' outs m,
  sc_algo c = SprayBinary -> sinv s -> ss_meta s = Some m ->
  spray_attempt c s ch = Some (s', outs) ->
  exists m', ss_meta s' = Some m' /\
    ( ((forall o, In o outs -> sn_direct o = true /\ sn_node o = ss_dst s) /\ m' = m)
      \/ (exists o, outs = [o] /\ sn_direct o = false /\ sn_node o <> ss_dst s
            /\ 2 <= sm_rem m
            /\ sn_blk o = Some (sm_rem m / 2)
            /\ (sn_ok o = true -> sm_rem m' = sm_rem m - sm_rem m / 2 /\ sm_rem m' + sm_rem m / 2 = sm_rem m
                                  /\ sm_sent m' = sm_sent m ++ [sn_node o])
            /\ (sn_ok o = false -> m' = m)) ).
Proof.
  intros c s ch s' outs m Hb Hi Hm H.
  destruct (attempt_cases _ _ _ _ _ Hi H) as [-> -> | m0 st _ Hm0 Hd -> | m0 chosen g blk _ Hm0 _ _ Hch Hle Ha -> ->].
  - exists m. split; [exact Hm|]. left. split; [intros o [] | reflexivity].
  - exists m0. split; [reflexivity|]. left. split; [exact Hd | congruence].
  - assert (m0 = m) by congruence. subst m0. rewrite Hb in Ha. destruct Ha as (-> & -> & [->|(Hr & p & ->)]).
    + exists m. split; [cbn; rewrite paid_nil; reflexivity | left; split; [intros o [] | reflexivity]].
    + eexists. split; [reflexivity|]. right. eexists. split; [reflexivity|].
      cbn [mk_send sn_direct sn_node sn_blk sn_ok].
      split; [reflexivity|]. split; [apply Hch; left; reflexivity|]. split; [exact Hr|]. split; [reflexivity|].
      rewrite ok_nodes_cons. cbn in Hle. split; intro Hok.
      * apply negb_true_iff in Hok. rewrite Hok. cbn. repeat split; lia.
      * apply negb_false_iff in Hok. rewrite Hok. apply paid_nil.
Qed.
Print Assumptions C18_binary.

(* a node holding a single copy (or none) only ever transmits to the destination itself *)
Theorem C18_binary_single_copy : forall c s ch s' outs m,
  sc_algo c = SprayBinary -> sinv s -> ss_meta s = Some m -> sm_rem m < 2 ->
  spray_attempt c s ch = Some (s', outs) ->
  forall o, In o outs -> sn_node o = ss_dst s.
Proof.
  intros c s ch s' outs m Hb Hi Hm Hr H o Ho.
  destruct (C18_binary c s ch s' outs m Hb Hi Hm H) as [m' [_ [[Hd _] | [o' (_ & _ & _ & H2 & _)]]]].
  - exact (proj2 (Hd o Ho)).
  - exfalso. apply (N.lt_irrefl 2). eapply N.le_lt_trans; eassumption.
Qed.
Print Assumptions C18_binary_single_copy.

(* over every history: copies kept + copies handed over successfully (since the bundle entered the
   store) = copies the bundle started with (the announced value of a received bundle, L for a
   bundle without the block) *)
Theorem C18_binary_conservation : forall L h s outs m,
  spray_life (bconf L) spray_init [] h = Some (s, outs) -> hist_wf h = true -> ss_meta s = Some m ->
  sm_rem m + bspray_handed (ss_dst s) outs = spray_initial L s.
Proof. intros L h s outs m H Hwf Hm. exact (proj2 (binv_life L h s outs H Hwf) m Hm). Qed.
Print Assumptions C18_binary_conservation.

(* ---- the periodic metadata garbage collection running concurrently with an event ----
   GarbageCollect holds the metadata write lock for its whole duration, so with respect to the
   metadata accesses of submit / forward / failure reports it is atomic; for one bundle the run is
   the event preceded or followed by SeGC ([spray_step_gc], Model/Spray.v).  That is a history: all
   theorems above (budget, accounting, give-back, conservation) hold for histories in which any
   event overlaps a collection.  And while the store knows the bundle the collection is invisible:
   no metadata update of the event is lost.  (That the implementation serialises the collection in
   this way is what generator C18sprayconc checks on the real code.) *)
Theorem C18_gc_overlap_serial : forall b c s e ch,
  spray_step_gc b c s e ch
  = spray_run c s (if b then [(SeGC, []); (e, ch)] else [(e, ch); (SeGC, [])]).
Proof.
  intros b c s e ch. unfold spray_step_gc. destruct b; cbn [spray_run].
  - rewrite gc_step_shape.
    destruct (spray_step c (if ss_stored s then s else set_meta_stored s None false) e ch) as [[s2 o]|];
      [|reflexivity].
    cbn [app]. rewrite app_nil_r. reflexivity.
  - destruct (spray_step c s e ch) as [[s1 o]|]; [|reflexivity].
    rewrite gc_step_shape. cbn [app]. rewrite app_nil_r. reflexivity.
Qed.
Print Assumptions C18_gc_overlap_serial.

Theorem C18_gc_overlap_transparent : forall b c s e ch s' o,
  ss_stored s = true -> spray_step c s e ch = Some (s', o) -> ss_stored s' = true ->
  spray_step_gc b c s e ch = Some (s', o).
Proof.
  intros b c s e ch s' o Hs He Hs'. unfold spray_step_gc. destruct b.
  - rewrite gc_step_shape, Hs. exact He.
  - rewrite He, gc_step_shape, Hs'. reflexivity.
Qed.
Print Assumptions C18_gc_overlap_transparent.

(* ---- non-vacuity ---- *)

(* the lock is needed: with the original discipline (read under RLock, write under Lock) the
   schedule read-read-write-write loses one of two give-backs *)
Example C18_lost_update_without_lock :
  let m := {| sm_rem := 1; sm_sent := [2; 3] |} in
  let fA := spray_report_failure SprayVanilla None 2 in
  let fB := spray_report_failure SprayVanilla None 3 in
  let s := rf_run false fA fB (rf_init (Some m)) [false; true; false; true; false; true; false; true] in
  rf_finished s = true /\ rs_shared s = Some {| sm_rem := 2; sm_sent := [2] |}
  /\ fB (fA m) = {| sm_rem := 3; sm_sent := [] |}.
Proof. vm_compute. repeat split. Qed.

(* the same schedule under the lock finishes later but with both copies back *)
Example C18_locked_schedule_finishes : forall fA fB m0,
  rf_finished (rf_run true fA fB (rf_init m0) [false; true; false; true; false; false; true; false; true; true; true; true]) = true.
Proof. intros fA fB [m|]; reflexivity. Qed.

(* L = 3, destination node 1 never appears: two relays are served, the third is refused; a failed
   relay gets nothing counted and its copy comes back *)
Example C18_example_budget :
  let h := [ (SeCreate true 1 None None, []);
             (SePeerUp 10 2 true, [10]);             (* fails: copy back *)
             (SePeerUp 11 3 false, [10; 11]);        (* the failing link is tried again, fails again *)
             (SePeerUp 12 4 false, [12]);            (* one copy left to give: Go's map order picked 12, not 10 *)
             (SePeerUp 13 5 false, []);              (* wait phase: nobody *)
             (SeSetFail 10 false, []); (SeTick, []) ] in
  match spray_run (vconf 3) spray_init h with
  | Some (s, outs) => spray_relayed 1 outs = 2 /\ ss_meta s = Some {| sm_rem := 1; sm_sent := [3; 4] |}
                      /\ hist_originated h = true
  | None => False
  end.
Proof. vm_compute. repeat split. Qed.

(* fix 772c5cf.  L = 3: a bundle of ours comes back from node 2.  Node 2 is in the sent list and is
   never offered the bundle, yet it has not used up a copy: nodes 3 and 4 are served (L-1 = 2
   relays), node 5 is refused; remaining 1 + handed over 2 = L although the sent list has 3 entries *)
Example C18_example_comeback :
  let h := [ (SePeerUp 10 2 false, []); (SeCreate true 1 None (Some 2), []);
             (SePeerUp 11 3 false, [11]); (SePeerUp 12 4 false, [12]); (SePeerUp 13 5 false, []) ] in
  match spray_life (vconf 3) spray_init [] h with
  | Some (s, outs) => spray_relayed 1 outs = 2 /\ ss_meta s = Some {| sm_rem := 1; sm_sent := [2; 3; 4] |}
                      /\ hist_originated h = true /\ hist_wf h = true /\ hist_once h = true
  | None => False
  end.
Proof. vm_compute. repeat split. Qed.

(* ... and serving node 2 is not an observation the model allows *)
Example C18_example_comeback_guard :
  spray_run (vconf 3) spray_init [ (SePeerUp 10 2 false, []); (SeCreate true 1 None (Some 2), [10]) ] = None.
Proof. vm_compute. reflexivity. Qed.

(* Lives.  L = 2: the bundle is sprayed to node 2, delivered to its destination (node 1) and thereby
   leaves the store; a duplicate arriving while it was stored changed nothing.  It then comes back
   from node 4: a new life with the full budget - node 2, still connected, is served a second
   time, node 4 is excluded when it appears, node 3 is refused (wait phase).  Each life keeps its
   budget (1 relay); over both lives 2 > L-1 transmissions went to relays - the node cannot know:
   the store has deleted the bundle and the metadata is overwritten (GC or not). *)
Example C18_budget_across_lives :
  let h := [ (SeCreate true 1 None None, []); (SePeerUp 10 2 false, [10]);
             (SeCreate true 1 None (Some 5), []);                          (* duplicate of a stored bundle: dropped *)
             (SePeerUp 11 1 false, []); (SePeerDown 11, []);               (* delivered: leaves the store *)
             (SeCreate true 1 None (Some 4), [10]);                        (* comes back from node 4; node 2 is still there *)
             (SePeerUp 12 4 false, []); (SePeerUp 13 3 false, []) ] in
  hist_originated h = true /\ hist_wf h = true /\
  match spray_life (vconf 2) spray_init [] h, spray_run (vconf 2) spray_init h with
  | Some (s, cur), Some (s', all) =>
      s = s' /\ spray_relayed 1 cur = 1 /\ spray_relayed 1 all = 2
      /\ ss_meta s = Some {| sm_rem := 1; sm_sent := [4; 2] |}
  | _, _ => False
  end.
Proof. vm_compute. repeat split. Qed.

(* [hist_wf] is needed since fix 772c5cf: L = 2, a bundle of ours comes back *from its destination*
   (node 1).  The failed direct delivery to node 1 finds node 1 in the sent list and gives back a
   copy that was never taken: 3 copies, two relays served, 2 > L-1.  (The same quirk has always
   existed for bundles of other nodes and is why the binary theorems assume [hist_wf].) *)
Example C18_budget_needs_wf :
  let h := [ (SePeerUp 10 1 true, []); (SeCreate true 1 None (Some 1), []); (SePeerDown 10, []);
             (SePeerUp 11 2 false, [11]); (SePeerUp 12 3 false, [12]) ] in
  hist_originated h = true /\ hist_wf h = false /\
  match spray_life (vconf 2) spray_init [] h with
  | Some (s, outs) => spray_relayed 1 outs = 2 /\ ss_meta s = Some {| sm_rem := 1; sm_sent := [2; 3] |}
  | None => False
  end.
Proof. vm_compute. repeat split. Qed.

(* the model refuses an observation in which a third relay is served with L = 3 *)
Example C18_example_guard :
  spray_run (vconf 3) spray_init
    [ (SeCreate true 1 None None, []); (SePeerUp 11 3 false, [11]); (SePeerUp 12 4 false, [12]); (SePeerUp 13 5 false, [13]) ] = None.
Proof. vm_compute. reflexivity. Qed.

(* binary, L = 8: failed send to node 2 restores 8; then 4 to node 2, 2 to node 3, 1 to node 4, then wait *)
Example C18_example_binary :
  let h := [ (SePeerUp 10 2 true, []); (SeCreate true 1 None None, [10]); (SeSetFail 10 false, []); (SeTick, [10]);
             (SePeerUp 11 3 false, [11]); (SePeerUp 12 4 false, [12]); (SePeerUp 13 5 false, []) ] in
  match spray_run (bconf 8) spray_init h with
  | Some (s, outs) => map sn_blk outs = [Some 4; Some 4; Some 2; Some 1] /\ map sn_ok outs = [false; true; true; true]
                      /\ ss_meta s = Some {| sm_rem := 1; sm_sent := [2; 3; 4] |} /\ bspray_handed 1 outs = 7
                      /\ hist_wf h = true
  | None => False
  end.
Proof. vm_compute. repeat split. Qed.

(* a copy handed out while a collection runs stays counted (L = 2: the second relay is refused) *)
Example C18_example_gc_overlap :
  match spray_run (vconf 2) spray_init [ (SeCreate true 7 None None, []) ] with
  | Some (s, _) =>
    match spray_step_gc true (vconf 2) s (SePeerUp 10 1 false) [10] with
    | Some (s1, o1) => ss_meta s1 = Some {| sm_rem := 1; sm_sent := [1] |} /\ spray_relayed 7 o1 = 1
                       /\ spray_step_gc false (vconf 2) s1 (SePeerUp 11 2 false) [11] = None
                       /\ exists s2, spray_step_gc false (vconf 2) s1 (SePeerUp 11 2 false) [] = Some (s2, [])
    | None => False
    end
  | None => False
  end.
Proof. vm_compute. repeat split. eexists. reflexivity. Qed.
