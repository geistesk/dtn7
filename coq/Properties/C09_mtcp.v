(* C09, part "mtcp": fragmentation, transport and reassembly composed. *)
From Coq Require Import Permutation.
From DTN Require Import Base Cbor Crc Eid Bundle BundleWf BundleProofs Reasm Frag FragProofs Mtcp MtcpProofs MtcpBundles FragMtcp.
Open Scope N_scope.

(* A well-formed valid bundle (not itself a fragment) fragmented for any maximum size below 2^64, the fragments
   sent one after the other over one MTCP connection: the server - parsing every frame with the bundle decoder -
   hands up exactly the fragments, and reassembling what it handed up, in ANY order of arrival, yields the
   original bundle itself (or the bundle was returned unfragmented and arrives as itself). *)
Theorem C09_over_mtcp : forall now b mtu fs,
  bundle_wf b = true -> check_valid now b = true -> has (p_flags (b_pri b)) F_FRAG = false -> mtu < 2 ^ 64 ->
  fg_fragment now b mtu = FOk fs ->
  mtcp_server (mb_parse now) (mtcp_client_stream (map mb_ev (map Some fs))) = fs
  /\ (fs = [b] \/ forall pi, Permutation pi fs -> fg_reassemble now pi = ROk b).
Proof.
  intros now b mtu fs Hwf Hv Hnf Hm Hf.
  split; [exact (frag_stream now b mtu fs Hwf Hv Hm Hf)|exact (fragment_invertible now b mtu fs Hwf Hv Hnf Hf)].
Qed.
Print Assumptions C09_over_mtcp.

(* non-vacuity: the 104-byte bundle of C09.v at mtu 90: three fragments cross the MTCP stream and come back as b *)
From DTN Require C09.
Example C09_over_mtcp_example : exists fs,
  fg_fragment 2000 (C09.c09_b C09.c09_data) 90 = FOk fs /\ length fs = 3%nat
  /\ mtcp_server (mb_parse 2000) (mtcp_client_stream (map mb_ev (map Some fs))) = fs
  /\ fg_reassemble 2000 (rev fs) = ROk (C09.c09_b C09.c09_data).
Proof. eexists. split; [vm_compute; reflexivity|]. split; [reflexivity|]. split; vm_compute; reflexivity. Qed.
