(* C11 - TCPCLv4 transfers deliver the exact bundle, and success means delivered.
   The model (Model/Tcpcl.v) is the code after the repairs "fix: tcpclv4: ..." in the dtn7-go tree
   (END by look-ahead, zero MTU rejected, segment buffer capped). *)
From DTN Require Import Base Tcpcl TcpclProofs ConstsOkTcpcl.
Open Scope N_scope.

(* Sender: for every bundle encoding [bs] of at least one byte and every negotiated segment size
   [m] of at least one byte, every XFER_SEGMENT carries the transfer id, between 1 and m bytes (and
   never more than the sender's own cap), the concatenation of the segment data is [bs], START is
   on exactly the first and END on exactly the last segment. *)
Theorem C11_segments : forall bs m tid,
  bs <> [] -> 1 <= m ->
  let ss := segments bs m tid in
  Forall (fun s => sg_tid s = tid /\ 1 <= nlen (sg_data s) <= N.min m tc_max_segment /\ nlen (sg_data s) <= m) ss
  /\ concat (map sg_data ss) = bs
  /\ start_only_first ss
  /\ end_only_last ss.
Proof.
  intros bs m tid Hne Hm. destruct (tcpcl_segments bs m tid Hne Hm) as (Hall & Hrest).
  split; [|exact Hrest]. eapply Forall_impl; [|exact Hall]. intros s (Ht & Hl). split; [exact Ht|]. split; [exact Hl|]. lia.
Qed.
Print Assumptions C11_segments.

(* the divisor case, explicit: when the segment size divides the length, all L/m segments are
   full and the last one - although it fills the buffer exactly - carries END *)
Theorem C11_segments_divisor : forall bs m tid q,
  1 <= m -> m <= tc_max_segment -> nlen bs = N.of_nat (S q) * m ->
  let ss := segments bs m tid in
  length ss = S q /\ Forall (fun s => nlen (sg_data s) = m) ss /\ end_only_last ss.
Proof.
  intros bs m tid q Hm Hcap Hlen.
  assert (Hk : seg_size m = N.to_nat m) by (unfold seg_size; f_equal; lia).
  assert (Hne : bs <> []) by (intros ->; unfold nlen in Hlen; cbn [length] in Hlen; nia).
  destruct (segs_loop_divisor (S q) (S (length bs)) m (out_init tid bs) Hm (Nat.lt_succ_diag_r _)) as (Hl & Hall).
  { unfold nlen in Hlen. cbn [out_init os_stream]. rewrite Hk. lia. }
  split; [exact Hl|]. split.
  - eapply Forall_impl; [|exact Hall]. intros s Hs. unfold nlen. rewrite Hs, Hk. lia.
  - apply (tcpcl_segments bs m tid Hne Hm).
Qed.
Print Assumptions C11_segments_divisor.

(* Receiver (TransferManager.handle): for any interleaving [tr] of the segment sequences of
   transfers with pairwise distinct ids (any bundles, any segment sizes), exactly one bundle per
   transfer is handed up, equal to the one sent, and nothing else is handed up. *)
Theorem C11_receiver : forall xs tr,
  NoDup (map x_tid xs) -> Forall xfer_ok xs -> MergeAll (map xfer_segs xs) tr ->
  (forall x, In x xs -> filter (dl_tid (x_tid x)) (rx_delivered tr) = [(x_tid x, x_bs x)])
  /\ (forall d, In d (rx_delivered tr) -> exists x, In x xs /\ d = (x_tid x, x_bs x)).
Proof. exact tcpcl_receiver. Qed.
Print Assumptions C11_receiver.

(* Send: for every accepted history of the Send state machine (any order of emitter steps,
   acknowledgements, refusals, close, timeout) in which the acknowledgements are ones an honest
   receiver of this transfer produces: if Send returns success then the acknowledged length is the
   full length, every segment including the END one was emitted, the acknowledgement that
   completed it is the one answering the last segment, and the receiver fed with what was emitted
   has handed up exactly the bundle. *)
Theorem C11_success_sound : forall bs m tid evs st outs,
  bs <> [] -> 1 <= m ->
  send_run (send_init bs m tid) evs = Some (st, outs) ->
  forallb (honest_event (segments bs m tid)) evs = true ->
  ss_result st = Some SrOk ->
  ss_inlen st = nlen bs
  /\ outs = segments bs m tid
  /\ (exists k, nth_error (rx_ack_lens (segments bs m tid)) k = Some (ss_inlen st)
                /\ S k = length (segments bs m tid))
  /\ rx_delivered outs = [(tid, bs)].
Proof. exact tcpcl_success_sound. Qed.
Print Assumptions C11_success_sound.

(* ... and an error otherwise: a refusal, a timeout (missing acknowledgement) or an error of the
   emitter (session closed) ends Send with that error, whatever else happens; and while Send has
   not returned the timeout can always fire (Send cannot block for ever). *)
Theorem C11_failure_reported : forall bs m tid evs st outs,
  send_run (send_init bs m tid) evs = Some (st, outs) ->
  (In SeRefuse evs -> ss_result st = Some SrRefused)
  /\ (In SeTimeout evs -> ss_result st = Some SrTimeout)
  /\ (In SeRecvErr evs -> exists r, ss_result st = Some r /\ r <> SrOk)
  /\ (ss_result st = None -> exists st', send_step st SeTimeout = Some (st', []) /\ ss_result st' = Some SrTimeout).
Proof.
  intros bs m tid evs st outs Hrun.
  assert (Hi : err_inv (send_init bs m tid)) by discriminate.
  destruct (send_run_failure evs _ _ _ Hi Hrun) as (_ & H1 & H2 & H3).
  split; [exact H1|]. split; [exact H2|]. split; [exact H3|].
  intros Hn. cbn [send_step]. rewrite Hn. eexists. split; reflexivity.
Qed.
Print Assumptions C11_failure_reported.

Theorem C11_close_reported : forall st st' o,
  ss_running st = true -> ss_stop st = false -> ss_tmstop st = true ->
  send_step st SeStep = Some (st', o) -> o = [] /\ ss_errchan st' = Some SrStopped /\ ss_running st' = false.
Proof.
  intros st st' o Hr Hs Ht H. cbn [send_step] in H. rewrite Hr, Hs, Ht in H. cbn [negb] in H.
  inversion H; subst. auto.
Qed.
Print Assumptions C11_close_reported.

(* Session level, sender: a Client whose peer announced Segment MRU [peer] >= 1 in SESS_INIT (the
   Client itself announced [own]) sends the bundles [bss] by any number of possibly concurrent
   Send calls. The transfer ids are pairwise distinct, and for every interleaving [tr] of the
   transfers' XFER_SEGMENTs the peer-side checker holds: per transfer id the segments are at most
   [peer] bytes, concatenate to the bundle's encoding, START exactly on the first and END exactly
   on the last, and no segment belongs to anything else. *)
Theorem C11_session_sender : forall own peer next bss tr,
  1 <= peer -> Forall (fun bs => bs <> []) bss ->
  MergeAll (tcc_session_segs own peer next bss) tr ->
  NoDup (tcc_alloc_n next (length bss))
  /\ tcc_chk_trace peer (tcc_session_xfers next bss) tr = true.
Proof. exact tcc_session_sender. Qed.
Print Assumptions C11_session_sender.

(* Session level, receiver (Client.handle on top of the TransferManager): for any interleaving of
   transfers with pairwise distinct ids there are exactly as many ReceivedBundle reports as
   transfers, every bundle sent is reported and nothing else is. *)
Theorem C11_session_reports : forall xs tr,
  NoDup (map x_tid xs) -> Forall xfer_ok xs -> MergeAll (map xfer_segs xs) tr ->
  length (tcc_reports tr) = length xs
  /\ (forall x, In x xs -> In (x_bs x) (tcc_reports tr))
  /\ (forall b, In b (tcc_reports tr) -> exists x, In x xs /\ b = x_bs x).
Proof.
  intros xs tr Hnd Hok Hm. destruct (tcpcl_receiver xs tr Hnd Hok Hm) as [H1 H2].
  split; [exact (tcc_reports_count xs tr Hok Hm)|]. split.
  - intros x Hx. apply (in_map snd _ (x_tid x, x_bs x)). eapply filter_In. rewrite (H1 x Hx). left. reflexivity.
  - intros b Hb. apply in_map_iff in Hb. destruct Hb as (d & <- & Hd).
    destruct (H2 d Hd) as (x & Hx & ->). exists x. split; [exact Hx|reflexivity].
Qed.
Print Assumptions C11_session_reports.

(* non-vacuity *)
Example C11_example_divisor :
  segments [10; 11; 12; 13; 14; 15] 3 7 = [mkSeg 2 7 [10; 11; 12]; mkSeg 1 7 [13; 14; 15]]
  /\ segments [10; 11; 12; 13; 14; 15] 4 7 = [mkSeg 2 7 [10; 11; 12; 13]; mkSeg 1 7 [14; 15]]
  /\ segments [10; 11] 9 7 = [mkSeg 3 7 [10; 11]].
Proof. vm_compute. repeat split; reflexivity. Qed.
Example C11_example_interleaved :
  rx_delivered [mkSeg 2 1 [1; 2]; mkSeg 2 5 [9]; mkSeg 1 1 [3]; mkSeg 1 5 [8; 7]] = [(1, [1; 2; 3]); (5, [9; 8; 7])]
  /\ MergeAll [segments [1; 2; 3] 2 1; segments [9; 8; 7] 1 5]
       [mkSeg 2 1 [1; 2]; mkSeg 2 5 [9]; mkSeg 1 1 [3]; mkSeg 0 5 [8]; mkSeg 1 5 [7]].
Proof.
  split; [vm_compute; reflexivity|].
  change (segments [1; 2; 3] 2 1) with [mkSeg 2 1 [1; 2]; mkSeg 1 1 [3]].
  change (segments [9; 8; 7] 1 5) with [mkSeg 2 5 [9]; mkSeg 0 5 [8]; mkSeg 1 5 [7]].
  eapply ma_cons; [eapply ma_cons; [apply ma_nil|]|]; repeat constructor.
Qed.
Example C11_example_session : tcc_alloc_n 0 3 = [0; 1; 2]
  /\ tcc_chk_trace 2 (tcc_session_xfers 0 [[1; 2; 3]; [9; 8]]) [mkSeg 2 0 [1; 2]; mkSeg 3 1 [9; 8]; mkSeg 1 0 [3]] = true
  /\ tcc_chk_trace 2 (tcc_session_xfers 0 [[1; 2; 3]; [9; 8]]) [mkSeg 3 0 [1; 2; 3]; mkSeg 3 1 [9; 8]] = false
  /\ tcc_chk_trace 2 [(0, [1; 2; 3]); (0, [9; 8])] [mkSeg 3 0 [1; 2; 3]; mkSeg 3 0 [9; 8]] = false
  /\ tcc_reports [mkSeg 2 0 [1; 2]; mkSeg 3 1 [9; 8]; mkSeg 1 0 [3]] = [[9; 8]; [1; 2; 3]].
Proof. exact tcc_session_example. Qed.
Example C11_example_send :
  let evs := [SeStep; SeAck 2; SeStep; SeAck 4; SeStep; SeRecvLen] in
  forallb (honest_event (segments [1; 2; 3; 4] 2 0)) evs = true
  /\ option_map (fun r => (ss_result (fst r), snd r)) (send_run (send_init [1; 2; 3; 4] 2 0) evs)
     = Some (Some SrOk, [mkSeg 2 0 [1; 2]; mkSeg 1 0 [3; 4]]).
Proof. exact tcpcl_send_ok_example. Qed.
